(** * Meta: the replica directory after each operation, after a process death at any call and after a reopen
    (C08, C12).

    A run is looked at in several ways, each tied to the next by one lemma:
    - [exec p w cnt ca fa] (Model.v): calls numbered from [cnt], a death at [ca], a failing call [fa];
    - [ff p w], [fftr p w]: where the fault-free run ends and the calls it makes ([exec_ff]);
    - [states p w] (Model.v): the directories it passes through.  A death leaves one of them ([crash_prefix],
      [crash_in_states]), the last is [fst (ff p w)] ([states_last_ff]), there is one more than calls ([calls_states]);
    - [later p w]: the states behind a call that can change the directory; the others repeat their predecessor
      ([states_later]);
    - [step_at p w j] (Fault.v): the j-th call, its continuation and the directory before it, a member of [states]
      ([step_at_state]); a run whose call j fails goes on from there ([fexec_at]).

    What is said of a directory is said through [recover] (Model.v: what a restarted process reads) and [veq] (two
    recovered views equal on all that recovery does not rewrite).  Each notion is built from the one before:
    - [Good g vpre vpost x]: [x] recovers to a view [veq] to [vpre] or to [vpost];
    - [Atomic g vpre vpost p w]: every state of the fault-free run is [Good]; with [crash_prefix] this is crash
      atomicity.  Rules: [Atomic_ret], [Atomic_bind], [Atomic_silent] (a part that writes no file of the chain),
      [Atomic_encode_bind] (the atomic replace by encodeToFile);
    - [runs g v vp p w w' a]: [Atomic], and the run ends in [w'] returning [a]; the form in which runs are composed
      ([runs_do], [runs_bind], [runs_encode]);
    - [ospec g w v m p]: an operation on an open replica started from a [ctx] [runs] to a directory and a memory that
      are a [ctx] again, and when it does not return success, view and memory are the old ones ([ospec_of_runs]); one
      [_spec] theorem per operation;
    - [sspec g w v om p]: the same for a Server-level program [op_prog g om o] and the invariant of histories [InvS]
      ([sspec_lift] where the operation has an [ospec]); [step_sspec] is every operation, [step_plain], [crash_state],
      [step_inv], [hist_inv] are one step and histories.
    [ctx g w v m] is what an operation starts from: [w] recovers to the well-formed view [v] ([wf_view]) and the memory
    [m] agrees with it ([agree]).  [magree] is [agree] for a bare member list, before a view exists: the list surgery
    of Snapshot and RemoveDiffDisk is done on it ([magree_of_agree], [agree_of_magree]). *)
From Coq Require Import List ZArith NArith Bool Arith Lia.
From Jiva Require Import Meta.Model Meta.Corr.
Import ListNotations.

(** ** programs and their runs *)

Definition dir_of_run {A} (x : fs * trace * outcome A) : fs := fst (fst x).
Definition out_of_run {A} (x : fs * trace * outcome A) : outcome A := snd x.
Definition trace_of_run {A} (x : fs * trace * outcome A) : trace := snd (fst x).

Lemma exec_Do : forall A (c : call) (k : reply -> prog A) w cnt ca fa,
  exec (Do c k) w cnt ca fa =
  if hits ca cnt then (w, [], Crashed)
  else let '(w1, r) := match fails fa cnt with Some e => (w, RErr e) | None => apply_call w c end in
       let '(w2, t, o) := exec (k r) w1 (S cnt) ca fa in (w2, (c, r) :: t, o).
Proof. reflexivity. Qed.

Lemma states_Do : forall A (c : call) (k : reply -> prog A) w,
  states (Do c k) w = w :: (let '(w1, r) := apply_call w c in states (k r) w1).
Proof. reflexivity. Qed.

Fixpoint ff {A} (p : prog A) (w : fs) : fs * outcome A :=
  match p with
  | Ret a => (w, Done a)
  | Abort e => (w, Aborted e)
  | Do c k => let '(w1, r) := apply_call w c in ff (k r) w1
  end.

Fixpoint fftr {A} (p : prog A) (w : fs) : trace :=
  match p with
  | Do c k => let '(w1, r) := apply_call w c in (c, r) :: fftr (k r) w1
  | _ => []
  end.

Lemma exec_ff : forall A (p : prog A) w cnt, exec p w cnt None None = (fst (ff p w), fftr p w, snd (ff p w)).
Proof.
  induction p as [a | e | c k IH]; intros w cnt; cbn; try reflexivity.
  destruct (apply_call w c) as [w1 r]. rewrite IH. reflexivity.
Qed.

Lemma states_head : forall A (p : prog A) w, exists l, states p w = w :: l.
Proof. intros A p w. destruct p; cbn; eauto. Qed.

Lemma states_last_ff : forall A (p : prog A) w d, last (states p w) d = fst (ff p w).
Proof.
  induction p as [a | e | c k IH]; intros w d; cbn [states ff]; try reflexivity.
  destruct (apply_call w c) as [w1 r]. specialize (IH r w1 d).
  destruct (states_head _ (k r) w1) as [l Hl]. rewrite Hl in *. cbn [last] in *. exact IH.
Qed.

Lemma states_nonempty : forall A (p : prog A) w, states p w <> [].
Proof. intros A p w. destruct (states_head A p w) as [l ->]. discriminate. Qed.

Theorem crash_prefix : forall A (p : prog A) w cnt k,
  dir_of_run (exec p w cnt (Some (cnt + k)) None) = nth k (states p w) (last (states p w) w).
Proof.
  intros A p w cnt k. rewrite states_last_ff. revert w cnt k.
  induction p as [a | e | c kk IH]; intros w cnt k.
  - cbn. destruct k as [| [| k]]; reflexivity.
  - cbn. destruct k as [| [| k]]; reflexivity.
  - rewrite exec_Do, states_Do. cbn [ff]. unfold hits, fails.
    destruct k as [| k].
    + replace (cnt + 0) with cnt by lia. rewrite Nat.eqb_refl. reflexivity.
    + replace (Nat.eqb (cnt + S k) cnt) with false by (symmetry; apply Nat.eqb_neq; lia).
      destruct (apply_call w c) as [w1 r].
      specialize (IH r w1 (S cnt) k).
      replace (S cnt + k) with (cnt + S k) in IH by lia.
      destruct (exec (kk r) w1 (S cnt) (Some (cnt + S k)) None) as [[w2 t] o]. exact IH.
Qed.

Lemma ff_in_states : forall A (p : prog A) w, In (fst (ff p w)) (states p w).
Proof.
  induction p as [a | e | c k IH]; intros w; [left; reflexivity | left; reflexivity |].
  rewrite states_Do. cbn [ff]. right. destruct (apply_call w c) as [w1 r]. apply IH.
Qed.

Corollary crash_in_states : forall A (p : prog A) w k,
  In (dir_of_run (exec p w 0 (Some k) None)) (states p w).
Proof.
  intros A p w k. pose proof (crash_prefix A p w 0 k) as H. cbn [plus] in H. rewrite H.
  destruct (Nat.lt_ge_cases k (length (states p w))) as [Hlt | Hge].
  - apply nth_In; assumption.
  - rewrite nth_overflow by assumption. rewrite states_last_ff. apply ff_in_states.
Qed.

Definition silent (c : call) : bool :=
  match c with
  | CStat _ | COpenRW _ | CClose _ | CTruncate _ _ | CFsyncDir | CMkdirDir | CReadDir | CReadFile _ | CPreadCounter => true
  | _ => false
  end.

Lemma silent_same : forall w c, silent c = true -> fst (apply_call w c) = w.
Proof.
  intros w c H. destruct c; try discriminate H; cbn [apply_call]; try reflexivity;
    destruct (files w _) as [[]|]; reflexivity.
Qed.

Fixpoint later {A} (p : prog A) (w : fs) : list fs :=
  match p with
  | Do c k => let '(w1, r) := apply_call w c in (if silent c then [] else [w1]) ++ later (k r) w1
  | _ => []
  end.

Lemma states_later : forall A (p : prog A) w x, In x (states p w) <-> In x (w :: later p w).
Proof.
  induction p as [a | e | c k IH]; intros w x; [reflexivity | reflexivity |].
  rewrite states_Do. cbn [later]. pose proof (silent_same w c) as Hs.
  destruct (apply_call w c) as [w1 r]. cbn [In]. rewrite IH. cbn [In fst] in *.
  destruct (silent c); cbn [app In]; [rewrite (Hs eq_refl) |]; tauto.
Qed.

Lemma calls_states : forall A (p : prog A) w, length (states p w) = S (length (fftr p w)).
Proof.
  induction p as [a | e | c k IH]; intros w; [reflexivity | reflexivity |].
  rewrite states_Do. cbn [fftr]. destruct (apply_call w c) as [w1 r]. cbn [length]. rewrite IH. reflexivity.
Qed.

Lemma ff_bind : forall A B (p : prog A) (f : A -> prog B) w,
  ff (bind p f) w = match ff p w with
                    | (w1, Done a) => ff (f a) w1
                    | (w1, Crashed) => (w1, Crashed)
                    | (w1, Aborted e) => (w1, Aborted e)
                    end.
Proof.
  induction p as [a | e | c k IH]; intros f w; cbn.
  - destruct (ff (f a) w) as [w1 o]. reflexivity.
  - reflexivity.
  - destruct (apply_call w c) as [w1 r]. apply IH.
Qed.

Lemma ff_bind_done : forall {A B} {p : prog A} {f : A -> prog B} {w w1 a},
  ff p w = (w1, Done a) -> ff (bind p f) w = ff (f a) w1.
Proof. intros A B p f w w1 a H. rewrite ff_bind, H. reflexivity. Qed.

Lemma states_bind_in : forall A B (p : prog A) (f : A -> prog B) w x,
  In x (states (bind p f) w) ->
  In x (states p w) \/ exists a, snd (ff p w) = Done a /\ In x (states (f a) (fst (ff p w))).
Proof.
  induction p as [a | e | c k IH]; intros f w x Hin.
  - right. exists a. cbn. auto.
  - left. exact Hin.
  - cbn [bind] in Hin. rewrite states_Do in Hin. rewrite states_Do. cbn [ff].
    destruct (apply_call w c) as [w1 r]. destruct Hin as [Heq | Hin].
    + left. left. exact Heq.
    + apply IH in Hin. destruct Hin as [Hin | Hin]; [left; right; exact Hin | right; exact Hin].
Qed.

Lemma Forall_states_ret : forall A (P : fs -> Prop) (a : A) w, P w -> Forall P (states (Ret a) w).
Proof. intros. cbn. constructor; [assumption | constructor]. Qed.

Lemma Forall_states_bind_ff : forall A B (P : fs -> Prop) (p : prog A) (f : A -> prog B) w w1 a,
  ff p w = (w1, Done a) -> Forall P (states p w) -> Forall P (states (f a) w1) ->
  Forall P (states (bind p f) w).
Proof.
  intros A B P p f w w1 a Hff Hp Hf. apply Forall_forall. intros x Hin.
  apply states_bind_in in Hin. rewrite Hff in Hin. cbn [fst snd] in Hin.
  destruct Hin as [Hin | [a' [[= <-] Hin]]]; [exact (proj1 (Forall_forall _ _) Hp x Hin) | exact (proj1 (Forall_forall _ _) Hf x Hin)].
Qed.

Definition map_outcome {A B} (h : A -> B) (o : outcome A) : outcome B :=
  match o with Done a => Done (h a) | Crashed => Crashed | Aborted e => Aborted e end.

Lemma exec_bind_ret : forall A B (p : prog A) (f : A -> prog B) (h : A -> B) w cnt ca fa,
  (forall a, f a = Ret (h a)) ->
  exec (bind p f) w cnt ca fa = let '(w1, t, o) := exec p w cnt ca fa in (w1, t, map_outcome h o).
Proof.
  induction p as [a | e | c k IH]; intros f h w cnt ca fa Hf; cbn [bind exec map_outcome]; try reflexivity.
  - rewrite Hf. reflexivity.
  - destruct (hits ca cnt); [reflexivity |].
    destruct (match fails fa cnt with Some e => (w, RErr e) | None => apply_call w c end) as [w1 r].
    rewrite (IH r f h) by exact Hf. destruct (exec (k r) w1 (S cnt) ca fa) as [[w2 t] o]. reflexivity.
Qed.

Lemma exec_lift : forall (p : prog (mem * res)) w cnt ca fa,
  exec (lift p) w cnt ca fa =
  let '(w1, t, o) := exec p w cnt ca fa in (w1, t, map_outcome (fun x => (Some (fst x), snd x, O)) o).
Proof. intros. apply exec_bind_ret. intros [m e]. reflexivity. Qed.

Lemma exec_keepold : forall g m (p : prog (mem * res)) w cnt ca fa,
  exec (keepold g m p) w cnt ca fa =
  let '(w1, t, o) := exec p w cnt ca fa in (w1, t, map_outcome (keep_old g m) o).
Proof. intros. unfold keepold. apply exec_bind_ret. reflexivity. Qed.

(** ** the model's equality tests and function updates *)

Lemma dname_eqb_eq : forall a b, dname_eqb a b = true <-> a = b.
Proof. intros [x | x | x] [y | y | y]; cbn; rewrite ?Nat.eqb_eq, ?N.eqb_eq; split; congruence. Qed.
Lemma dname_eqb_refl : forall a, dname_eqb a a = true.
Proof. intro a. apply dname_eqb_eq. reflexivity. Qed.
Lemma dname_eqb_neq : forall a b, a <> b -> dname_eqb a b = false.
Proof. intros a b H. destruct (dname_eqb a b) eqn:E; [apply dname_eqb_eq in E; contradiction | reflexivity]. Qed.
Lemma dname_eqb_sym : forall a b, dname_eqb a b = dname_eqb b a.
Proof.
  intros a b. destruct (dname_eqb a b) eqn:E.
  - apply dname_eqb_eq in E. subst. symmetry. apply dname_eqb_refl.
  - symmetry. apply dname_eqb_neq. intro H. subst. rewrite dname_eqb_refl in E. discriminate.
Qed.
Lemma dname_dec : forall a b : dname, {a = b} + {a <> b}.
Proof. intros a b. destruct (dname_eqb a b) eqn:E; [left; apply dname_eqb_eq; assumption | right; intro H; subst; rewrite dname_eqb_refl in E; discriminate]. Qed.

Lemma name_eqb_eq : forall a b, name_eqb a b = true <-> a = b.
Proof. intros [x | x | x | | |] [y | y | y | | |]; cbn; rewrite ?dname_eqb_eq; split; congruence. Qed.
Lemma name_eqb_refl : forall a, name_eqb a a = true.
Proof. intro a. apply name_eqb_eq. reflexivity. Qed.
Lemma name_eqb_neq : forall a b, a <> b -> name_eqb a b = false.
Proof. intros a b H. destruct (name_eqb a b) eqn:E; [apply name_eqb_eq in E; contradiction | reflexivity]. Qed.

Lemma odname_eqb_eq : forall a b, odname_eqb a b = true <-> a = b.
Proof. intros [x |] [y |]; cbn; rewrite ?dname_eqb_eq; split; congruence. Qed.
Lemma odname_eqb_refl : forall a, odname_eqb a a = true.
Proof. intro a. apply odname_eqb_eq. reflexivity. Qed.
Lemma odname_eqb_neq : forall a b, a <> b -> odname_eqb a b = false.
Proof. intros a b H. destruct (odname_eqb a b) eqn:E; [apply odname_eqb_eq in E; contradiction | reflexivity]. Qed.

Lemma updf_eq : forall f a v, updf f a v a = v.
Proof. intros. unfold updf. rewrite name_eqb_refl. reflexivity. Qed.
Lemma updf_neq : forall f a v b, a <> b -> updf f a v b = f b.
Proof. intros. unfold updf. rewrite name_eqb_neq by assumption. reflexivity. Qed.
Lemma updd_eq : forall f a v, updd f a v a = v.
Proof. intros. unfold updd. rewrite dname_eqb_refl. reflexivity. Qed.
Lemma updd_neq : forall f a v b, a <> b -> updd f a v b = f b.
Proof. intros. unfold updd. rewrite dname_eqb_neq by assumption. reflexivity. Qed.
Lemma updc_eq : forall f a v, updc f a v a = v.
Proof. intros. unfold updc. rewrite odname_eqb_refl. reflexivity. Qed.
Lemma updc_neq : forall f a v b, a <> b -> updc f a v b = f b.
Proof. intros. unfold updc. rewrite odname_eqb_neq by assumption. reflexivity. Qed.

Lemma set_file_eq : forall w a v, files (set_file w a v) a = v.
Proof. intros. unfold set_file. cbn [files]. apply updf_eq. Qed.
Lemma set_file_neq : forall w a v b, a <> b -> files (set_file w a v) b = files w b.
Proof. intros. unfold set_file. cbn [files]. apply updf_neq. assumption. Qed.

Lemma memd_iff : forall x l, memd x l = true <-> In x l.
Proof.
  intros x l. induction l as [| y t IH]; cbn [memd In]; [split; [discriminate | contradiction] |].
  rewrite Bool.orb_true_iff, IH, dname_eqb_eq. split; intros [H | H]; auto.
Qed.
Lemma memd_false : forall x l, ~ In x l -> memd x l = false.
Proof. intros x l Hn. destruct (memd x l) eqn:E; [apply memd_iff in E; contradiction | reflexivity]. Qed.

(** ** a static footprint: the names a call can change *)

Definition may_write (c : call) : list name :=
  match c with
  | COpenTrunc n | COpenCreatTrunc n | COpenCreat n | CWriteAll n _ | CUnlink n | CPwriteImg n => [n]
  | CRename a b => [a; b]
  | CLink _ b => [b]
  | CPwriteCounter _ => [Counter]
  | _ => []
  end.

Lemma apply_call_frame : forall w c n, ~ In n (may_write c) -> files (fst (apply_call w c)) n = files w n.
Proof.
  intros w c n Hn. destruct c; cbn in *;
    repeat match goal with
           | |- context [match files ?w ?x with _ => _ end] => destruct (files w x) as [[]|]
           | |- context [if is_img ?x then _ else _] => destruct (is_img x)
           | |- context [match ?c with IVol _ => _ | _ => _ end] => destruct c
           end; cbn; try reflexivity;
    try (unfold updf; rewrite name_eqb_neq; [reflexivity | intro; subst; apply Hn; auto]).
  all: unfold updf; repeat rewrite name_eqb_neq; try reflexivity; intro; subst; apply Hn; cbn; auto.
Qed.

Definition possible (c : call) (r : reply) : Prop := exists w, snd (apply_call w c) = r.

Fixpoint within {A} (S : name -> Prop) (p : prog A) : Prop :=
  match p with
  | Do c k => (forall n, In n (may_write c) -> S n) /\ forall r, possible c r -> within S (k r)
  | _ => True
  end.

Lemma within_bind : forall A B S (p : prog A) (f : A -> prog B),
  within S p -> (forall a, within S (f a)) -> within S (bind p f).
Proof.
  induction p as [a | e | c k IH]; intros f Hp Hf; cbn [bind within] in *; auto.
  destruct Hp as [Hc Hk]. split; auto.
Qed.

Lemma within_weaken : forall A (S T : name -> Prop) (p : prog A),
  (forall n, S n -> T n) -> within S p -> within T p.
Proof.
  induction p as [a | e | c k IH]; intros HST Hp; cbn [within] in *; auto.
  destruct Hp as [Hc Hk]. split; auto.
Qed.

Definition only_on (S : name -> Prop) (w w' : fs) : Prop := forall n, ~ S n -> files w' n = files w n.

Lemma only_on_refl : forall S w, only_on S w w.
Proof. intros S w n _. reflexivity. Qed.
Lemma only_on_trans : forall S w1 w2 w3, only_on S w1 w2 -> only_on S w2 w3 -> only_on S w1 w3.
Proof. intros S w1 w2 w3 H1 H2 n Hn. rewrite H2, H1; auto. Qed.

Lemma within_states : forall A S (p : prog A) w, within S p -> Forall (only_on S w) (states p w).
Proof.
  induction p as [a | e | c k IH]; intros w Hp; cbn [states].
  - constructor; [apply only_on_refl | constructor].
  - constructor; [apply only_on_refl | constructor].
  - destruct Hp as [Hc Hk]. constructor; [apply only_on_refl |].
    destruct (apply_call w c) as [w1 r] eqn:Hcall.
    assert (Hpos : possible c r) by (exists w; rewrite Hcall; reflexivity).
    specialize (IH r w1 (Hk r Hpos)).
    eapply Forall_impl; [| exact IH]. intros x Hx.
    eapply only_on_trans; [| exact Hx].
    intros n Hn. replace w1 with (fst (apply_call w c)) by (rewrite Hcall; reflexivity).
    apply apply_call_frame. intro Hin. apply Hn. auto.
Qed.

Lemma within_ff : forall A S (p : prog A) w, within S p -> only_on S w (fst (ff p w)).
Proof.
  intros A S p w Hp. eapply Forall_forall; [apply within_states; exact Hp | apply ff_in_states].
Qed.

Fixpoint withinQ {A} (S : name -> Prop) (Q : A -> Prop) (p : prog A) : Prop :=
  match p with
  | Ret a => Q a
  | Abort _ => True
  | Do c k => (forall n, In n (may_write c) -> S n) /\ forall r, possible c r -> withinQ S Q (k r)
  end.

Lemma withinQ_within : forall A S Q (p : prog A), withinQ S Q p -> within S p.
Proof.
  induction p as [a | e | c k IH]; intros Hp; cbn [within withinQ] in *; auto.
  destruct Hp as [Hc Hk]. split; auto.
Qed.

Lemma withinQ_bind : forall A B S Q R (p : prog A) (f : A -> prog B),
  withinQ S Q p -> (forall a, Q a -> withinQ S R (f a)) -> withinQ S R (bind p f).
Proof.
  induction p as [a | e | c k IH]; intros f Hp Hf; cbn [bind withinQ] in *; auto.
  destruct Hp as [Hc Hk]. split; auto.
Qed.

Lemma withinQ_weaken : forall A (S T : name -> Prop) (Q R : A -> Prop) (p : prog A),
  (forall n, S n -> T n) -> (forall a, Q a -> R a) -> withinQ S Q p -> withinQ T R p.
Proof.
  induction p as [a | e | c k IH]; intros HST HQR Hp; cbn [withinQ] in *; auto.
  destruct Hp as [Hc Hk]. split; auto.
Qed.

Lemma withinQ_ff : forall A S Q (p : prog A) w a, withinQ S Q p -> snd (ff p w) = Done a -> Q a.
Proof.
  induction p as [a' | e | c k IH]; intros w a Hp Hd; cbn [ff withinQ] in *.
  - inversion Hd; subst; assumption.
  - discriminate.
  - destruct Hp as [Hc Hk]. destruct (apply_call w c) as [w1 r] eqn:Hcall.
    apply (IH r w1 a); [apply Hk; exists w; rewrite Hcall; reflexivity | exact Hd].
Qed.

(** ** recovery depends only on the chain's own files *)

Definition names_of_chain (l : list member) : list dname := map mb_name l.

Lemma names_of_chain_app : forall a b, names_of_chain (a ++ b) = names_of_chain a ++ names_of_chain b.
Proof. intros. apply map_app. Qed.

Definition footprint (l : list member) (n : name) : Prop :=
  n = Vol \/ n = Counter \/ exists d, In d (names_of_chain l) /\ (n = Meta d \/ n = Img d).

Lemma walk_unfold : forall f fuel d,
  walk f (S fuel) d =
  match f (Meta d), f (Img d) with
  | Some (IDisk dk), Some (IImg id _) =>
      match d_parent dk with
      | None => Some [mkmember d id dk]
      | Some p => match walk f fuel p with Some l => Some (mkmember d id dk :: l) | None => None end
      end
  | _, _ => None
  end.
Proof. reflexivity. Qed.

Fixpoint linked (f : name -> option ino) (l : list member) : Prop :=
  match l with
  | [] => True
  | mb :: t =>
      f (Meta (mb_name mb)) = Some (IDisk (mb_disk mb))
      /\ (exists gn, f (Img (mb_name mb)) = Some (IImg (mb_id mb) gn))
      /\ d_parent (mb_disk mb) = match t with y :: _ => Some (mb_name y) | [] => None end
      /\ linked f t
  end.

Definition first_name (l : list member) : option dname := match l with y :: _ => Some (mb_name y) | [] => None end.

Lemma walk_spec : forall f fuel d l, walk f fuel d = Some l ->
  linked f l /\ first_name l = Some d /\ length l <= fuel.
Proof.
  induction fuel as [| fuel IH]; intros d l Hw; [discriminate |].
  rewrite walk_unfold in Hw.
  destruct (f (Meta d)) as [[| dk | | |] |] eqn:Hm; try discriminate.
  destruct (f (Img d)) as [[| | id gn | |] |] eqn:Hi; try discriminate.
  destruct (d_parent dk) as [p |] eqn:Hp.
  - destruct (walk f fuel p) as [l' |] eqn:Hw'; [| discriminate].
    inversion Hw; subst l. destruct (IH p l' Hw') as [Hl [Hf Hlen]].
    split; [| split; [reflexivity | cbn; lia]]. cbn. rewrite Hp. repeat split; eauto.
  - inversion Hw; subst l. split; [| split; [reflexivity | cbn; lia]]. cbn. repeat split; eauto.
Qed.

Lemma linked_walk : forall f l fuel d, linked f l -> first_name l = Some d -> length l <= fuel ->
  walk f fuel d = Some l.
Proof.
  intros f l. induction l as [| mb t IH]; intros fuel d Hl Hf Hlen; [discriminate |].
  destruct fuel as [| fuel]; [cbn in Hlen; lia |]. injection Hf as <-.
  cbn in Hl. destruct Hl as [Hm [[gn Hi] [Hp Ht]]].
  rewrite walk_unfold, Hm, Hi, Hp.
  destruct t as [| y t'].
  - destruct mb; reflexivity.
  - rewrite (IH fuel (mb_name y) Ht); [destruct mb; reflexivity | reflexivity | cbn in *; lia].
Qed.

(** the second alternative: a data write bumps the write count of the head image, which [linked] (so [walk], so
    recovery) does not look at *)
Lemma linked_frame_id : forall f f' l, linked f l ->
  (forall x, In x (names_of_chain l) -> f' (Meta x) = f (Meta x)
     /\ (f' (Img x) = f (Img x) \/ exists id g1 g2, f (Img x) = Some (IImg id g1) /\ f' (Img x) = Some (IImg id g2))) ->
  linked f' l.
Proof.
  induction l as [| mb t IH]; intros Hl Hs; [exact I |].
  cbn [linked] in *. destruct Hl as [Hm [[gn Hi] [Hp Ht]]].
  destruct (Hs (mb_name mb)) as [H1 H2]; [left; reflexivity |].
  split; [rewrite H1; exact Hm |]. split; [| split; [exact Hp | apply IH; [exact Ht | intros x Hx; apply Hs; right; exact Hx]]].
  destruct H2 as [H2 | [id [g1 [g2 [H2 H3]]]]]; [rewrite H2; eauto | rewrite Hi in H2; injection H2 as <- _; eauto].
Qed.

Lemma linked_frame : forall f f' l, linked f l ->
  (forall x, In x (names_of_chain l) -> f' (Meta x) = f (Meta x) /\ f' (Img x) = f (Img x)) -> linked f' l.
Proof.
  intros f f' l Hl Hs. apply (linked_frame_id f f' l Hl). intros x Hx. destruct (Hs x Hx). split; [assumption | left; assumption].
Qed.

Lemma walk_fuel_mono : forall f fuel fuel' d l, walk f fuel d = Some l -> fuel <= fuel' -> walk f fuel' d = Some l.
Proof.
  intros f fuel fuel' d l Hw Hle. destruct (walk_spec _ _ _ _ Hw) as [Hl [Hf Hlen]].
  apply (linked_walk f l fuel' d Hl Hf). lia.
Qed.

Lemma linked_suffix : forall f pre suf, linked f (pre ++ suf) -> linked f suf.
Proof. intros f pre. induction pre as [| a t IH]; intros suf H; [exact H |]. apply IH. cbn [app linked] in H. tauto. Qed.

Lemma linked_member : forall f l mb, linked f l -> In mb l ->
  f (Meta (mb_name mb)) = Some (IDisk (mb_disk mb)) /\ exists gn, f (Img (mb_name mb)) = Some (IImg (mb_id mb) gn).
Proof.
  intros f l mb. induction l as [| a t IH]; intros Hl Hin; [contradiction |]. cbn [linked] in Hl.
  destruct Hl as [H1 [H2 [_ H4]]]. destruct Hin as [E | Hin]; [subst a; split; assumption | apply IH; assumption].
Qed.

Lemma linked_parent_in : forall f l mb p,
  linked f l -> In mb l -> d_parent (mb_disk mb) = Some p -> In p (names_of_chain l).
Proof.
  intros f l mb p Hl Hin Hp. destruct (in_split mb l Hin) as [l1 [l2 ->]].
  apply linked_suffix in Hl. cbn [linked] in Hl. destruct Hl as [_ [_ [Hpar _]]].
  rewrite Hp in Hpar. destruct l2 as [| pmb l2']; [discriminate |]. injection Hpar as ->.
  rewrite names_of_chain_app. apply in_or_app. right. right. left. reflexivity.
Qed.

Lemma recover_intro : forall g w i h l c,
  files w Vol = Some (IVol i) -> i_head i = Some h -> walk (files w) (maxlen g) h = Some l ->
  files w Counter = Some (ICounter c) -> recover g w = Some (mkview i l).
Proof. intros g w i h l c H1 H2 H3 H4. unfold recover. rewrite H1, H2, H3, H4. reflexivity. Qed.

Lemma recover_elim : forall g w v, recover g w = Some v ->
  files w Vol = Some (IVol (cv_info v)) /\
  exists h c, i_head (cv_info v) = Some h /\ files w Counter = Some (ICounter c)
              /\ linked (files w) (cv_chain v) /\ first_name (cv_chain v) = Some h /\ length (cv_chain v) <= maxlen g.
Proof.
  intros g w v H. unfold recover in H.
  destruct (files w Vol) as [[i | | | |] |]; try discriminate.
  destruct (i_head i) as [h |] eqn:Hh; [| discriminate].
  destruct (walk (files w) (maxlen g) h) as [l |] eqn:Hw; [| discriminate].
  destruct (files w Counter) as [[| | | c |] |] eqn:Hc; try discriminate.
  inversion H; subst v. cbn. split; [reflexivity |]. exists h, c. pose proof (walk_spec _ _ _ _ Hw). tauto.
Qed.

Lemma recover_img : forall g w v d, recover g w = Some v -> In d (names_of_chain (cv_chain v)) -> files w (Img d) <> None.
Proof.
  intros g w v d Hr Hd. apply in_map_iff in Hd. destruct Hd as [mb [<- Hmb]].
  destruct (recover_elim g w v Hr) as [_ [h [c [_ [_ [Hl _]]]]]]. destruct (linked_member _ _ mb Hl Hmb) as [_ [gn Hi]].
  rewrite Hi. discriminate.
Qed.

Lemma recover_of_linked : forall g w i l h c,
  files w Vol = Some (IVol i) -> files w Counter = Some (ICounter c) ->
  linked (files w) l -> i_head i = Some h -> first_name l = Some h -> length l <= maxlen g ->
  recover g w = Some (mkview i l).
Proof.
  intros g w i l h c Hv Hc Hl Hh Hf Hlen. apply recover_intro with (h := h) (c := c); try assumption.
  apply linked_walk; assumption.
Qed.

Lemma recover_frame : forall g w w' v,
  recover g w = Some v ->
  (forall n, footprint (cv_chain v) n -> files w' n = files w n) ->
  recover g w' = Some v.
Proof.
  intros g w w' v Hr Hs. destruct (recover_elim g w v Hr) as [Hvol [h [c [Hhd [Hc [Hl [Hf Hlen]]]]]]].
  replace v with (mkview (cv_info v) (cv_chain v)) by (destruct v; reflexivity).
  apply recover_of_linked with (h := h) (c := c);
    [rewrite Hs by (left; reflexivity); exact Hvol | rewrite Hs by (right; left; reflexivity); exact Hc | | exact Hhd | exact Hf | exact Hlen].
  eapply linked_frame; [exact Hl |]. intros x Hx. split; apply Hs; right; right; exists x; auto.
Qed.

Lemma recover_only_on : forall g (S : name -> Prop) w w' v,
  recover g w = Some v -> only_on S w w' ->
  (forall n, S n -> ~ footprint (cv_chain v) n) ->
  recover g w' = Some v.
Proof.
  intros g S w w' v Hr Ho Hd. eapply recover_frame; [exact Hr |].
  intros n Hn. apply Ho. intro HS. exact (Hd n HS Hn).
Qed.

Lemma within_recover : forall A g S (p : prog A) w v,
  within S p -> recover g w = Some v -> (forall n, S n -> ~ footprint (cv_chain v) n) ->
  recover g (fst (ff p w)) = Some v.
Proof. intros. eapply recover_only_on; [eassumption | apply within_ff; eassumption | assumption]. Qed.

Lemma recover_data_write : forall g w v x,
  recover g w = Some v ->
  files x Vol = files w Vol -> (exists cx, files x Counter = Some (ICounter cx)) ->
  (forall y, files x (Meta y) = files w (Meta y)) ->
  (forall y, files x (Img y) = files w (Img y)
             \/ exists id g1 g2, files w (Img y) = Some (IImg id g1) /\ files x (Img y) = Some (IImg id g2)) ->
  recover g x = Some v.
Proof.
  intros g w v x Hr Hv [cx Hc] Hm Hi. destruct (recover_elim g w v Hr) as [Hvol [h [c [Hhd [_ [Hl [Hf Hlen]]]]]]].
  replace v with (mkview (cv_info v) (cv_chain v)) by (destruct v; reflexivity).
  apply recover_of_linked with (h := h) (c := cx); [rewrite Hv; exact Hvol | exact Hc | | exact Hhd | exact Hf | exact Hlen].
  eapply linked_frame_id; [exact Hl |]. intros y _. split; [apply Hm | apply Hi].
Qed.

Lemma footprint_tmp : forall l d, ~ footprint l (MetaTmp d).
Proof. intros l d [H | [H | [x [_ [H | H]]]]]; discriminate. Qed.
Lemma footprint_voltmp : forall l, ~ footprint l VolTmp.
Proof. intros l [H | [H | [x [_ [H | H]]]]]; discriminate. Qed.

Lemma footprint_not_voltmp : forall l n, footprint l n -> n <> VolTmp.
Proof. intros l n H Heq. subst. exact (footprint_voltmp l H). Qed.

Lemma footprint_meta : forall l d, footprint l (Meta d) -> In d (names_of_chain l).
Proof. intros l d [H | [H | [x [Hin [H | H]]]]]; try discriminate. inversion H; subst; assumption. Qed.
Lemma footprint_img : forall l d, footprint l (Img d) -> In d (names_of_chain l).
Proof. intros l d [H | [H | [x [Hin [H | H]]]]]; try discriminate. inversion H; subst; assumption. Qed.

(** ** views up to the fields that recovery itself rewrites *)

Definition attrs_same (a b : disk) : Prop :=
  d_parent a = d_parent b /\ d_removed a = d_removed b /\ d_user a = d_user b /\ d_created a = d_created b.
Definition member_sim (a b : member) : Prop :=
  mb_name a = mb_name b /\ mb_id a = mb_id b /\ attrs_same (mb_disk a) (mb_disk b).
Definition info_sim (a b : info) : Prop :=
  i_size a = i_size b /\ i_head a = i_head b /\ i_rebuilding a = i_rebuilding b /\ i_parent a = i_parent b
  /\ i_checkpoint a = i_checkpoint b /\ i_rev a = i_rev b.
(** same chain (names, inodes, Parent/Removed/UserCreated/Created) and same volume information;
    not compared: the per-disk RevisionCounter (readDiskData rewrites values <= 1 on open) and Dirty *)
Definition veq (a b : chainview) : Prop :=
  info_sim (cv_info a) (cv_info b) /\ Forall2 member_sim (cv_chain a) (cv_chain b).

Lemma attrs_same_refl : forall a, attrs_same a a.
Proof. intro a. repeat split. Qed.
Lemma member_sim_refl : forall a, member_sim a a.
Proof. intro a. repeat split. Qed.
Lemma info_sim_refl : forall a, info_sim a a.
Proof. intro a. repeat split. Qed.
Lemma Forall2_refl : forall A (R : A -> A -> Prop), (forall x, R x x) -> forall l, Forall2 R l l.
Proof. intros A R HR l. induction l; constructor; auto. Qed.
Lemma veq_refl : forall a, veq a a.
Proof. intro a. split; [apply info_sim_refl | apply Forall2_refl; apply member_sim_refl]. Qed.
Lemma member_sim_sym : forall a b, member_sim a b -> member_sim b a.
Proof. intros a b [H1 [H2 [H3 [H4 [H5 H6]]]]]. repeat split; congruence. Qed.
Lemma member_sim_trans : forall a b c, member_sim a b -> member_sim b c -> member_sim a c.
Proof. intros a b c [H1 [H2 [H3 [H4 [H5 H6]]]]] [K1 [K2 [K3 [K4 [K5 K6]]]]]. repeat split; congruence. Qed.
Lemma Forall2_sym : forall A (R : A -> A -> Prop), (forall x y, R x y -> R y x) -> forall l l', Forall2 R l l' -> Forall2 R l' l.
Proof. intros A R HR l l' H. induction H; constructor; auto. Qed.
Lemma Forall2_trans : forall A (R : A -> A -> Prop), (forall x y z, R x y -> R y z -> R x z) ->
  forall l1 l2 l3, Forall2 R l1 l2 -> Forall2 R l2 l3 -> Forall2 R l1 l3.
Proof.
  intros A R HR l1 l2 l3 H. revert l3. induction H; intros l3 H3; inversion H3; subst; constructor; eauto.
Qed.
Lemma veq_sym : forall a b, veq a b -> veq b a.
Proof.
  intros a b [[H1 [H2 [H3 [H4 [H5 H6]]]]] HF]. split; [repeat split; congruence |].
  apply Forall2_sym; [apply member_sim_sym | exact HF].
Qed.
Lemma veq_trans : forall a b c, veq a b -> veq b c -> veq a c.
Proof.
  intros a b c [[H1 [H2 [H3 [H4 [H5 H6]]]]] HF] [[K1 [K2 [K3 [K4 [K5 K6]]]]] KF].
  split; [repeat split; congruence |].
  eapply Forall2_trans; [apply member_sim_trans | exact HF | exact KF].
Qed.

Lemma veq_names : forall a b, veq a b -> names_of_chain (cv_chain a) = names_of_chain (cv_chain b).
Proof.
  intros a b [_ HF]. unfold names_of_chain. induction HF as [| x y l l' Hxy _ IH]; [reflexivity |].
  cbn. destruct Hxy as [Hn _]. rewrite Hn, IH. reflexivity.
Qed.

(** ** the encodeToFile block (no fault: it always succeeds) *)

Definition meta_name (n : name) : Prop := n = Vol \/ exists d, n = Meta d.

(** the directory after encodeToFile: the temporary file created empty, written, renamed over [n], gone *)
Definition enc_fs (w : fs) (n : name) (c : ino) : fs :=
  mkfs (updf (updf (updf (updf (files w) (tmp_of n) (Some IEmpty)) (tmp_of n) (Some c)) n (Some c)) (tmp_of n) None)
       (nextid w).

Lemma meta_name_tmp : forall n, meta_name n -> tmp_of n <> n /\ is_img (tmp_of n) = false.
Proof. intros n [H | [d H]]; subst; cbn; split; try reflexivity; discriminate. Qed.

Lemma enc_fs_self : forall w n c, meta_name n -> files (enc_fs w n c) n = Some c.
Proof.
  intros w n c Hn. destruct (meta_name_tmp n Hn) as [Hne _]. unfold enc_fs. cbn [files].
  rewrite updf_neq by exact Hne. apply updf_eq.
Qed.
Lemma enc_fs_other : forall w n c x, x <> n -> x <> tmp_of n -> files (enc_fs w n c) x = files w x.
Proof.
  intros w n c x H1 H2. unfold enc_fs. cbn [files].
  rewrite !updf_neq; auto.
Qed.
Lemma enc_fs_nextid : forall w n c, nextid (enc_fs w n c) = nextid w.
Proof. reflexivity. Qed.

Lemma ff_sync_dir : forall w, ff sync_dir w = (w, Done Ok).
Proof. reflexivity. Qed.

Definition meta_content (c : ino) : Prop := match c with IVol _ | IDisk _ => True | _ => False end.

Lemma ff_encode : forall g c n w, meta_name n -> meta_content c ->
  ff (encode_to_file g c n) w = (enc_fs w n c, Done Ok).
Proof.
  intros g c n w Hn Hc. destruct (meta_name_tmp n Hn) as [Hne Himg].
  destruct c; try contradiction.
  all: unfold encode_to_file; cbn [ff apply_call]; rewrite Himg; cbn [is_err ff apply_call];
    rewrite set_file_eq;
    cbn [is_err andb ff apply_call]; rewrite Bool.andb_false_r; cbn [ff apply_call is_err];
    rewrite set_file_eq; cbn [ff apply_call is_err sync_dir];
    reflexivity.
Qed.
Lemma meta_name_vol : meta_name Vol.
Proof. left. reflexivity. Qed.
Lemma meta_name_disk : forall d, meta_name (Meta d).
Proof. intros d. right. exists d. reflexivity. Qed.

Lemma ff_encode_vol : forall g i w, ff (encode_to_file g (IVol i) Vol) w = (enc_fs w Vol (IVol i), Done Ok).
Proof. intros. apply ff_encode; [apply meta_name_vol | exact I]. Qed.
Lemma ff_encode_disk : forall g d x w,
  ff (encode_to_file g (IDisk d) (Meta x)) w = (enc_fs w (Meta x) (IDisk d), Done Ok).
Proof. intros. apply ff_encode; [apply meta_name_disk | exact I]. Qed.

Lemma footprint_tmp_of : forall l n, meta_name n -> ~ footprint l (tmp_of n).
Proof. intros l n [E | [d E]]; subst n; [apply footprint_voltmp | apply footprint_tmp]. Qed.

(** the states of the block: [w], three in which only the temp file differs, and (twice) the final one *)
Lemma encode_states : forall g c n w (P : fs -> Prop), meta_name n -> meta_content c ->
  (forall x, only_on (eq (tmp_of n)) w x -> nextid x = nextid w -> P x) ->
  P (enc_fs w n c) ->
  Forall P (states (encode_to_file g c n) w).
Proof.
  intros g c n w P Hn Hc Htmp Hfin. destruct (meta_name_tmp n Hn) as [Hne Himg].
  assert (Hoo : forall v1 v2, only_on (eq (tmp_of n)) w (set_file (set_file w (tmp_of n) v1) (tmp_of n) v2)).
  { intros v1 v2 x Hx. rewrite !set_file_neq; auto. }
  assert (Hoo1 : forall v1, only_on (eq (tmp_of n)) w (set_file w (tmp_of n) v1)).
  { intros v1 x Hx. rewrite !set_file_neq; auto. }
  destruct c; try contradiction.
  all: unfold encode_to_file; cbn [states apply_call]; rewrite Himg; cbn [is_err states apply_call];
    (constructor; [apply Htmp; [apply only_on_refl | reflexivity] |]);
    rewrite set_file_eq;
    cbn [is_err states apply_call]; rewrite Bool.andb_false_r; cbn [states apply_call is_err];
    (constructor; [apply Htmp; [apply Hoo1 | reflexivity] |]);
    (constructor; [apply Htmp; [apply Hoo | reflexivity] |]);
    (constructor; [apply Htmp; [apply Hoo | reflexivity] |]);
    rewrite set_file_eq; cbn [states apply_call is_err sync_dir];
    (constructor; [exact Hfin |]); (constructor; [exact Hfin | constructor]).
Qed.

Lemma recover_commit : forall g w i' l h c,
  linked (files w) l -> first_name l = Some h -> i_head i' = Some h ->
  files w Counter = Some (ICounter c) -> length l <= maxlen g ->
  recover g (enc_fs w Vol (IVol i')) = Some (mkview i' l).
Proof.
  intros g w i' l h c Hl Hf Hh Hc Hlen. apply recover_of_linked with (h := h) (c := c);
    [apply enc_fs_self, meta_name_vol | rewrite enc_fs_other; [exact Hc | discriminate | discriminate] | | exact Hh | exact Hf | exact Hlen].
  eapply linked_frame; [exact Hl |]. intros x Hx. split; apply enc_fs_other; cbn; discriminate.
Qed.

Lemma recover_vol_rewrite : forall g w v i',
  recover g w = Some v -> i_head i' = i_head (cv_info v) ->
  recover g (enc_fs w Vol (IVol i')) = Some (mkview i' (cv_chain v)).
Proof.
  intros g w v i' Hr Hh. destruct (recover_elim g w v Hr) as [Hvol [h [c [Hhd [Hc [Hl [Hf Hlen]]]]]]].
  apply recover_commit with (h := h) (c := c); [exact Hl | exact Hf | congruence | exact Hc | exact Hlen].
Qed.

(** ** well-formed views, and the memory that agrees with one ([wf_view], [agree], [ctx]) *)

Definition ids_fresh (w : fs) : Prop :=
  forall n id gn, files w n = Some (IImg id gn) -> (id < nextid w)%N.

Lemma ids_fresh_set : forall w a v, ids_fresh w ->
  (forall id gn, v = Some (IImg id gn) -> exists n gn', files w n = Some (IImg id gn')) ->
  ids_fresh (set_file w a v).
Proof.
  intros w a v Hf Hv n id gn Hn. unfold set_file in Hn. cbn [files nextid] in *. unfold updf in Hn.
  destruct (name_eqb a n).
  - destruct (Hv id gn Hn) as [n' [gn' H']]. eapply Hf; eauto.
  - eapply Hf; eauto.
Qed.

Lemma ids_fresh_created : forall w a, ids_fresh w -> ids_fresh (created w a).
Proof.
  intros w a Hf n id gn Hn. unfold created in *. cbn [files nextid] in *. unfold updf in Hn.
  destruct (name_eqb a n); [inversion Hn; subst; lia | apply Hf in Hn; lia].
Qed.

Lemma enc_fs_fresh : forall w n c, meta_content c -> ids_fresh w -> ids_fresh (enc_fs w n c).
Proof.
  intros w n c Hc Hf x id gn H. unfold enc_fs in H. cbn [files nextid] in *. unfold updf in H.
  destruct (name_eqb (tmp_of n) x); [discriminate |].
  destruct (name_eqb n x); [injection H as E; subst c; contradiction | exact (Hf _ _ _ H)].
Qed.

Lemma apply_call_fresh : forall w c, ids_fresh w -> ids_fresh (fst (apply_call w c))
                                     /\ (nextid w <= nextid (fst (apply_call w c)))%N.
Proof.
  intros w c Hf.
  destruct c; cbn [apply_call];
    repeat match goal with
           | |- context [match files ?w ?x with _ => _ end] => destruct (files w x) as [[]|] eqn:?
           | |- context [if is_img ?x then _ else _] => destruct (is_img x)
           | |- context [match ?c with IVol _ => _ | _ => _ end] => destruct c
           end; cbn [fst]; try (split; [assumption | lia]);
    try (split; [apply ids_fresh_created; assumption | cbn; lia]);
    try (split; [| cbn; lia];
         repeat apply ids_fresh_set; try assumption; cbn [truncated];
         intros id' gn' Hv; try discriminate; inversion Hv; subst; eauto).
Qed.

Lemma states_fresh : forall A (p : prog A) w, ids_fresh w -> Forall ids_fresh (states p w).
Proof.
  induction p as [a | e | c k IH]; intros w Hf; cbn [states].
  - constructor; [assumption | constructor].
  - constructor; [assumption | constructor].
  - constructor; [assumption |]. destruct (apply_call w c) as [w1 r] eqn:Hc.
    apply IH. pose proof (apply_call_fresh w c Hf) as [H _]. rewrite Hc in H. exact H.
Qed.
Lemma ff_fresh : forall A (p : prog A) w, ids_fresh w -> ids_fresh (fst (ff p w)).
Proof.
  intros A p w Hf. eapply Forall_forall; [apply states_fresh; exact Hf | apply ff_in_states].
Qed.

Lemma ff_fresh_eq : forall A (p : prog A) w w' o, ids_fresh w -> ff p w = (w', o) -> ids_fresh w'.
Proof. intros A p w w' o Hf H. pose proof (ff_fresh A p w Hf) as Hq. rewrite H in Hq. exact Hq. Qed.

Lemma ids_fresh_notin : forall g w v, recover g w = Some v -> ids_fresh w -> ~ In (nextid w) (map mb_id (cv_chain v)).
Proof.
  intros g w v Hr Hf H. apply in_map_iff in H. destruct H as [mb [E Hmb]].
  destruct (recover_elim g w v Hr) as [_ [h [c [_ [_ [Hl _]]]]]]. destruct (linked_member _ _ mb Hl Hmb) as [_ [gn Hi]].
  pose proof (Hf _ _ _ Hi). lia.
Qed.

Definition is_snap (d : dname) : Prop := exists s, d = Snap s.

Definition wf_view (v : chainview) : Prop :=
  exists n id0 d0 tl,
    cv_chain v = mkmember (Head n) id0 d0 :: tl
    /\ i_head (cv_info v) = Some (Head n)
    /\ Forall (fun mb => is_snap (mb_name mb)) tl
    /\ NoDup (names_of_chain (cv_chain v))
    /\ NoDup (map mb_id (cv_chain v))
    /\ i_parent (cv_info v) = d_parent d0.

Lemma wf_view_info : forall v i',
  wf_view v -> i_head i' = i_head (cv_info v) -> i_parent i' = i_parent (cv_info v) ->
  wf_view (mkview i' (cv_chain v)).
Proof.
  intros v i' [n [id0 [d0 [tl [H1 [H2 [H3 [H4 [H5 H6]]]]]]]]] Hh Hp.
  exists n, id0, d0, tl. cbn [cv_chain cv_info]. repeat split; try assumption; congruence.
Qed.

Lemma sim_ids : forall l l', Forall2 member_sim l l' -> map mb_id l = map mb_id l'.
Proof. intros l l' H. induction H as [| x y l0 l0' [_ [Hi _]] _ IH]; [reflexivity |]. cbn [map]. rewrite Hi, IH. reflexivity. Qed.

Lemma wf_view_veq : forall a b, veq a b -> wf_view b -> wf_view a.
Proof.
  intros a b Hv [n [id0 [d0 [tl [H1 [H2 [H3 [H4 [H5 H6]]]]]]]]].
  pose proof (veq_names _ _ Hv) as Hnames. destruct Hv as [[I1 [I2 [I3 [I4 [I5 I6]]]]] HF].
  pose proof (sim_ids _ _ HF) as Hids.
  rewrite H1 in HF. destruct (cv_chain a) as [| x l] eqn:Ea; [inversion HF |].
  inversion HF as [| ? ? ? ? Hxy Hll]; subst.
  destruct x as [xn xi xd]. destruct Hxy as [Hn [Hi [Hp _]]]. cbn [mb_name mb_id mb_disk] in *. subst xn xi.
  exists n, id0, xd, l. split; [exact Ea |]. split; [congruence |]. rewrite Ea. split; [| split; [| split]].
  - clear -Hll H3. induction Hll as [| x y l l' [Hn _] _ IH]; [constructor |]. inversion H3; subst. constructor; [rewrite Hn; assumption | auto].
  - rewrite Hnames. exact H4.
  - rewrite Hids. exact H5.
  - congruence.
Qed.

Lemma snap_not_head : forall tl k, Forall (fun mb => is_snap (mb_name mb)) tl -> ~ In (Head k) (names_of_chain tl).
Proof.
  intros tl k H Hin. unfold names_of_chain in Hin. apply in_map_iff in Hin. destruct Hin as [mb [Hn Hm]].
  eapply Forall_forall in H; [| exact Hm]. destruct H as [s Hs]. congruence.
Qed.

Lemma next_head_fresh : forall n id0 d0 tl, Forall (fun mb => is_snap (mb_name mb)) tl ->
  ~ In (Head (S n)) (names_of_chain (mkmember (Head n) id0 d0 :: tl)).
Proof. intros n id0 d0 tl Hs [H | H]; [inversion H; lia | exact (snap_not_head tl (S n) Hs H)]. Qed.

Lemma wf_view_sub : forall v l',
  wf_view v -> hd_error l' = hd_error (cv_chain v) ->
  (forall x, In x (names_of_chain l') -> In x (names_of_chain (cv_chain v))) ->
  NoDup (names_of_chain l') -> NoDup (map mb_id l') -> wf_view (mkview (cv_info v) l').
Proof.
  intros v l' [n [id0 [d0 [tl [H1 [H2 [H3 [H4 [H5 H6]]]]]]]]] Hhd Hsub Hn Hi. rewrite H1 in Hhd, Hsub.
  destruct l' as [| a tl']; [discriminate |]. injection Hhd as ->.
  exists n, id0, d0, tl'. cbn [cv_chain cv_info]. split; [reflexivity |]. split; [exact H2 |]. split; [| auto].
  apply Forall_forall. intros mb Hmb. cbn [names_of_chain map mb_name] in Hn, Hsub.
  apply NoDup_cons_iff in Hn. destruct Hn as [Hn _].
  destruct (Hsub (mb_name mb)) as [E | Hin]; [right; apply in_map; exact Hmb | exfalso; apply Hn; rewrite E; apply in_map; exact Hmb |].
  apply in_map_iff in Hin. destruct Hin as [mb' [E Hmb']]. rewrite <- E. exact (proj1 (Forall_forall _ _) H3 mb' Hmb').
Qed.

Lemma wf_view_newhead : forall i k idn nd l,
  i_head i = Some (Head k) -> i_parent i = d_parent nd ->
  Forall (fun mb => is_snap (mb_name mb)) l -> NoDup (names_of_chain l) -> NoDup (map mb_id l) ->
  ~ In idn (map mb_id l) ->
  wf_view (mkview i (mkmember (Head k) idn nd :: l)).
Proof.
  intros i k idn nd l Hh Hp Hs Hn Hi Hid. exists k, idn, nd, l. cbn [cv_chain cv_info names_of_chain map mb_name mb_id].
  split; [reflexivity |]. split; [exact Hh |]. split; [exact Hs |]. split; [| split; [| exact Hp]].
  - constructor; [apply snap_not_head; exact Hs | exact Hn].
  - constructor; assumption.
Qed.

Fixpoint find_mb (d : dname) (l : list member) : option member :=
  match l with
  | [] => None
  | mb :: t => if dname_eqb (mb_name mb) d then Some mb else find_mb d t
  end.

Lemma find_mb_in : forall l mb, NoDup (names_of_chain l) -> In mb l -> find_mb (mb_name mb) l = Some mb.
Proof.
  induction l as [| a t IH]; intros mb Hnd Hin; [contradiction |].
  cbn in *. inversion Hnd as [| x l' Hnotin Hnd']; subst.
  destruct Hin as [Heq | Hin].
  - subst. rewrite dname_eqb_refl. reflexivity.
  - destruct (dname_eqb (mb_name a) (mb_name mb)) eqn:E.
    + apply dname_eqb_eq in E. exfalso. apply Hnotin. rewrite E. apply in_map. exact Hin.
    + apply IH; assumption.
Qed.

Lemma find_mb_none : forall l d, ~ In d (names_of_chain l) -> find_mb d l = None.
Proof.
  induction l as [| a t IH]; intros d Hn; [reflexivity |].
  cbn in *. destruct (dname_eqb (mb_name a) d) eqn:E.
  - apply dname_eqb_eq in E. exfalso. apply Hn. left. exact E.
  - apply IH. intro H. apply Hn. right. exact H.
Qed.

Lemma find_mb_some_in : forall l d mb, find_mb d l = Some mb -> In mb l /\ mb_name mb = d.
Proof.
  induction l as [| a t IH]; intros d mb H; [discriminate |].
  cbn in H. destruct (dname_eqb (mb_name a) d) eqn:E.
  - inversion H; subst. apply dname_eqb_eq in E. split; [left; reflexivity | exact E].
  - destruct (IH d mb H). split; [right; assumption | assumption].
Qed.

Lemma find_mb_some : forall x l, In x (names_of_chain l) -> exists mb, find_mb x l = Some mb.
Proof.
  induction l as [| a t IH]; intros Hin; [contradiction |]. cbn in *.
  destruct (dname_eqb (mb_name a) x) eqn:E; [eauto |].
  destruct Hin as [H | H]; [subst; rewrite dname_eqb_refl in E; discriminate | auto].
Qed.

Lemma find_mb_app : forall d l1 l2,
  find_mb d (l1 ++ l2) = match find_mb d l1 with Some mb => Some mb | None => find_mb d l2 end.
Proof.
  induction l1 as [| a t IH]; intros l2; [reflexivity |]. cbn [app find_mb].
  destruct (dname_eqb (mb_name a) d); [reflexivity | apply IH].
Qed.

Definition dk (l : list member) (d : dname) : option disk := option_map mb_disk (find_mb d l).

Lemma dk_cons : forall a t d, dk (a :: t) d = updd (dk t) (mb_name a) (Some (mb_disk a)) d.
Proof. intros. unfold dk, updd. cbn [find_mb]. destruct (dname_eqb (mb_name a) d); reflexivity. Qed.

Lemma dk_none : forall l d, ~ In d (names_of_chain l) -> dk l d = None.
Proof. intros l d H. unfold dk. rewrite find_mb_none by exact H. reflexivity. Qed.

(** the member just above [d] in the chain (its only child), as a list *)
Fixpoint child_in (d : dname) (l : list member) : list dname :=
  match l with
  | a :: ((b :: _) as t) => if dname_eqb (mb_name b) d then [mb_name a] else child_in d t
  | _ => []
  end.

Definition agree (g : cfg) (v : chainview) (m : mem) : Prop :=
  info_sim (m_info m) (cv_info v)
  /\ (forall d, m_disks m d = option_map mb_disk (find_mb d (cv_chain v)))
  /\ (forall d, In d (names_of_chain (cv_chain v)) -> m_children m (Some d) = child_in d (cv_chain v))
  /\ (fix_children g = true -> forall d, ~ In d (names_of_chain (cv_chain v)) -> m_children m (Some d) = [])
  /\ m_active m = rev (names_of_chain (cv_chain v)).

Lemma agree_same : forall g v m i' m',
  agree g v m -> info_sim (m_info m') i' ->
  m_disks m' = m_disks m -> m_children m' = m_children m -> m_active m' = m_active m ->
  agree g (mkview i' (cv_chain v)) m'.
Proof.
  intros g v m i' m' [H1 [H2 [H3 [H4 H5]]]] Hi Hd Hc Ha. unfold agree. cbn [cv_info cv_chain].
  rewrite Hd, Hc, Ha. split; [exact Hi | repeat split; assumption].
Qed.

Lemma agree_head : forall g v m, agree g v m -> i_head (m_info m) = i_head (cv_info v) /\ i_parent (m_info m) = i_parent (cv_info v).
Proof. intros g v m [[H1 [H2 [H3 [H4 [H5 H6]]]]] _]. split; assumption. Qed.

Lemma agree_mode : forall g v m x, agree g v m -> agree g v (set_mode m x).
Proof. intros g v m x H. exact H. Qed.

Lemma info_sim_dirty : forall i a b, info_sim (set_dirty_rebuilding i a (i_rebuilding i)) (set_dirty_rebuilding i b (i_rebuilding i)).
Proof. intros. repeat split. Qed.

Lemma agree_disk_in : forall g v m d dd, agree g v m -> m_disks m d = Some dd ->
  exists mb, In mb (cv_chain v) /\ mb_name mb = d /\ mb_disk mb = dd.
Proof.
  intros g v m d dd [_ [Hd _]] H. rewrite Hd in H. destruct (find_mb d (cv_chain v)) as [mb |] eqn:Hf; [| discriminate].
  destruct (find_mb_some_in _ _ _ Hf) as [Hi Hn]. exists mb. injection H as H. auto.
Qed.
Lemma agree_disk_dom : forall g v m d, agree g v m -> (m_disks m d <> None <-> In d (names_of_chain (cv_chain v))).
Proof.
  intros g v m d Hag. split.
  - intros H. destruct (m_disks m d) as [dd |] eqn:Hmd; [| contradiction].
    destruct (agree_disk_in g v m d dd Hag Hmd) as [mb [Hi [Hn _]]]. rewrite <- Hn. apply in_map. exact Hi.
  - intros Hin. destruct Hag as [_ [Hd _]]. rewrite Hd. destruct (find_mb_some d (cv_chain v) Hin) as [mb ->]. discriminate.
Qed.

Lemma chain_from_spec : forall disks f l fuel,
  linked f l -> (forall mb, In mb l -> disks (mb_name mb) = Some (mb_disk mb)) -> length l <= fuel ->
  chain_from disks fuel (first_name l) = Some (names_of_chain l).
Proof.
  intros disks f l. induction l as [| a t IH]; intros fuel Hl Hall Hlen.
  - destruct fuel; reflexivity.
  - destruct fuel as [| fuel]; [cbn in Hlen; lia |]. cbn [linked] in Hl. destruct Hl as [_ [_ [Hpa Ht]]].
    cbn [first_name chain_from]. rewrite (Hall a (or_introl eq_refl)), Hpa. fold (first_name t).
    rewrite IH; [reflexivity | exact Ht | intros mb Hmb; apply Hall; right; exact Hmb | cbn in Hlen; lia].
Qed.

Definition heads_ok (m : mem) : Prop := forall k, m_children m (Some (Head k)) = [].

(** [cx_heads] is not in [agree], which fixes the children map at the members of the chain (elsewhere only under
    [fix_children]): createDisk adds the next head's name, which is fresh, and needs it to have no entry
    ([snap_magree]). *)
Record ctx (g : cfg) (w : fs) (v : chainview) (m : mem) : Prop := mkctx {
  cx_rec : recover g w = Some v;
  cx_wf : wf_view v;
  cx_ag : agree g v m;
  cx_fresh : ids_fresh w;
  cx_heads : forall k, m_children m (Some (Head k)) = []
}.

Lemma ctx_shape : forall g w v m, ctx g w v m ->
  exists n id0 d0 tl c,
    cv_chain v = mkmember (Head n) id0 d0 :: tl
    /\ i_head (cv_info v) = Some (Head n) /\ i_head (m_info m) = Some (Head n)
    /\ Forall (fun mb => is_snap (mb_name mb)) tl
    /\ NoDup (names_of_chain (cv_chain v)) /\ NoDup (map mb_id (cv_chain v))
    /\ files w Vol = Some (IVol (cv_info v)) /\ files w Counter = Some (ICounter c)
    /\ linked (files w) (cv_chain v)
    /\ length (cv_chain v) <= maxlen g
    /\ m_disks m (Head n) = Some d0
    /\ i_parent (cv_info v) = d_parent d0.
Proof.
  intros g w v m [Hr [n [id0 [d0 [tl [H1 [H2 [H3 [H4 [H5 H6]]]]]]]]] Hag Hf Hh].
  destruct (recover_elim g w v Hr) as [Hvol [h [c [Hhd [Hc [Hl [_ Hlen]]]]]]].
  exists n, id0, d0, tl, c.
  destruct (agree_head g v m Hag) as [Ha1 Ha2].
  repeat split; try assumption; try congruence.
  destruct Hag as [_ [Hd _]]. rewrite Hd, H1. cbn. rewrite Nat.eqb_refl. reflexivity.
Qed.

Lemma ctx_move : forall A (p : prog A) a g w w1 v m, ctx g w v m -> ff p w = (w1, Done a) -> recover g w1 = Some v -> ctx g w1 v m.
Proof. intros A p a g w w1 v m Hc Hff Hr. constructor; try apply Hc; [exact Hr | exact (ff_fresh_eq _ _ _ _ _ (cx_fresh _ _ _ _ Hc) Hff)]. Qed.

Lemma mchain_of_ctx : forall g w v m, ctx g w v m -> mchain g m = Some (names_of_chain (cv_chain v)).
Proof.
  intros g w v m Hctx.
  destruct (ctx_shape g w v m Hctx) as [n [id0 [d0 [tl0 [c [Hchain [_ [Hmh [_ [Hnd [_ [_ [_ [Hlink [Hlen _]]]]]]]]]]]]]]].
  destruct (cx_ag _ _ _ _ Hctx) as [_ [Hdisks _]].
  unfold mchain. rewrite Hmh. replace (Some (Head n)) with (first_name (cv_chain v)) by (rewrite Hchain; reflexivity).
  apply (chain_from_spec _ (files w)); [exact Hlink | | unfold chain_fuel; lia].
  intros mb Hmb. rewrite Hdisks, (find_mb_in _ mb Hnd Hmb). reflexivity.
Qed.

(** ** the children map along a list of names; [magree] *)

Lemma child_in_cons2 : forall d a b t,
  child_in d (a :: b :: t) = if dname_eqb (mb_name b) d then [mb_name a] else child_in d (b :: t).
Proof. reflexivity. Qed.

(** [child_in] on the names alone: the child relation is reasoned about on bare name lists *)
Fixpoint child_of (d : dname) (ns : list dname) : list dname :=
  match ns with
  | a :: ((b :: _) as t) => if dname_eqb b d then [a] else child_of d t
  | _ => []
  end.

Lemma child_in_names : forall d l, child_in d l = child_of d (names_of_chain l).
Proof.
  intros d l. induction l as [| a t IH]; [reflexivity |].
  destruct t as [| b t']; [reflexivity |].
  rewrite child_in_cons2. cbn [names_of_chain map child_of] in *. rewrite IH. reflexivity.
Qed.

Lemma child_of_cons : forall d a t,
  child_of d (a :: t) = if odname_eqb (hd_error t) (Some d) then [a] else child_of d t.
Proof. intros d a [| b t]; reflexivity. Qed.

Lemma hd_names : forall l, hd_error (names_of_chain l) = first_name l.
Proof. intros [| a t]; reflexivity. Qed.

Lemma hd_error_in : forall A (l : list A) x, hd_error l = Some x -> In x l.
Proof. intros A [| a t] x H; [discriminate | injection H as <-; left; reflexivity]. Qed.

Lemma child_of_skip : forall x l r, ~ In x l -> hd_error r <> Some x -> child_of x (l ++ r) = child_of x r.
Proof.
  induction l as [| a t IH]; intros r Hn Hr; [reflexivity |]. cbn [app]. rewrite child_of_cons.
  rewrite odname_eqb_neq; [apply IH; [intro H; apply Hn; right; exact H | exact Hr] |].
  destruct t as [| b t']; [exact Hr |]. cbn. intro E. apply Hn. right. left. congruence.
Qed.

Lemma child_of_notin : forall x l, ~ In x (tl l) -> child_of x l = [].
Proof.
  intros x l. induction l as [| a t IH]; intros Hn; [reflexivity |].
  destruct t as [| b t']; [reflexivity |]. cbn [child_of]. cbn [tl] in Hn.
  rewrite dname_eqb_neq by (intro E; apply Hn; left; exact E). apply IH. cbn [tl]. intro H. apply Hn. right. exact H.
Qed.

Lemma child_of_off : forall x l, ~ In x l -> child_of x l = [].
Proof. intros x l Hn. apply child_of_notin. intro H. apply Hn. destruct l; [exact H | right; exact H]. Qed.

Lemma child_of_snoc : forall y ns a b, ~ In b (ns ++ [a]) ->
  child_of y ((ns ++ [a]) ++ [b]) = if dname_eqb b y then [a] else child_of y (ns ++ [a]).
Proof.
  induction ns as [| x ns IH]; intros a b Hb.
  - cbn. destruct (dname_eqb b y); reflexivity.
  - cbn [app] in *. rewrite !child_of_cons. destruct (ns ++ [a]) as [| z r] eqn:E; [destruct ns; discriminate |].
    cbn [app hd_error]. destruct (odname_eqb (Some z) (Some y)) eqn:Ez.
    + apply odname_eqb_eq in Ez. injection Ez as ->. rewrite dname_eqb_neq; [reflexivity |].
      intros ->. apply Hb. right. left. reflexivity.
    + change (z :: r ++ [b]) with ((z :: r) ++ [b]). rewrite <- E in *. apply IH. intro H. apply Hb. right. exact H.
Qed.

Lemma removed_single : forall x, removed x [x] = [].
Proof. intro x. cbn. rewrite dname_eqb_refl. reflexivity. Qed.

Lemma reparent_children : forall m old new d,
  (parent_of m old = Some d -> m_children m (Some d) = [old]) ->
  m_children (update_child m old (Some new)) (Some d) =
  if odname_eqb (parent_of m old) (Some d) then [new] else m_children m (Some d).
Proof.
  intros m old new d Hp. unfold update_child. cbn [m_children set_children]. unfold add_child, rm_child.
  destruct (odname_eqb (parent_of m old) (Some d)) eqn:E.
  - apply odname_eqb_eq in E. rewrite E, !updc_eq, (Hp E), removed_single. reflexivity.
  - rewrite !updc_neq by (intro H; rewrite H, odname_eqb_refl in E; discriminate). reflexivity.
Qed.

(** where the chain determines diskChildrenMap: at its members; at every name once removeDiskNode deletes the entry of
    the disk it removes ([fix_children]; without it the entries of removed names stay behind); at head names, which never
    have children ([heads_ok]: an absolute [[]], hence [heads_front] wherever [magree] meets [agree]) *)
Definition kscope (g : cfg) (ns : list dname) (d : dname) : Prop :=
  In d ns \/ fix_children g = true \/ exists k, d = Head k.

Definition magree (g : cfg) (l : list member) (m : mem) : Prop :=
  (forall d, m_disks m d = dk l d)
  /\ (forall d, kscope g (names_of_chain l) d -> m_children m (Some d) = child_of d (names_of_chain l))
  /\ m_active m = rev (names_of_chain l).

Definition heads_front (ns : list dname) : Prop := forall k, ~ In (Head k) (tl ns).

Lemma magree_of_agree : forall g v m,
  agree g v m -> heads_ok m -> heads_front (names_of_chain (cv_chain v)) -> magree g (cv_chain v) m.
Proof.
  intros g v m [_ [HD [HC [HF HA]]]] Hh Hfr. split; [exact HD | split; [| exact HA]].
  intros d [Hd | [Hd | [k ->]]].
  - rewrite HC by exact Hd. apply child_in_names.
  - destruct (in_dec dname_dec d (names_of_chain (cv_chain v))) as [Hin | Hn]; [rewrite HC by exact Hin; apply child_in_names |].
    rewrite (HF Hd d Hn). symmetry. apply child_of_off, Hn.
  - rewrite Hh. symmetry. apply child_of_notin, Hfr.
Qed.

Lemma agree_of_magree : forall g i l m,
  info_sim (m_info m) i -> magree g l m -> heads_front (names_of_chain l) -> agree g (mkview i l) m /\ heads_ok m.
Proof.
  intros g i l m Hi [HD [HK HA]] Hfr. split; [split; [exact Hi | split; [exact HD | split; [| split; [| exact HA]]]] |]; cbn [cv_chain].
  - intros d Hd. rewrite child_in_names. apply HK. left. exact Hd.
  - intros Hfx d Hd. rewrite HK by (right; left; exact Hfx). apply child_of_off, Hd.
  - intros k. rewrite HK by (right; right; eauto). apply child_of_notin, Hfr.
Qed.

Lemma magree_ext : forall g l m m',
  magree g l m -> (forall d, m_disks m' d = m_disks m d) -> m_children m' = m_children m -> m_active m' = m_active m ->
  magree g l m'.
Proof. intros g l m m' [HD [HK HA]] E1 E2 E3. unfold magree. rewrite E2, E3. split; [intros d; rewrite E1; apply HD | auto]. Qed.

Lemma wf_heads_front : forall v, wf_view v -> heads_front (names_of_chain (cv_chain v)).
Proof. intros v [n [id0 [d0 [tl [H1 [_ [H3 _]]]]]]] k. rewrite H1. exact (snap_not_head tl k H3). Qed.

Lemma ctx_magree : forall g w v m, ctx g w v m -> magree g (cv_chain v) m.
Proof. intros g w v m [_ Hwf Hag _ Hh]. exact (magree_of_agree g v m Hag Hh (wf_heads_front v Hwf)). Qed.

Lemma ctx_intro : forall g w i l m,
  recover g w = Some (mkview i l) -> wf_view (mkview i l) -> info_sim (m_info m) i -> magree g l m -> ids_fresh w ->
  ctx g w (mkview i l) m.
Proof.
  intros g w i l m Hr Hwf Hi Hm Hf. destruct (agree_of_magree g i l m Hi Hm (wf_heads_front _ Hwf)) as [Hag Hh].
  constructor; assumption.
Qed.

Lemma ctx_ext : forall g w v m m',
  ctx g w v m -> m_info m' = m_info m -> (forall d, m_disks m' d = m_disks m d) ->
  m_children m' = m_children m -> m_active m' = m_active m -> ctx g w v m'.
Proof.
  intros g w [i l] m m' Hctx E0 E1 E2 E3.
  apply ctx_intro; [apply Hctx | apply Hctx | rewrite E0; apply (cx_ag _ _ _ _ Hctx)
                   | exact (magree_ext g l m m' (ctx_magree _ _ _ _ Hctx) E1 E2 E3) | apply Hctx].
Qed.

(** ** removing one element of a duplicate-free list: the child relation *)

Lemma removed_notin : forall d l, ~ In d l -> removed d l = l.
Proof.
  induction l as [| a t IH]; intros Hn; [reflexivity |]. cbn.
  rewrite dname_eqb_neq by (intro; subst; apply Hn; left; reflexivity).
  rewrite IH; [reflexivity | intro; apply Hn; right; assumption].
Qed.
Lemma removed_app : forall d l1 l2, removed d (l1 ++ l2) = removed d l1 ++ removed d l2.
Proof.
  induction l1 as [| a t IH]; intros l2; [reflexivity |]. cbn.
  destruct (dname_eqb d a); [apply IH | cbn; f_equal; apply IH].
Qed.
Lemma removed_rev : forall d l, removed d (rev l) = rev (removed d l).
Proof.
  induction l as [| a t IH]; [reflexivity |]. cbn [rev removed]. rewrite removed_app, IH. cbn [removed].
  destruct (dname_eqb d a); [apply app_nil_r | reflexivity].
Qed.
Lemma removed_in : forall d x l, In x (removed d l) <-> In x l /\ x <> d.
Proof.
  induction l as [| a t IH]; [cbn; tauto |]. cbn. destruct (dname_eqb d a) eqn:E.
  - apply dname_eqb_eq in E. subst a. rewrite IH. split; [intros [H1 H2]; auto | intros [[H | H] H2]; [congruence | auto]].
  - cbn. rewrite IH. assert (a <> d) by (intro; subst; rewrite dname_eqb_refl in E; discriminate).
    split; [intros [H1 | [H1 H2]]; [subst; auto | auto] | intros [[H1 | H1] H2]; auto].
Qed.
Lemma removed_nodup : forall d l, NoDup l -> NoDup (removed d l).
Proof.
  induction l as [| a t IH]; intros Hnd; [constructor |]. inversion Hnd; subst. cbn.
  destruct (dname_eqb d a); [auto |]. constructor; [rewrite removed_in; tauto | auto].
Qed.

Lemma nodup_app_disj : forall (a b : list dname) x, NoDup (a ++ b) -> In x a -> In x b -> False.
Proof.
  induction a as [| y t IH]; intros b x Hnd Ha Hb; [contradiction |].
  cbn [app] in Hnd. inversion Hnd as [| ? ? Hn Hnd']; subst. destruct Ha as [E | Ha].
  - subst y. apply Hn. apply in_or_app. right. exact Hb.
  - eapply IH; eauto.
Qed.
Lemma nodup_mid : forall {A} (a : list A) c d b, NoDup (a ++ c :: d :: b) ->
  c <> d /\ ~ In d a /\ ~ In d b /\ ~ In c a /\ ~ In c b /\ NoDup (a ++ c :: b).
Proof.
  intros A a c d b H. destruct (NoDup_remove _ _ _ H) as [H1 Hc]. destruct (NoDup_remove _ _ _ H1) as [_ Hd].
  change (a ++ c :: d :: b) with (a ++ [c] ++ d :: b) in H. rewrite app_assoc in H.
  apply NoDup_remove_1 in H. rewrite <- app_assoc in H.
  repeat split; [intros <-; apply Hc | intro Hin; apply Hd | intro Hin; apply Hd | intro Hin; apply Hc | intro Hin; apply Hc | exact H];
    apply in_or_app; cbn; auto.
Qed.
Lemma removed_mid : forall (a : list dname) c d b, NoDup (a ++ c :: d :: b) -> removed d (a ++ c :: d :: b) = a ++ c :: b.
Proof.
  intros a c d b H. destruct (nodup_mid _ _ _ _ H) as [Hcd [Hd1 [Hd2 _]]]. rewrite removed_app. cbn [removed].
  rewrite (dname_eqb_neq d c) by congruence. rewrite dname_eqb_refl, !removed_notin by assumption. reflexivity.
Qed.

Lemma child_of_split : forall d c l1 l2, NoDup (l1 ++ c :: d :: l2) -> child_of d (l1 ++ c :: d :: l2) = [c].
Proof.
  intros d c l1 l2 Hnd. destruct (nodup_mid _ _ _ _ Hnd) as [Hcd [Hd1 _]].
  rewrite child_of_skip; [| exact Hd1 | cbn; congruence]. rewrite child_of_cons. cbn. rewrite dname_eqb_refl. reflexivity.
Qed.

Lemma child_of_removed : forall d c l1 l2 x,
  NoDup (l1 ++ c :: d :: l2) -> x <> d ->
  child_of x (l1 ++ c :: l2) =
  if odname_eqb (hd_error l2) (Some x) then [c] else child_of x (l1 ++ c :: d :: l2).
Proof.
  induction l1 as [| a t IH]; intros l2 x Hnd Hx; cbn [app] in *.
  - rewrite !child_of_cons. cbn [hd_error odname_eqb]. rewrite (dname_eqb_neq d x) by congruence.
    destruct (odname_eqb (hd_error l2) (Some x)); reflexivity.
  - inversion Hnd as [| ? ? Hn Hnd']; subst. rewrite !child_of_cons, (IH l2 x Hnd' Hx).
    replace (hd_error (t ++ c :: d :: l2)) with (hd_error (t ++ c :: l2)) by (destruct t; reflexivity).
    destruct (odname_eqb (hd_error (t ++ c :: l2)) (Some x)) eqn:E1; [| reflexivity].
    destruct (odname_eqb (hd_error l2) (Some x)) eqn:E2; [| reflexivity].
    (* x would occur both in [t ++ [c]] and in [l2] *)
    exfalso. apply odname_eqb_eq in E1, E2. destruct (nodup_mid _ _ _ _ Hnd') as [_ [_ [_ [Hc1 [Hc2 Hnd2]]]]].
    pose proof (hd_error_in _ l2 x E2) as Hx2.
    destruct t as [| b t']; cbn in E1; injection E1 as <-; [exact (Hc2 Hx2) |].
    cbn [app] in Hnd2. inversion Hnd2 as [| ? ? Hb _]; subst. apply Hb. apply in_or_app. right. right. exact Hx2.
Qed.

Lemma nodup_map_suffix : forall A B (h : A -> B) (pre suf : list A), NoDup (map h (pre ++ suf)) -> NoDup (map h suf).
Proof. intros A B h pre. induction pre as [| a t IH]; intros suf H; [exact H |]. cbn in H. inversion H; subst. auto. Qed.

Lemma split_at_member : forall d (l : list member),
  In d (names_of_chain l) -> (match l with a :: _ => mb_name a <> d | [] => True end) ->
  exists l1 cmb dmb l2, l = l1 ++ cmb :: dmb :: l2 /\ mb_name dmb = d.
Proof.
  intros d l. induction l as [| a t IH]; intros Hin Hne; [contradiction |].
  cbn in Hin. destruct Hin as [H | Hin]; [contradiction |].
  destruct t as [| b t']; [contradiction |].
  destruct (dname_dec (mb_name b) d) as [E | E].
  - exists [], a, b, t'. split; [reflexivity | exact E].
  - destruct (IH Hin E) as [l1 [cmb [dmb [l2 [Heq Hd]]]]].
    exists (a :: l1), cmb, dmb, l2. split; [rewrite Heq; reflexivity | exact Hd].
Qed.

Lemma names_app_mid : forall l1 (cmb dmb : member) l2,
  names_of_chain (l1 ++ cmb :: dmb :: l2) = names_of_chain l1 ++ mb_name cmb :: mb_name dmb :: names_of_chain l2.
Proof. intros. apply names_of_chain_app. Qed.

(** ** rewriting one member's metadata file, and unlinking the member after it *)

Definition set_mdisk (mb : member) (d : disk) : member := mkmember (mb_name mb) (mb_id mb) d.

Fixpoint upd_member (x : dname) (d : disk) (l : list member) : list member :=
  match l with
  | [] => []
  | mb :: t => (if dname_eqb (mb_name mb) x then set_mdisk mb d else mb) :: upd_member x d t
  end.

Lemma upd_member_names : forall x d l, names_of_chain (upd_member x d l) = names_of_chain l.
Proof.
  induction l as [| mb t IH]; [reflexivity |]. cbn [upd_member names_of_chain map] in *.
  destruct (dname_eqb (mb_name mb) x); cbn [set_mdisk mb_name]; f_equal; exact IH.
Qed.
Lemma upd_member_ids : forall x d l, map mb_id (upd_member x d l) = map mb_id l.
Proof.
  induction l as [| mb t IH]; [reflexivity |]. cbn [upd_member map] in *.
  destruct (dname_eqb (mb_name mb) x); cbn [set_mdisk mb_id]; f_equal; exact IH.
Qed.
Lemma upd_member_length : forall x d l, length (upd_member x d l) = length l.
Proof. induction l as [| mb t IH]; [reflexivity |]. cbn. rewrite IH. reflexivity. Qed.

Lemma upd_member_first : forall x d l, first_name (upd_member x d l) = first_name l.
Proof. intros x d [| mb t]; [reflexivity |]. cbn. destruct (dname_eqb (mb_name mb) x); reflexivity. Qed.

Lemma upd_member_notin : forall x d l, ~ In x (names_of_chain l) -> upd_member x d l = l.
Proof.
  induction l as [| mb t IH]; intros Hn; [reflexivity |]. cbn [upd_member].
  rewrite dname_eqb_neq by (intro E; apply Hn; left; exact E). rewrite IH; [reflexivity |].
  intro H. apply Hn. right. exact H.
Qed.

Lemma upd_member_mid : forall a d p t, NoDup (names_of_chain (p ++ a :: t)) ->
  upd_member (mb_name a) d (p ++ a :: t) = p ++ set_mdisk a d :: t.
Proof.
  intros a d p t. induction p as [| b p IH]; intros Hnd; cbn [app upd_member names_of_chain map] in *;
    inversion Hnd as [| ? ? Hnotin Hnd']; subst.
  - rewrite dname_eqb_refl, upd_member_notin by exact Hnotin. reflexivity.
  - rewrite dname_eqb_neq, IH by (exact Hnd' || (intro E; apply Hnotin; rewrite E, map_app; apply in_or_app; right; left; reflexivity)).
    reflexivity.
Qed.

Lemma find_mb_upd : forall x y d l,
  find_mb x (upd_member y d l) =
  if dname_eqb y x then option_map (fun mb => set_mdisk mb d) (find_mb x l) else find_mb x l.
Proof.
  induction l as [| mb t IH]; [cbn; destruct (dname_eqb y x); reflexivity |].
  cbn [upd_member find_mb]. destruct (dname_eqb (mb_name mb) y) eqn:E1.
  - apply dname_eqb_eq in E1. subst y. cbn [set_mdisk mb_name find_mb]. rewrite IH.
    destruct (dname_eqb (mb_name mb) x) eqn:E2; reflexivity.
  - cbn [find_mb]. destruct (dname_eqb (mb_name mb) x) eqn:E2.
    + apply dname_eqb_eq in E2. subst x. rewrite dname_eqb_sym, E1. reflexivity.
    + exact IH.
Qed.

Lemma find_mb_unlink : forall x l1 cmb dmb l2 cd',
  NoDup (names_of_chain (l1 ++ cmb :: dmb :: l2)) ->
  find_mb x (l1 ++ set_mdisk cmb cd' :: l2) =
  if dname_eqb (mb_name dmb) x then None
  else if dname_eqb (mb_name cmb) x then Some (set_mdisk cmb cd')
  else find_mb x (l1 ++ cmb :: dmb :: l2).
Proof.
  intros x l1 cmb dmb l2 cd' Hnd. rewrite names_app_mid in Hnd. destruct (nodup_mid _ _ _ _ Hnd) as [Hcd [Hd1 [Hd2 [Hc1 _]]]].
  clear Hnd. induction l1 as [| a t IH]; cbn [app find_mb set_mdisk mb_name].
  - destruct (dname_eqb (mb_name dmb) x) eqn:E1; [| destruct (dname_eqb (mb_name cmb) x); reflexivity].
    apply dname_eqb_eq in E1. subst x.
    rewrite dname_eqb_neq by exact Hcd. apply find_mb_none. exact Hd2.
  - cbn [names_of_chain map] in Hd1, Hc1. destruct (dname_eqb (mb_name a) x) eqn:E;
      [| apply IH; [intro H; apply Hd1; right; exact H | intro H; apply Hc1; right; exact H]].
    apply dname_eqb_eq in E. subst x.
    rewrite !dname_eqb_neq; [reflexivity | intro H; apply Hc1; left; symmetry; exact H | intro H; apply Hd1; left; symmetry; exact H].
Qed.

Lemma linked_upd_same_parent : forall f f' x d d' l,
  linked f l ->
  f (Meta x) = Some (IDisk d) -> d_parent d' = d_parent d ->
  f' (Meta x) = Some (IDisk d') ->
  (forall y, f' (Img y) = f (Img y)) -> (forall y, y <> x -> f' (Meta y) = f (Meta y)) ->
  linked f' (upd_member x d' l).
Proof.
  intros f f' x d d' l. induction l as [| mb t IH]; intros Hl Hx Hp Hx' Himg Hoth; [exact I |].
  cbn [linked upd_member] in *. destruct Hl as [Hm [[gn Hi] [Hpar Ht]]].
  pose proof (upd_member_first x d' t) as Hnext. unfold first_name in Hnext.
  destruct (dname_eqb (mb_name mb) x) eqn:E.
  - apply dname_eqb_eq in E. cbn [set_mdisk mb_name mb_disk mb_id]. rewrite E.
    split; [exact Hx' |]. split; [exists gn; rewrite Himg; rewrite <- E; exact Hi |].
    split.
    + rewrite Hnext, Hp. rewrite E in Hm. rewrite Hm in Hx. inversion Hx; subst d. exact Hpar.
    + apply IH; assumption.
  - assert (Hne : mb_name mb <> x) by (intro H; rewrite H, dname_eqb_refl in E; discriminate).
    split; [rewrite Hoth by exact Hne; exact Hm |].
    split; [exists gn; rewrite Himg; exact Hi |].
    split; [rewrite Hnext; exact Hpar |]. apply IH; assumption.
Qed.

Lemma recover_upd_member : forall g w v x d d',
  recover g w = Some v ->
  files w (Meta x) = Some (IDisk d) -> d_parent d' = d_parent d ->
  recover g (enc_fs w (Meta x) (IDisk d')) = Some (mkview (cv_info v) (upd_member x d' (cv_chain v))).
Proof.
  intros g w v x d d' Hr Hx Hp. destruct (recover_elim g w v Hr) as [Hvol [h [c [Hhd [Hc [Hl [Hf Hlen]]]]]]].
  assert (Ho : forall y, y <> Meta x -> y <> MetaTmp x -> files (enc_fs w (Meta x) (IDisk d')) y = files w y).
  { intros. apply enc_fs_other; assumption. }
  apply recover_of_linked with (h := h) (c := c);
    [rewrite Ho by discriminate; exact Hvol | rewrite Ho by discriminate; exact Hc | | exact Hhd | | rewrite upd_member_length; exact Hlen].
  - eapply linked_upd_same_parent; [exact Hl | exact Hx | exact Hp | apply enc_fs_self, meta_name_disk
      | intros y; apply Ho; discriminate | intros y Hy; apply Ho; [congruence | discriminate]].
  - rewrite upd_member_first. exact Hf.
Qed.

Lemma linked_unlink : forall f f' l1 cmb dmb l2 cd',
  linked f (l1 ++ cmb :: dmb :: l2) -> NoDup (names_of_chain (l1 ++ cmb :: dmb :: l2)) ->
  d_parent cd' = d_parent (mb_disk dmb) ->
  f' (Meta (mb_name cmb)) = Some (IDisk cd') ->
  (forall y, f' (Img y) = f (Img y)) -> (forall y, y <> mb_name cmb -> f' (Meta y) = f (Meta y)) ->
  linked f' (l1 ++ set_mdisk cmb cd' :: l2).
Proof.
  intros f f' l1 cmb dmb l2 cd'. induction l1 as [| a t IH]; intros Hl Hnd Hp Hx' Himg Hoth.
  - cbn [app linked] in *. destruct Hl as [Hm [[gn Hi] [Hpar [Hmd [[gd Hid] [Hpd Ht]]]]]].
    cbn [set_mdisk mb_name mb_disk mb_id].
    split; [exact Hx' |]. split; [exists gn; rewrite Himg; exact Hi |].
    split; [rewrite Hp; exact Hpd |].
    eapply linked_frame; [exact Ht |]. intros x Hx.
    assert (x <> mb_name cmb).
    { intro; subst x. cbn [names_of_chain map app] in Hnd. inversion Hnd as [| ? ? Hn1 _]; subst.
      apply Hn1. right. exact Hx. }
    split; [apply Hoth; assumption | apply Himg].
  - cbn [app linked] in *. destruct Hl as [Hm [[gn Hi] [Hpar Ht]]].
    cbn [names_of_chain map app] in Hnd. inversion Hnd as [| ? ? Hn1 Hnd']; subst.
    assert (Hne : mb_name a <> mb_name cmb).
    { intro H. apply Hn1. rewrite H. fold (names_of_chain (t ++ cmb :: dmb :: l2)).
      rewrite names_of_chain_app. apply in_or_app; cbn; auto. }
    split; [rewrite Hoth by exact Hne; exact Hm |].
    split; [exists gn; rewrite Himg; exact Hi |].
    split.
    + rewrite Hpar. destruct t; reflexivity.
    + apply IH; assumption.
Qed.

Lemma recover_unlink : forall g w v l1 cmb dmb l2 cd',
  recover g w = Some v -> cv_chain v = l1 ++ cmb :: dmb :: l2 -> l1 <> [] ->
  NoDup (names_of_chain (cv_chain v)) -> d_parent cd' = d_parent (mb_disk dmb) ->
  recover g (enc_fs w (Meta (mb_name cmb)) (IDisk cd')) = Some (mkview (cv_info v) (l1 ++ set_mdisk cmb cd' :: l2)).
Proof.
  intros g w v l1 cmb dmb l2 cd' Hr Hch Hne Hnd Hp. destruct (recover_elim g w v Hr) as [Hvol [h [c [Hhd [Hc [Hl [Hf Hlen]]]]]]].
  rewrite Hch in Hl, Hnd, Hf, Hlen.
  assert (Ho : forall y, y <> Meta (mb_name cmb) -> y <> MetaTmp (mb_name cmb) ->
            files (enc_fs w (Meta (mb_name cmb)) (IDisk cd')) y = files w y) by (intros; apply enc_fs_other; assumption).
  apply recover_of_linked with (h := h) (c := c); [rewrite Ho by discriminate; exact Hvol | rewrite Ho by discriminate; exact Hc | | exact Hhd | |].
  - eapply linked_unlink; [exact Hl | exact Hnd | exact Hp | apply enc_fs_self, meta_name_disk
      | intros y; apply Ho; discriminate | intros y Hy; apply Ho; [congruence | discriminate]].
  - destruct l1 as [| a t1]; [contradiction | exact Hf].
  - rewrite app_length in *. cbn [length] in *. lia.
Qed.

Lemma upd_magree : forall g l m x d',
  magree g l m -> In x (names_of_chain l) ->
  magree g (upd_member x d' l) (set_disks m (updd (m_disks m) x (Some d'))).
Proof.
  intros g l m x d' [HD [HK HA]] Hin. unfold magree. rewrite upd_member_names. split; [| split; [exact HK | exact HA]].
  intros y. cbn [m_disks set_disks]. unfold dk, updd. rewrite find_mb_upd, HD. unfold dk.
  destruct (dname_eqb x y) eqn:E; [| reflexivity]. apply dname_eqb_eq in E. subst y.
  destruct (find_mb_some x l Hin) as [mb ->]. reflexivity.
Qed.

Lemma ctx_upd : forall g w v m mb d',
  ctx g w v m -> In mb (cv_chain v) -> d_parent d' = d_parent (mb_disk mb) -> Some (mb_name mb) <> i_head (cv_info v) ->
  ctx g (enc_fs w (Meta (mb_name mb)) (IDisk d')) (mkview (cv_info v) (upd_member (mb_name mb) d' (cv_chain v)))
        (set_disks m (updd (m_disks m) (mb_name mb) (Some d'))).
Proof.
  intros g w v m mb d' Hctx Hin Hp Hh.
  destruct (ctx_shape g w v m Hctx) as [n [id0 [d0 [tl0 [c [Hchain [Hvh [_ [_ [Hnd [Hndi [_ [_ [Hlink _]]]]]]]]]]]]]].
  destruct (linked_member _ _ mb Hlink Hin) as [Hx _].
  apply ctx_intro; [exact (recover_upd_member g w v _ _ d' (cx_rec _ _ _ _ Hctx) Hx Hp) | | apply (cx_ag _ _ _ _ Hctx)
                   | exact (upd_magree g _ m _ d' (ctx_magree _ _ _ _ Hctx) (in_map mb_name _ _ Hin)) | apply enc_fs_fresh; [exact I | apply Hctx]].
  apply wf_view_sub; [apply Hctx | | intros y Hy; rewrite upd_member_names in Hy; exact Hy
                     | rewrite upd_member_names; exact Hnd | rewrite upd_member_ids; exact Hndi].
  rewrite Hchain. cbn [upd_member mb_name hd_error]. rewrite dname_eqb_neq; [reflexivity | congruence].
Qed.

Lemma veq_upd_member : forall i l mb d',
  NoDup (names_of_chain l) -> In mb l -> attrs_same (mb_disk mb) d' ->
  veq (mkview i l) (mkview i (upd_member (mb_name mb) d' l)).
Proof.
  intros i l mb d' Hnd Hin Hat. split; [apply info_sim_refl |]. cbn [cv_chain].
  assert (Hall : forall x, In x l -> mb_name x = mb_name mb -> x = mb).
  { intros x Hx Hn. pose proof (find_mb_in l x Hnd Hx) as H1. rewrite Hn, (find_mb_in l mb Hnd Hin) in H1. congruence. }
  clear Hnd Hin. induction l as [| a t IH]; [constructor |]. cbn [upd_member]. constructor.
  - destruct (dname_eqb (mb_name a) (mb_name mb)) eqn:E; [| apply member_sim_refl]. apply dname_eqb_eq in E.
    rewrite (Hall a (or_introl eq_refl) E). split; [reflexivity |]. split; [reflexivity | exact Hat].
  - apply IH. intros x Hx. apply Hall. right. exact Hx.
Qed.

(** ** crash-atomic runs ([Good], [Atomic], [runs]) *)

Definition Good (g : cfg) (vpre vpost : chainview) (x : fs) : Prop :=
  exists v, recover g x = Some v /\ (veq v vpre \/ veq v vpost).

Lemma Good_pre : forall g v vpost x, recover g x = Some v -> Good g v vpost x.
Proof. intros. exists v. split; [assumption | left; apply veq_refl]. Qed.
Lemma Good_post : forall g vpre v x, recover g x = Some v -> Good g vpre v x.
Proof. intros. exists v. split; [assumption | right; apply veq_refl]. Qed.
Lemma Good_veq_post : forall g vpre vpost vmid x, recover g x = Some vmid -> veq vmid vpost -> Good g vpre vpost x.
Proof. intros. exists vmid. split; [assumption | right; assumption]. Qed.

(** for open: it brings RevisionCounters up to date ([norm_chain]), so the view it ends in is only [veq] to the one
    it started from *)
Lemma Good_into_post : forall g v a b b' x, veq a b' -> veq b b' -> Good g a b x -> Good g v b' x.
Proof.
  intros g v a b b' x Ha Hb [vx [Hr H]]. exists vx. split; [exact Hr |]. right.
  destruct H as [H | H]; eapply veq_trans; eassumption.
Qed.

Definition Atomic {A} (g : cfg) (vpre vpost : chainview) (p : prog A) (w : fs) : Prop :=
  Forall (Good g vpre vpost) (states p w).

Lemma Atomic_ret : forall A g v vp (a : A) w, Good g v vp w -> Atomic g v vp (Ret a) w.
Proof. intros. apply Forall_states_ret. assumption. Qed.

Lemma Atomic_head : forall A g v vp (p : prog A) w, Atomic g v vp p w -> Good g v vp w.
Proof.
  intros A g v vp p w H. unfold Atomic in H. destruct (states_head A p w) as [l Hl]. rewrite Hl in H.
  inversion H; assumption.
Qed.

Lemma Atomic_bind : forall A B g v vp (p : prog A) (f : A -> prog B) w w1 a,
  ff p w = (w1, Done a) -> Atomic g v vp p w -> Atomic g v vp (f a) w1 -> Atomic g v vp (bind p f) w.
Proof. intros A B g v vp. exact (Forall_states_bind_ff A B (Good g v vp)). Qed.

Lemma Atomic_into_post : forall A g v a b b' (p : prog A) w,
  veq a b' -> veq b b' -> Atomic g a b p w -> Atomic g v b' p w.
Proof.
  intros A g v a b b' p w Ha Hb H. eapply Forall_impl; [| exact H]. intros x. apply Good_into_post; assumption.
Qed.

Lemma Atomic_same : forall A g v (p : prog A) w, Atomic g v v p w -> forall vp, Atomic g v vp p w.
Proof.
  intros A g v p w H vp. eapply Forall_impl; [| exact H]. intros x [v' [Hr Hv]]. exists v'. split; [exact Hr |]. left. tauto.
Qed.

Lemma Atomic_const : forall A g v vp (p : prog A) w,
  Forall (eq w) (states p w) -> Good g v vp w -> Atomic g v vp p w.
Proof. intros A g v vp p w H Hg. eapply Forall_impl; [| exact H]. intros x E. subst x. exact Hg. Qed.

Lemma Atomic_silent : forall A g S (p : prog A) w v0 v vp,
  within S p -> recover g w = Some v0 -> (forall n, S n -> ~ footprint (cv_chain v0) n) ->
  veq v0 v \/ veq v0 vp -> Atomic g v vp p w.
Proof.
  intros A g S p w v0 v vp Hp Hr Hd Hv. eapply Forall_impl; [| apply (within_states A S p w Hp)].
  intros x Hx. exists v0. split; [eapply recover_only_on; eauto | exact Hv].
Qed.

(** the atomic replace by encodeToFile: until the rename only the temp file differs, which no
    recovery reads; so it is enough that the directories before and after are good *)
Lemma Atomic_encode_bind : forall B g v vp c n w (k : res -> prog B), meta_name n -> meta_content c ->
  Good g v vp w -> Atomic g v vp (k Ok) (enc_fs w n c) ->
  Atomic g v vp (bind (encode_to_file g c n) k) w.
Proof.
  intros B g v vp c n w k Hn Hc [v0 [Hr Hv]] Hk.
  eapply Atomic_bind; [apply ff_encode; assumption | | exact Hk].
  apply encode_states; [exact Hn | exact Hc | | eapply Atomic_head; exact Hk].
  intros x Hx _. exists v0. split; [| exact Hv]. eapply recover_only_on; [exact Hr | exact Hx |].
  intros y Hy. subst y. apply footprint_tmp_of. exact Hn.
Qed.

Definition runs {A} (g : cfg) (v vp : chainview) (p : prog A) (w w' : fs) (a : A) : Prop :=
  ff p w = (w', Done a) /\ Atomic g v vp p w.

Lemma runs_ret : forall A g v vp (a : A) w, Good g v vp w -> runs g v vp (Ret a) w w a.
Proof. intros. split; [reflexivity | apply Atomic_ret; assumption]. Qed.

Lemma runs_do : forall A g v vp c (k : reply -> prog A) w w1 r w' a,
  apply_call w c = (w1, r) -> Good g v vp w -> runs g v vp (k r) w1 w' a -> runs g v vp (Do c k) w w' a.
Proof.
  intros A g v vp c k w w1 r w' a Hc Hg [Hff Hat].
  split; [cbn [ff]; rewrite Hc; exact Hff | unfold Atomic; rewrite states_Do, Hc; constructor; assumption].
Qed.

Lemma runs_bind : forall A B g v vp (p : prog A) (f : A -> prog B) w w1 a w' b,
  runs g v vp p w w1 a -> runs g v vp (f a) w1 w' b -> runs g v vp (bind p f) w w' b.
Proof.
  intros A B g v vp p f w w1 a w' b [H1 A1] [H2 A2].
  split; [rewrite (ff_bind_done H1); exact H2 | eapply Atomic_bind; eassumption].
Qed.

Lemma runs_encode : forall B g v vp c n w (k : res -> prog B) w' b, meta_name n -> meta_content c ->
  Good g v vp w -> runs g v vp (k Ok) (enc_fs w n c) w' b -> runs g v vp (bind (encode_to_file g c n) k) w w' b.
Proof.
  intros B g v vp c n w k w' b Hn Hc Hg [H2 A2].
  split; [rewrite (ff_bind_done (ff_encode g c n w Hn Hc)); exact H2 | apply Atomic_encode_bind; assumption].
Qed.

Lemma runs_still : forall A g v vp (p : prog A) w a,
  ff p w = (w, Done a) /\ Forall (eq w) (states p w) -> Good g v vp w -> runs g v vp p w w a.
Proof. intros A g v vp p w a [H1 H2] Hg. split; [exact H1 | apply Atomic_const; assumption]. Qed.

(** A footprint in two phases as a further way to show a run atomic; nothing below uses it.  [p] changes only names
    in [S1] until a call satisfying [isc] (the commit) succeeds, and only names in [S2] after that. *)
Fixpoint phased {A} (S1 : name -> Prop) (isc : call -> bool) (S2 : name -> Prop) (Q1 Q2 : A -> Prop)
  (p : prog A) : Prop :=
  match p with
  | Ret a => Q1 a
  | Abort _ => True
  | Do c k =>
      if isc c
      then forall r, possible c r -> if is_err r then phased S1 isc S2 Q1 Q2 (k r) else withinQ S2 Q2 (k r)
      else (forall n, In n (may_write c) -> S1 n) /\ forall r, possible c r -> phased S1 isc S2 Q1 Q2 (k r)
  end.

Lemma phased_bind : forall A B S1 isc S2 Q1 Q2 R1 R2 (p : prog A) (f : A -> prog B),
  phased S1 isc S2 Q1 Q2 p ->
  (forall a, Q1 a -> phased S1 isc S2 R1 R2 (f a)) ->
  (forall a, Q2 a -> withinQ S2 R2 (f a)) ->
  phased S1 isc S2 R1 R2 (bind p f).
Proof.
  induction p as [a | e | c k IH]; intros f Hp Hf Hw; cbn [bind phased] in *; auto.
  destruct (isc c).
  - intros r Hr. specialize (Hp r Hr). destruct (is_err r); [apply IH; auto | eapply withinQ_bind; eauto].
  - destruct Hp as [Hc Hk]. split; auto.
Qed.

Fixpoint no_commit {A} (isc : call -> bool) (p : prog A) : Prop :=
  match p with
  | Do c k => isc c = false /\ forall r, no_commit isc (k r)
  | _ => True
  end.

Lemma phased_within : forall A S1 isc S2 Q1 Q2 (p : prog A),
  withinQ S1 Q1 p -> no_commit isc p -> phased S1 isc S2 Q1 Q2 p.
Proof.
  induction p as [a | e | c k IH]; intros Hp Hn; cbn [phased withinQ no_commit] in *; auto.
  destruct Hn as [Hc0 Hn]. rewrite Hc0. destruct Hp as [Hc Hk]. split; auto.
Qed.

Lemma apply_err_same : forall w c, is_err (snd (apply_call w c)) = true -> fst (apply_call w c) = w.
Proof.
  intros w c H. destruct c; cbn in *;
    repeat match goal with
           | |- context [match files ?w ?x with _ => _ end] => destruct (files w x) as [[]|]
           | H : context [match files ?w ?x with _ => _ end] |- _ => destruct (files w x) as [[]|]
           | |- context [if is_img ?x then _ else _] => destruct (is_img x)
           | H : context [if is_img ?x then _ else _] |- _ => destruct (is_img x)
           | |- context [match ?c with IVol _ => _ | _ => _ end] => destruct c
           | H : context [match ?c with IVol _ => _ | _ => _ end] |- _ => destruct c
           end; cbn in *; try reflexivity; try discriminate.
Qed.

Lemma phased_states : forall A S1 isc S2 Q1 Q2 (p : prog A) w,
  phased S1 isc S2 Q1 Q2 p ->
  Forall (fun x => only_on S1 w x \/ only_on S2 (fst (ff p w)) x) (states p w).
Proof.
  induction p as [a | e | c k IH]; intros w Hp; cbn [states ff].
  - constructor; [left; apply only_on_refl | constructor].
  - constructor; [left; apply only_on_refl | constructor].
  - constructor; [left; apply only_on_refl |].
    cbn [phased] in Hp. destruct (apply_call w c) as [w1 r] eqn:Hcall.
    assert (Hpos : possible c r) by (exists w; rewrite Hcall; reflexivity).
    destruct (isc c) eqn:Ec.
    + specialize (Hp r Hpos). destruct (is_err r) eqn:Er.
      * (* the commit call failed: nothing changed *)
        assert (w1 = w).
        { replace w1 with (fst (apply_call w c)) by (rewrite Hcall; reflexivity).
          apply apply_err_same. rewrite Hcall. exact Er. }
        subst w1. apply IH. exact Hp.
      * (* committed: from here on only S2 *)
        apply withinQ_within in Hp.
        pose proof (within_states _ S2 (k r) w1 Hp) as Hst.
        pose proof (within_ff _ S2 (k r) w1 Hp) as Hfin.
        eapply Forall_impl; [| exact Hst]. intros x Hx. right.
        intros n Hn. rewrite Hx, Hfin; auto.
    + destruct Hp as [Hc Hk]. specialize (IH r w1 (Hk r Hpos)).
      eapply Forall_impl; [| exact IH]. intros x [Hx | Hx]; [left | right; exact Hx].
      eapply only_on_trans; [| exact Hx].
      intros n Hn. replace w1 with (fst (apply_call w c)) by (rewrite Hcall; reflexivity).
      apply apply_call_frame. intro Hin. apply Hn. auto.
Qed.

Lemma phased_good : forall g A S1 isc S2 Q1 Q2 (p : prog A) w v vpost,
  phased S1 isc S2 Q1 Q2 p ->
  recover g w = Some v -> (forall n, S1 n -> ~ footprint (cv_chain v) n) ->
  recover g (fst (ff p w)) = Some vpost -> (forall n, S2 n -> ~ footprint (cv_chain vpost) n) ->
  Forall (Good g v vpost) (states p w).
Proof.
  intros g A S1 isc S2 Q1 Q2 p w v vpost Hp Hr H1 Hr' H2.
  eapply Forall_impl; [| apply (phased_states A S1 isc S2 Q1 Q2 p w Hp)].
  intros x [Hx | Hx].
  - apply Good_pre. eapply recover_only_on; eauto.
  - apply Good_post. eapply recover_only_on; eauto.
Qed.

(** ** [ospec]: one operation on an open replica, and its rules *)

Definition ospec (g : cfg) (w : fs) (v : chainview) (m : mem) (p : prog (mem * res)) : Prop :=
  exists w' m' r vpost,
    ff p w = (w', Done (m', r))
    /\ ctx g w' vpost m'
    /\ Atomic g v vpost p w
    /\ (r <> Ok -> vpost = v /\ m' = m).

Lemma ospec_of_runs : forall g w v m p w' m' r vp,
  runs g v vp p w w' (m', r) -> ctx g w' vp m' -> (r <> Ok -> vp = v /\ m' = m) -> ospec g w v m p.
Proof. intros g w v m p w' m' r vp [Hff Hat] Hc Hr. exists w', m', r, vp. auto. Qed.

Lemma ospec_runs : forall g w v m p w' m' vp, runs g v vp p w w' (m', Ok) -> ctx g w' vp m' -> ospec g w v m p.
Proof. intros g w v m p w' m' vp Hrun Hc. apply (ospec_of_runs g w v m p w' m' Ok vp Hrun Hc). intros H. congruence. Qed.

Lemma ospec_refuse : forall g w v m r, ctx g w v m -> ospec g w v m (Ret (m, r)).
Proof.
  intros g w v m r Hc. apply (ospec_of_runs g w v m _ w m r v); [apply runs_ret, Good_pre; apply Hc | exact Hc | auto].
Qed.

Lemma ospec_ret_ok : forall g w v m m', ctx g w v m' -> ospec g w v m (Ret (m', Ok)).
Proof. intros g w v m m' Hc. apply (ospec_runs g w v m _ w m' v); [apply runs_ret, Good_pre; apply Hc | exact Hc]. Qed.

Lemma ospec_bind : forall A g w w1 v m (p : prog A) a (f : A -> prog (mem * res)),
  ff p w = (w1, Done a) -> Atomic g v v p w -> ospec g w1 v m (f a) ->
  ospec g w v m (bind p f).
Proof.
  intros A g w w1 v m p a f Hff Hp [w' [m' [r [vp [Hf [Hc [Hst Hr]]]]]]].
  eapply ospec_of_runs; [eapply runs_bind; [exact (conj Hff (Atomic_same _ _ _ _ _ Hp vp)) | exact (conj Hf Hst)] | exact Hc | exact Hr].
Qed.

Lemma ospec_do : forall g w w1 v m c r (k : reply -> prog (mem * res)),
  apply_call w c = (w1, r) -> recover g w = Some v -> ospec g w1 v m (k r) -> ospec g w v m (Do c k).
Proof.
  intros g w w1 v m c r k Hc Hrec [w' [m' [r' [vp [Hff [Hc' [Hst Hr]]]]]]].
  eapply ospec_of_runs; [eapply runs_do; [exact Hc | apply Good_pre; exact Hrec | exact (conj Hff Hst)] | exact Hc' | exact Hr].
Qed.

Lemma ospec_silent : forall A g S w v m (p : prog A) w1 a (f : A -> prog (mem * res)),
  ctx g w v m -> within S p -> (forall n, S n -> ~ footprint (cv_chain v) n) -> ff p w = (w1, Done a) ->
  (ctx g w1 v m -> ospec g w1 v m (f a)) -> ospec g w v m (bind p f).
Proof.
  intros A g S w v m p w1 a f Hctx Hw Hd Hff Hk. pose proof (cx_rec _ _ _ _ Hctx) as Hrec.
  eapply ospec_bind; [exact Hff | exact (Atomic_silent A g S p w v v v Hw Hrec Hd (or_introl (veq_refl v))) |].
  apply Hk, (ctx_move _ _ _ g w w1 v m Hctx Hff).
  pose proof (within_recover _ g _ _ w v Hw Hrec Hd) as H. rewrite Hff in H. exact H.
Qed.

Lemma keep_old_res : forall g m t, snd (keep_old g m t) = snd t.
Proof. intros g m [m' r]. unfold keep_old. destruct (fix_mem g && negb (is_ok (snd (m', r)))); reflexivity. Qed.

(** in a fault-free run the exits on which [keepold] hands back the memory at entry already do
    ([ospec]: r <> Ok -> m' = m) *)
Lemma ospec_keepold : forall g w v m p, ospec g w v m p -> ospec g w v m (keepold g m p).
Proof.
  intros g w v m p [w' [m' [r [vp [Hff [Hc [Hst Hr]]]]]]].
  assert (Hk : keep_old g m (m', r) = (m', r)).
  { unfold keep_old. cbn [snd]. destruct (fix_mem g && negb (is_ok r)) eqn:E; [| reflexivity].
    apply Bool.andb_true_iff in E. destruct E as [_ E]. assert (Hne : r <> Ok) by (intro; subst r; discriminate).
    destruct (Hr Hne) as [_ Hm]. subst m'. reflexivity. }
  exists w', m', r, vp. unfold keepold.
  split; [rewrite (ff_bind_done Hff); cbn [ff]; rewrite Hk; reflexivity |].
  split; [exact Hc |]. split; [| exact Hr].
  eapply Atomic_bind; [exact Hff | exact Hst | apply Atomic_ret, Good_post; apply Hc].
Qed.

(** SetCheckpoint, SetRebuilding, close, the last step of Resize and of construct: volume.meta is rewritten,
    nothing else *)
Lemma vol_only_run : forall B g w v i' (b : B) (k : res -> prog B),
  recover g w = Some v -> i_head i' = i_head (cv_info v) -> k Ok = Ret b ->
  runs g v (mkview i' (cv_chain v)) (bind (encode_to_file g (IVol i') Vol) k) w (enc_fs w Vol (IVol i')) b.
Proof.
  intros B g w v i' b k Hr Hhd Hk. apply runs_encode; [apply meta_name_vol | exact I | apply Good_pre; exact Hr |].
  rewrite Hk. apply runs_ret, Good_post. exact (recover_vol_rewrite g w v i' Hr Hhd).
Qed.

Lemma ctx_vol : forall g w v m i' m',
  ctx g w v m ->
  i_head i' = i_head (m_info m) -> i_parent i' = i_parent (m_info m) -> info_sim (m_info m') i' ->
  m_disks m' = m_disks m -> m_children m' = m_children m -> m_active m' = m_active m ->
  ctx g (enc_fs w Vol (IVol i')) (mkview i' (cv_chain v)) m'.
Proof.
  intros g w v m i' m' [Hr Hwf Hag Hfr Hhs] Hhd Hpar Hi Hd Hc Ha. destruct (agree_head g v m Hag) as [Hh Hp].
  constructor; [apply recover_vol_rewrite; [exact Hr | congruence] | apply wf_view_info; [exact Hwf | congruence | congruence]
               | apply agree_same with (m := m); assumption | apply enc_fs_fresh; [exact I | exact Hfr] |].
  intros j. rewrite Hc. apply Hhs.
Qed.

Lemma vol_only_spec : forall g w v m i' m' (k : res -> prog (mem * res)),
  ctx g w v m ->
  i_head i' = i_head (m_info m) -> i_parent i' = i_parent (m_info m) -> info_sim (m_info m') i' ->
  m_disks m' = m_disks m -> m_children m' = m_children m -> m_active m' = m_active m -> k Ok = Ret (m', Ok) ->
  ospec g w v m (bind (encode_to_file g (IVol i') Vol) k).
Proof.
  intros g w v m i' m' k Hctx Hhd Hpar Hi Hd Hc Ha Hk. destruct (agree_head g v m (cx_ag _ _ _ _ Hctx)) as [Hh _].
  apply (ospec_runs g w v m _ _ m' _ (vol_only_run _ g w v i' (m', Ok) k (cx_rec _ _ _ _ Hctx) ltac:(congruence) Hk)).
  exact (ctx_vol g w v m i' m' Hctx Hhd Hpar Hi Hd Hc Ha).
Qed.

(** ** [InvS], the invariant of histories, and [sspec] *)

Definition InvS (g : cfg) (s : st) : Prop :=
  exists v, recover g (s_fs s) = Some v /\ wf_view v /\ ids_fresh (s_fs s)
            /\ match s_mem s with Some m => agree g v m /\ heads_ok m | None => True end.

Lemma InvS_ctx : forall g w m, InvS g (mkst w (Some m)) -> exists v, ctx g w v m.
Proof. intros g w m [v [H1 [H2 [H3 [H4 H5]]]]]. exists v. constructor; assumption. Qed.

Lemma ctx_InvS : forall g w v m, ctx g w v m -> InvS g (mkst w (Some m)).
Proof.
  intros g w v m [R1 R2 R3 R4 R5]. exists v. cbn [s_fs s_mem].
  split; [exact R1 | split; [exact R2 | split; [exact R4 | split; [exact R3 | exact R5]]]].
Qed.

Lemma InvS_drop_mem : forall g w om, InvS g (mkst w om) -> InvS g (mkst w None).
Proof. intros g w om [v [H1 [H2 [H3 _]]]]. exists v. repeat split; assumption. Qed.

Lemma InvS_wf : forall g s v, InvS g s -> recover g (s_fs s) = Some v -> wf_view v.
Proof. intros g s v [v0 [Hr [Hwf _]]] H. rewrite H in Hr. injection Hr as <-. exact Hwf. Qed.

Lemma Good_InvS : forall g vpre vpost x, Good g vpre vpost x -> wf_view vpre -> wf_view vpost -> ids_fresh x -> InvS g (mkst x None).
Proof.
  intros g vpre vpost x [vx [Hr [Hv | Hv]]] H1 H2 Hf; exists vx; cbn [s_fs s_mem];
    (split; [exact Hr | split; [eapply wf_view_veq; eauto | split; [exact Hf | exact I]]]).
Qed.

(** [Inv] is not the invariant of the history theorems (that is [InvS]); nothing below uses these two. *)
Definition wf_fs (g : cfg) (w : fs) : Prop :=
  ids_fresh w /\ exists v, recover g w = Some v /\ wf_view v.

Definition Inv (g : cfg) (s : st) : Prop :=
  s = init \/
  (wf_fs g (s_fs s) /\
   match s_mem s with
   | None => True
   | Some m => exists v, recover g (s_fs s) = Some v /\ agree g v m
   end).

Definition sspec (g : cfg) (w : fs) (v : chainview) (om : option mem) (p : prog (option mem * res * nat)) : Prop :=
  exists w' om' r k vpost,
    ff p w = (w', Done (om', r, k))
    /\ InvS g (mkst w' om') /\ recover g w' = Some vpost
    /\ Atomic g v vpost p w
    /\ (r <> Ok -> vpost = v /\ om' = om).

Lemma sspec_ret : forall g w v om om' r k,
  InvS g (mkst w om') -> recover g w = Some v -> (r <> Ok -> om' = om) ->
  sspec g w v om (Ret (om', r, k)).
Proof.
  intros g w v om om' r k Hi Hr Hm. exists w, om', r, k, v. split; [reflexivity |]. split; [exact Hi |]. split; [exact Hr |].
  split; [apply Atomic_ret, Good_pre; exact Hr | intros H; split; [reflexivity | auto]].
Qed.

Lemma sspec_wrap : forall A g w v m (p : prog A) (h : A -> prog (option mem * res * nat)) w' a m' r k vp,
  runs g v vp p w w' a -> h a = Ret (Some m', r, k) -> ctx g w' vp m' -> (r <> Ok -> vp = v /\ m' = m) ->
  sspec g w v (Some m) (bind p h).
Proof.
  intros A g w v m p h w' a m' r k vp [Hff Hst] Hh Hc Hr. exists w', (Some m'), r, k, vp.
  split; [rewrite (ff_bind_done Hff), Hh; reflexivity |].
  split; [eapply ctx_InvS; exact Hc |]. split; [apply Hc |]. split.
  - eapply Atomic_bind; [exact Hff | exact Hst | rewrite Hh; apply Atomic_ret, Good_post; apply Hc].
  - intros H. destruct (Hr H) as [E1 E2]. subst. auto.
Qed.

Lemma sspec_lift : forall g w v m p, ospec g w v m p -> sspec g w v (Some m) (lift p).
Proof.
  intros g w v m p [w' [m' [r [vp [Hff [Hc [Hst Hr]]]]]]].
  exact (sspec_wrap _ g w v m p _ w' (m', r) m' r O vp (conj Hff Hst) eq_refl Hc Hr).
Qed.

(** ** the building blocks (SyncDir, encodeToFile, rmDisk, linkDisk, createNewHead) *)

(* [inS] proves [forall n, In n (may_write c) -> S n] for a concrete [c], the [S x] needed being hypotheses *)
Ltac inS := let n := fresh "n" in let H := fresh "H" in
  intros n H; cbn in H; repeat (destruct H as [H | H]; [subst; auto |]); try contradiction.

Lemma wq_sync_dir : forall S, withinQ S (fun _ => True) sync_dir.
Proof. intros S. cbn. split; [inS |]. intros r _. destruct (is_err r); exact I. Qed.

Lemma wq_encode : forall g c n (S : name -> Prop), S (tmp_of n) -> S n -> withinQ S (fun _ => True) (encode_to_file g c n).
Proof.
  intros g c n S H1 H2. unfold encode_to_file. cbn [withinQ].
  split; [inS |]. intros r1 _. destruct (is_err r1); [exact I |]. cbn [withinQ].
  split; [inS |]. intros r2 _. destruct (fixed g && is_err r2).
  { cbn. split; [inS |]. intros; exact I. }
  cbn [withinQ]. split; [inS |]. intros r3 _. destruct (is_err r3); [exact I |]. cbn [withinQ].
  split; [inS |]. intros r4 _. destruct (is_err r4); [exact I |].
  apply wq_sync_dir.
Qed.

Lemma wq_rm_disk : forall d (S : name -> Prop),
  (forall x, d = Some x -> S (Img x) /\ S (Meta x)) -> withinQ S (fun _ => True) (rm_disk d).
Proof.
  intros d S HS. destruct d as [x |]; [| exact I].
  destruct (HS x eq_refl) as [H1 H2]. unfold rm_disk. cbn [withinQ].
  split; [inS |]. intros r1 _. destruct (negb (enoent_or_ok r1)); [exact I |]. cbn [withinQ].
  split; [inS |]. intros r2 _. destruct (negb (enoent_or_ok r2)); [exact I |].
  apply wq_sync_dir.
Qed.

Lemma wq_link_disk : forall old new (S : name -> Prop),
  (forall x, new = Some x -> S (Img x) /\ S (Meta x)) -> withinQ S (fun _ => True) (link_disk old new).
Proof.
  intros old new S HS. destruct old as [o |]; [| exact I]. destruct new as [nw |]; [| exact I].
  destruct (HS nw eq_refl) as [H1 H2]. unfold link_disk. cbn [withinQ].
  split; [inS |]. intros r1 _. destruct (negb (is_err r1)); [exact I |]. cbn [withinQ].
  split; [inS |]. intros r2 _. destruct (negb (is_err r2)); [exact I |]. cbn [withinQ].
  split; [inS |]. intros r3 _. destruct (is_err r3); [exact I |]. cbn [withinQ].
  split; [inS |]. intros r4 _. destruct (is_err r4); [exact I |].
  apply wq_sync_dir.
Qed.

Lemma wq_get_rev : forall (S : name -> Prop), withinQ S (fun _ => True) get_rev.
Proof. intros S. unfold get_rev. cbn. split; [inS |]. intros r _. destruct r as [| | | [] |]; exact I. Qed.

Lemma wq_open_file_trunc : forall n (S : name -> Prop), S n -> withinQ S (fun _ => True) (open_file_trunc n).
Proof.
  intros n S H. unfold open_file_trunc. cbn [withinQ]. split; [inS |]. intros r1 _.
  destruct (is_err r1); cbn; auto. split; [inS |]. intros; exact I.
Qed.
Lemma wq_open_file : forall n (S : name -> Prop) (Q : bool -> Prop), S n -> (forall b, Q b) -> withinQ S Q (open_file n).
Proof.
  intros n S Q H HQ. unfold open_file. cbn [withinQ]. split; [inS |]. intros r1 _.
  destruct (is_err r1); cbn; auto. split; [inS |]. intros; apply HQ.
Qed.

Definition cnh_post (nh : dname) (t : option dname * disk * res) : Prop :=
  (fst (fst t) = None \/ fst (fst t) = Some nh) /\ (snd t = Ok -> fst (fst t) = Some nh).

Definition nodisk : disk := mkdisk None false false 0 0.

Definition cnh_rest (g : cfg) (m : mem) (nh : dname) (par : option dname) (cr : N)
  : prog (option dname * disk * res) :=
  okf <- open_file_trunc (Img nh) ;;
  if negb okf then Ret (None, nodisk, Failed) else
  Do (CTruncate (Img nh) (i_size (m_info m))) (fun rt =>
  if is_err rt then Ret (None, nodisk, Failed) else
  rv <- get_rev ;;
  let nd := mkdisk par false false cr rv in
  e <- encode_to_file g (IDisk nd) (Meta nh) ;;
  Ret (Some nh, nd, e)).

Lemma create_new_head_unfold : forall g m n par cr,
  create_new_head g m (Some (Head n)) par cr =
  Do (CStat (Img (Head (S n)))) (fun rs =>
  if is_err rs then cnh_rest g m (Head (S n)) par cr else
  Do (CStat (Img (Head (S n)))) (fun rb =>
  match rb with
  | RStat true => Ret (None, nodisk, Failed)
  | _ => e <- rm_disk (Some (Head (S n))) ;;
         if is_ok e then cnh_rest g m (Head (S n)) par cr else Ret (None, nodisk, Failed)
  end)).
Proof. reflexivity. Qed.

Lemma wq_cnh_rest : forall g m nh par cr (F : name -> Prop),
  F (Img nh) -> F (Meta nh) -> F (MetaTmp nh) -> withinQ F (cnh_post nh) (cnh_rest g m nh par cr).
Proof.
  intros g m nh par cr F H1 H2 H3.
  assert (Hfail : cnh_post nh (None, nodisk, Failed)) by (split; cbn; [auto | discriminate]).
  unfold cnh_rest. eapply withinQ_bind; [apply wq_open_file_trunc; auto |].
  intros okf _. destruct (negb okf); [exact Hfail |]. cbn [withinQ]. split; [inS |].
  intros rt _. destruct (is_err rt); [exact Hfail |].
  eapply withinQ_bind; [apply wq_get_rev; auto |]. intros rv _.
  eapply withinQ_bind; [apply wq_encode; cbn; auto |]. intros e _.
  cbn. split; cbn; auto.
Qed.

Lemma wq_create_new_head : forall g m n par cr (F : name -> Prop),
  F (Img (Head (S n))) -> F (Meta (Head (S n))) -> F (MetaTmp (Head (S n))) ->
  withinQ F (cnh_post (Head (S n))) (create_new_head g m (Some (Head n)) par cr).
Proof.
  intros g m n par cr F H1 H2 H3. rewrite create_new_head_unfold. set (nh := Head (S n)) in *.
  assert (Hfail : cnh_post nh (None, nodisk, Failed)) by (split; cbn; [auto | discriminate]).
  pose proof (wq_cnh_rest g m nh par cr F H1 H2 H3) as Hrest.
  cbn [withinQ]. split; [inS |]. intros rs _. destruct (is_err rs); [exact Hrest |].
  cbn [withinQ]. split; [inS |]. intros rb _.
  destruct rb as [| | [] | |]; try exact Hfail;
    (eapply withinQ_bind; [apply wq_rm_disk; intros x Hx; inversion Hx; subst; auto |];
     intros e' _; destruct (is_ok e'); [exact Hrest | exact Hfail]).
Qed.

(* [nneq] proves a disequality of names from their constructors, or finds it in the context *)
Ltac nneq := first [ discriminate | assumption | congruence
                   | let Hq := fresh "Hq" in intro Hq; inversion Hq; subst; lia
                   | let Hq := fresh "Hq" in intro Hq; inversion Hq; subst; congruence ].

Lemma rm_disk_ff : forall w x,
  exists w1, ff (rm_disk (Some x)) w = (w1, Done Ok)
    /\ files w1 (Img x) = None
    /\ (forall y, y <> Img x -> y <> Meta x -> files w1 y = files w y)
    /\ nextid w1 = nextid w.
Proof.
  intros w x. unfold rm_disk. cbn [ff apply_call].
  destruct (files w (Img x)) as [ci |] eqn:Hi; cbn [ff apply_call enoent_or_ok negb].
  - destruct (files (set_file w (Img x) None) (Meta x)) as [cm |] eqn:Hm; cbn [ff apply_call enoent_or_ok negb sync_dir is_err].
    + eexists. split; [reflexivity |]. repeat split.
      * rewrite set_file_neq by nneq. apply set_file_eq.
      * intros y H1 H2. rewrite !set_file_neq by congruence. reflexivity.
    + eexists. split; [reflexivity |]. repeat split.
      * apply set_file_eq.
      * intros y H1 H2. rewrite !set_file_neq by congruence. reflexivity.
  - destruct (files w (Meta x)) as [cm |] eqn:Hm; cbn [ff apply_call enoent_or_ok negb sync_dir is_err].
    + eexists. split; [reflexivity |]. repeat split.
      * rewrite set_file_neq by nneq. exact Hi.
      * intros y H1 H2. rewrite !set_file_neq by congruence. reflexivity.
    + eexists. split; [reflexivity |]. repeat split; auto.
Qed.

Lemma get_rev_ff : forall w c, files w Counter = Some (ICounter c) -> ff get_rev w = (w, Done c).
Proof. intros w c H. unfold get_rev. cbn [ff apply_call]. rewrite H. reflexivity. Qed.

Lemma link_disk_ff : forall w o nw ci cm,
  files w (Img o) = Some ci -> files w (Meta o) = Some cm ->
  ff (link_disk (Some o) (Some nw)) w = (w, Done Refused)
  \/ ff (link_disk (Some o) (Some nw)) w = (set_file (set_file w (Img nw) (Some ci)) (Meta nw) (Some cm), Done Ok).
Proof.
  intros w o nw ci cm Hi Hm. unfold link_disk. cbn [ff apply_call].
  destruct (files w (Img nw)) as [c1 |] eqn:H1.
  { left. destruct c1; reflexivity. }
  cbn [is_err negb ff apply_call].
  destruct (files w (Meta nw)) as [c2 |] eqn:H2.
  { left. destruct c2; reflexivity. }
  cbn [is_err negb ff apply_call]. rewrite Hi, H1. cbn [is_err ff apply_call].
  rewrite set_file_neq by nneq. rewrite Hm. rewrite set_file_neq by nneq. rewrite H2.
  right. reflexivity.
Qed.

Lemma cnh_rest_ff : forall g m nh par cr w c,
  files w Counter = Some (ICounter c) -> files w (Img nh) = None ->
  exists w1, ff (cnh_rest g m nh par cr) w = (w1, Done (Some nh, mkdisk par false false cr c, Ok))
    /\ files w1 (Img nh) = Some (IImg (nextid w) 0)
    /\ files w1 (Meta nh) = Some (IDisk (mkdisk par false false cr c))
    /\ (forall x, x <> Img nh -> x <> Meta nh -> x <> MetaTmp nh -> files w1 x = files w x).
Proof.
  intros g m nh par cr w c Hc Hn. unfold cnh_rest, open_file_trunc.
  cbn [bind ff apply_call]. rewrite Hn. cbn [is_err ff apply_call is_img bind]. rewrite Hn.
  cbn [is_err negb ff apply_call bind].
  assert (Hcr : files (created w (Img nh)) (Img nh) = Some (IImg (nextid w) 0)).
  { unfold created. cbn [files]. apply updf_eq. }
  rewrite Hcr. cbn [is_err ff].
  rewrite ff_bind. rewrite (get_rev_ff _ c).
  2:{ unfold created. cbn [files]. rewrite updf_neq by nneq. exact Hc. }
  rewrite ff_bind, ff_encode_disk.
  cbn [ff]. eexists. split; [reflexivity |]. split; [| split].
  - rewrite enc_fs_other by (cbn; nneq). exact Hcr.
  - apply enc_fs_self, meta_name_disk.
  - intros x H1 H2 H3. rewrite enc_fs_other by (cbn; assumption).
    unfold created. cbn [files]. apply updf_neq. congruence.
Qed.

(** the first alternative: a stale file of the new head's name holds data *)
Lemma cnh_ff : forall g m n par cr w c,
  files w Counter = Some (ICounter c) ->
  let nh := Head (S n) in
  (ff (create_new_head g m (Some (Head n)) par cr) w = (w, Done (None, nodisk, Failed)))
  \/ exists w1, ff (create_new_head g m (Some (Head n)) par cr) w
                = (w1, Done (Some nh, mkdisk par false false cr c, Ok))
      /\ files w1 (Img nh) = Some (IImg (nextid w) 0)
      /\ files w1 (Meta nh) = Some (IDisk (mkdisk par false false cr c))
      /\ (forall x, x <> Img nh -> x <> Meta nh -> x <> MetaTmp nh -> files w1 x = files w x).
Proof.
  intros g m n par cr w c Hc nh. rewrite create_new_head_unfold. fold nh. cbn [ff apply_call].
  destruct (files w (Img nh)) as [ci |] eqn:Hi.
  2:{ cbn [is_err]. right. apply cnh_rest_ff; assumption. }
  assert (Hnoerr : forall b, is_err (RStat b) = false) by reflexivity.
  assert (Hcase : (exists b, (match ci with IImg _ g0 => (w, RStat (N.ltb 0 g0)) | _ => (w, RStat true) end) = (w, RStat b))).
  { destruct ci; eauto. }
  destruct Hcase as [b Hb]. rewrite Hb. rewrite Hnoerr. cbn [ff apply_call]. rewrite Hi, Hb.
  destruct b.
  - left. reflexivity.
  - rewrite ff_bind. destruct (rm_disk_ff w nh) as [w0 [Hff [H1 [H3 H4]]]]. rewrite Hff. cbn [is_ok res_eqb].
    right. destruct (cnh_rest_ff g m nh par cr w0 c) as [w1 [Hff1 [K1 [K2 K4]]]].
    + rewrite H3 by nneq. exact Hc.
    + exact H1.
    + exists w1. rewrite Hff1. rewrite H4 in *. repeat split; auto.
      intros x X1 X2 X3. rewrite K4 by assumption. apply H3; assumption.
Qed.

Definition own (d : dname) (x : name) : Prop := x = Img d \/ x = Meta d \/ x = MetaTmp d.

Lemma own_off_chain : forall l d x, ~ In d (names_of_chain l) -> own d x -> ~ footprint l x.
Proof.
  intros l d x Hd [E | [E | E]] Hf; subst x;
    [apply footprint_img in Hf | apply footprint_meta in Hf | exact (footprint_tmp _ _ Hf)]; contradiction.
Qed.

Lemma rm_disk_within : forall d, within (own d) (rm_disk (Some d)).
Proof.
  intros d. eapply withinQ_within, wq_rm_disk.
  intros y Hy. injection Hy as <-. unfold own. auto.
Qed.

Lemma rm_disk_off : forall g w v0 d, recover g w = Some v0 -> ~ In d (names_of_chain (cv_chain v0)) ->
  exists w', recover g w' = Some v0
    /\ forall v vp, veq v0 v \/ veq v0 vp -> runs g v vp (rm_disk (Some d)) w w' Ok.
Proof.
  intros g w v0 d Hr Hd. destruct (rm_disk_ff w d) as [w' [Hff _]]. exists w'.
  pose proof (rm_disk_within d) as Hw.
  assert (Hoff := fun x => own_off_chain (cv_chain v0) d x Hd).
  split.
  - pose proof (within_recover _ g _ _ w v0 Hw Hr Hoff) as H. rewrite Hff in H. exact H.
  - intros v vp Hv. exact (conj Hff (Atomic_silent _ g _ _ w v0 v vp Hw Hr Hoff Hv)).
Qed.

(** the createNewHead step of Snapshot and of Revert *)
Lemma ospec_new_head : forall g w v m n par cr c (f : option dname * disk * res -> prog (mem * res)),
  let nh := Head (S n) in let nd := mkdisk par false false cr c in
  ctx g w v m -> files w Counter = Some (ICounter c) -> ~ In nh (names_of_chain (cv_chain v)) ->
  ospec g w v m (f (None, nodisk, Failed)) ->
  (forall w1, ctx g w1 v m -> files w1 (Img nh) = Some (IImg (nextid w) 0) -> files w1 (Meta nh) = Some (IDisk nd) ->
              files w1 Counter = Some (ICounter c) -> ospec g w1 v m (f (Some nh, nd, Ok))) ->
  ospec g w v m (bind (create_new_head g m (Some (Head n)) par cr) f).
Proof.
  intros g w v m n par cr c f nh nd Hctx Hcnt Hnh Hfail Hok.
  assert (Hcw : within (own nh) (create_new_head g m (Some (Head n)) par cr)).
  { apply withinQ_within with (Q := cnh_post nh). apply wq_create_new_head; unfold own; auto. }
  destruct (cnh_ff g m n par cr w c Hcnt) as [Hff1 | [w1 [Hff1 [K1 [K2 K4]]]]];
    apply (ospec_silent _ g _ w v m _ _ _ _ Hctx Hcw (fun x => own_off_chain _ nh x Hnh) Hff1); intros Hctx1.
  - exact Hfail.
  - apply Hok; try assumption. rewrite K4 by discriminate. exact Hcnt.
Qed.

(** ** SetCheckpoint, SetRebuilding, close, Resize, WriteAt *)

Lemma set_checkpoint_spec : forall g w v m c, ctx g w v m -> ospec g w v m (set_checkpoint g m c).
Proof.
  intros g w v m c Hctx.
  apply vol_only_spec with (m' := set_info m (set_checkpoint_info (m_info m) c));
    [exact Hctx | reflexivity | reflexivity | apply info_sim_refl | reflexivity ..].
Qed.

Lemma set_rebuilding_spec : forall g w v m b, ctx g w v m -> ospec g w v m (set_rebuilding g m b).
Proof.
  intros g w v m b Hctx.
  apply vol_only_spec with (m' := set_info m (set_dirty_rebuilding (m_info m) (i_dirty (m_info m)) b));
    [exact Hctx | reflexivity | reflexivity | repeat split | reflexivity ..].
Qed.

Lemma close_replica_ctx : forall g w v m, ctx g w v m ->
  let i' := set_dirty_rebuilding (m_info m) false (i_rebuilding (m_info m)) in
  runs g v (mkview i' (cv_chain v)) (close_replica g m) w (enc_fs w Vol (IVol i')) (set_mode m CLOSED, Ok)
  /\ ctx g (enc_fs w Vol (IVol i')) (mkview i' (cv_chain v)) (set_mode m CLOSED).
Proof.
  intros g w v m Hctx i'. destruct (agree_head g v m (cx_ag _ _ _ _ Hctx)) as [Hh _].
  split; [apply vol_only_run; [apply Hctx | exact Hh | reflexivity] |].
  apply (ctx_vol g w v m i' _ Hctx); try reflexivity. repeat split.
Qed.

Lemma close_sspec : forall g w v m, ctx g w v m -> sspec g w v (Some m) (op_prog g (Some m) OClose).
Proof.
  intros g w v m Hctx. destruct (close_replica_ctx g w v m Hctx) as [[Hff Hst] Hc'].
  eexists _, None, Ok, O, _. split; [cbn [op_prog]; rewrite (ff_bind_done Hff); reflexivity |].
  split; [exact (InvS_drop_mem _ _ _ (ctx_InvS _ _ _ _ Hc')) |]. split; [apply Hc' |]. split; [| intros H; congruence].
  eapply Atomic_bind; [exact Hff | exact Hst |]. apply Atomic_ret, Good_post. apply Hc'.
Qed.

Lemma truncate_all_spec : forall l sz w,
  exists b, ff (truncate_all l sz) w = (w, Done b) /\ Forall (eq w) (states (truncate_all l sz) w).
Proof.
  induction l as [| y t IH]; intros sz w.
  - exists true. cbn. split; [reflexivity | repeat constructor].
  - cbn [truncate_all ff states apply_call]. destruct (files w (Img y)) as [ci |].
    + cbn [is_err]. destruct (IH sz w) as [b [H1 H2]]. exists b. split; [exact H1 | constructor; [reflexivity | exact H2]].
    + cbn [is_err ff states]. exists false. split; [reflexivity | repeat constructor].
Qed.

Theorem resize_spec : forall g w v m sz, ctx g w v m -> ospec g w v m (resize g m sz).
Proof.
  intros g w v m sz Hctx. pose proof (cx_rec _ _ _ _ Hctx) as Hrec.
  unfold resize. rewrite (mchain_of_ctx g w v m Hctx).
  destruct (N.ltb sz (i_size (m_info m))); [apply ospec_refuse; exact Hctx |].
  destruct (truncate_all_spec (names_of_chain (cv_chain v)) sz w) as [b [Hfft Hstt]].
  eapply ospec_bind; [exact Hfft | apply Atomic_const; [exact Hstt | apply Good_pre; exact Hrec] |].
  destruct b; cbn [negb].
  - (* all chain files truncated (no change of the directory): volume.meta gets the new size *)
    apply vol_only_spec with (m' := set_info m (set_size (m_info m) sz));
      [exact Hctx | reflexivity | reflexivity | apply info_sim_refl | reflexivity ..].
  - (* a chain file is missing (cannot happen here, but the code has the exit) *)
    apply ospec_refuse; exact Hctx.
Qed.

(** WriteAt's two calls are data writes: the image keeps its inode number, the counter file stays a counter, so
    recovery reads the same view and [ctx] stays; so does it when the memory's Dirty flag is set, which no view holds *)
Lemma ctx_write_img : forall g w v m y id g1 g2,
  ctx g w v m -> files w (Img y) = Some (IImg id g1) -> ctx g (set_file w (Img y) (Some (IImg id g2))) v m.
Proof.
  intros g w v m y id g1 g2 [Hr Hwf Hag Hfr Hh] Hi. destruct (recover_elim g w v Hr) as [_ [_ [c [_ [Hc _]]]]].
  constructor; try assumption.
  - apply (recover_data_write g w v _ Hr); [apply set_file_neq; discriminate | exists c; rewrite set_file_neq by discriminate; exact Hc
                                            | intros x; apply set_file_neq; discriminate |].
    intros x. destruct (dname_dec y x) as [<- | E]; [right; rewrite set_file_eq; eauto | left; apply set_file_neq; congruence].
  - apply ids_fresh_set; [exact Hfr |]. intros id' gn' E. inversion E; subst. eauto.
Qed.

Lemma ctx_write_counter : forall g w v m z, ctx g w v m -> ctx g (set_file w Counter (Some (ICounter z))) v m.
Proof.
  intros g w v m z [Hr Hwf Hag Hfr Hh]. constructor; try assumption.
  - apply (recover_data_write g w v _ Hr); [apply set_file_neq; discriminate | eexists; apply set_file_eq
      | intros y; apply set_file_neq; discriminate | intros y; left; apply set_file_neq; discriminate].
  - apply ids_fresh_set; [exact Hfr | intros id' gn' E; discriminate].
Qed.

Lemma ctx_dirty : forall g w v m b,
  ctx g w v m -> ctx g w v (set_info m (set_dirty_rebuilding (m_info m) b (i_rebuilding (m_info m)))).
Proof. intros g w v m b [Hr Hwf Hag Hfr Hh]. constructor; assumption. Qed.

Theorem write_at_spec : forall g w v m, ctx g w v m -> ospec g w v m (write_at m).
Proof.
  intros g w v m Hctx.
  destruct (ctx_shape g w v m Hctx) as [n [id0 [d0 [tl0 [c [Hchain [_ [Hmh [_ [_ [_ [_ [Hcnt [Hlink _]]]]]]]]]]]]]].
  rewrite Hchain in Hlink. cbn [linked mb_name mb_id] in Hlink. destruct Hlink as [_ [[gn Hih] _]].
  pose proof (ctx_write_img g w v _ (Head n) id0 gn (N.succ gn) (ctx_dirty g w v m true Hctx) Hih) as Hctx1.
  unfold write_at. destruct (m_mode m) eqn:Hmode; try (apply ospec_refuse; exact Hctx);
    cbn [m_info set_info i_head set_dirty_rebuilding]; rewrite Hmh;
    (eapply ospec_do; [cbn [apply_call]; rewrite Hih; reflexivity | apply Hctx |]); cbn [is_err m_mode set_info]; rewrite Hmode.
  - (* RW: the revision counter as well *)
    eapply ospec_do; [cbn [apply_call]; rewrite set_file_neq by discriminate; rewrite Hcnt; reflexivity | apply Hctx1 |].
    cbn [is_err]. apply ospec_ret_ok. apply (ctx_ext _ _ _ _ _ (ctx_write_counter g _ v _ _ Hctx1)); reflexivity.
  - apply ospec_ret_ok. exact Hctx1.
Qed.

(** ** Snapshot (createDisk) *)

Definition snap_S1 (nh sn : dname) (x : name) : Prop :=
  In x [Img nh; Meta nh; MetaTmp nh; Img sn; Meta sn; MetaTmp sn; VolTmp].

Lemma snap_S1_disjoint : forall l nh sn x,
  ~ In nh (names_of_chain l) -> ~ In sn (names_of_chain l) -> snap_S1 nh sn x -> ~ footprint l x.
Proof.
  intros l nh sn x H1 H2 Hx Hf. unfold snap_S1 in Hx. cbn in Hx.
  repeat (destruct Hx as [Hx | Hx]; [subst x | ]); try contradiction.
  - apply footprint_img in Hf. contradiction.
  - apply footprint_meta in Hf. contradiction.
  - exact (footprint_tmp _ _ Hf).
  - apply footprint_img in Hf. contradiction.
  - apply footprint_meta in Hf. contradiction.
  - exact (footprint_tmp _ _ Hf).
  - exact (footprint_voltmp _ Hf).
Qed.

Lemma snap_S1_disk : forall nh sn d x, d = nh \/ d = sn -> Some d = Some x -> snap_S1 nh sn (Img x) /\ snap_S1 nh sn (Meta x).
Proof. intros nh sn d x Hd [= <-]. unfold snap_S1. destruct Hd; subst d; cbn; auto 10. Qed.

Lemma cd_commit_spec : forall g w3 v ma nh sn oh nd rec idn id0 d0 tl gn,
  recover g w3 = Some v ->
  cv_chain v = mkmember oh id0 d0 :: tl ->
  NoDup (names_of_chain (cv_chain v)) ->
  ~ In nh (names_of_chain (cv_chain v)) -> ~ In sn (names_of_chain (cv_chain v)) ->
  S (length (cv_chain v)) <= maxlen g ->
  files w3 (Meta nh) = Some (IDisk nd) -> files w3 (Img nh) = Some (IImg idn 0) ->
  files w3 (Meta sn) = Some (IDisk rec) -> files w3 (Img sn) = Some (IImg id0 gn) ->
  d_parent nd = Some sn -> d_parent rec = d_parent d0 ->
  let mc := cd_memc ma (Some oh) nh in
  let info' := set_head_info (m_info mc) (Some nh) true (Some sn) (d_rev nd) in
  let vpost := mkview info' (mkmember nh idn nd :: mkmember sn id0 rec :: tl) in
  exists w5,
    runs g v vpost (cd_commit g ma (Some oh) (Some sn) nh nd) w3 w5 (set_info mc info', Ok)
    /\ recover g w5 = Some vpost.
Proof.
  intros g w3 v ma nh sn oh nd rec idn id0 d0 tl gn Hrec Hchain Hnd Hnh Hsn Hlen
         Hmnh Hinh Hmsn Hisn Hpnd Hprec mc info' vpost.
  destruct (recover_elim g w3 v Hrec) as [_ [h [c [_ [Hc [Hlink _]]]]]].
  rewrite Hchain in Hlink, Hlen, Hnd, Hnh, Hsn. cbn [linked mb_name mb_disk] in Hlink.
  destruct Hlink as [_ [_ [Hp0 Htl]]].
  set (w4 := enc_fs w3 Vol (IVol info')).
  assert (Hrec4 : recover g w4 = Some vpost).
  { apply recover_commit with (h := nh) (c := c); [| reflexivity | reflexivity | exact Hc | cbn [length] in *; lia].
    cbn [linked mb_name mb_disk mb_id]. split; [exact Hmnh |]. split; [eauto |]. split; [exact Hpnd |].
    split; [exact Hmsn |]. split; [eauto |]. split; [rewrite Hprec; exact Hp0 | exact Htl]. }
  (* removing the old head afterwards does not touch the new chain *)
  assert (Hoh : ~ In oh (names_of_chain (cv_chain vpost))).
  { inversion Hnd as [| ? ? Hoh_tl _]. cbn. intros [E | [E | E]];
      [apply Hnh; left; symmetry; exact E | apply Hsn; left; symmetry; exact E | exact (Hoh_tl E)]. }
  destruct (rm_disk_off g w4 vpost oh Hrec4 Hoh) as [w5 [Hrec5 Hrun5]].
  exists w5. split; [| exact Hrec5]. unfold cd_commit. fold mc. fold info'.
  apply runs_encode; [apply meta_name_vol | exact I | apply Good_pre; exact Hrec |]. fold w4. cbn [is_ok res_eqb negb].
  eapply runs_bind; [exact (Hrun5 _ _ (or_intror (veq_refl _))) |]. apply runs_ret, Good_post. exact Hrec5.
Qed.

Lemma snap_magree : forall g m nh sn oh id0 d0 tl nd rec idn k,
  magree g (mkmember oh id0 d0 :: tl) m ->
  NoDup (oh :: names_of_chain tl) ->
  ~ In nh (oh :: names_of_chain tl) -> ~ In sn (oh :: names_of_chain tl) -> nh <> sn -> nh = Head k ->
  m_children m (Some sn) = [] ->
  d_parent rec = d_parent d0 -> d_parent d0 = first_name tl ->
  let m5 := cd_mem5 (cd_mem3 (cd_mem2 m nh nd sn) oh sn rec) oh sn in
  let mc := cd_memc m5 (Some oh) nh in
  forall i', magree g (mkmember nh idn nd :: mkmember sn id0 rec :: tl) (set_info mc i').
Proof.
  intros g m nh sn oh id0 d0 tl nd rec idn k [HD [HK HA]] Hnd Hnh Hsn Hns Ek Hcs Hprec Hp0 m5 mc i'.
  unfold magree. change (names_of_chain (mkmember oh id0 d0 :: tl)) with (oh :: names_of_chain tl) in *.
  change (names_of_chain (mkmember nh idn nd :: mkmember sn id0 rec :: tl)) with (nh :: sn :: names_of_chain tl).
  set (t := names_of_chain tl) in *. set (p0 := hd_error t).
  apply NoDup_cons_iff in Hnd. destruct Hnd as [Hoh_t _].
  assert (Hnh_oh : nh <> oh) by (intro E; apply Hnh; left; symmetry; exact E).
  assert (Hsn_oh : sn <> oh) by (intro E; apply Hsn; left; symmetry; exact E).
  assert (Hp0_not : forall d, ~ In d t -> odname_eqb p0 (Some d) = false).
  { intros d Hd. apply odname_eqb_neq. intro E. exact (Hd (hd_error_in _ t d E)). }
  assert (Hold : forall d, kscope g (oh :: t) d -> m_children m (Some d) = if odname_eqb p0 (Some d) then [oh] else child_of d t).
  { intros d Hd. rewrite (HK d Hd). apply child_of_cons. }
  assert (Hch : forall d, m_children (set_info mc i') (Some d) =
            if odname_eqb p0 (Some d) then [sn] else if dname_eqb sn d then [nh] else m_children m (Some d)).
  { intros d. change (m_children (set_info mc i')) with (m_children (update_child (cd_mem3 (cd_mem2 m nh nd sn) oh sn rec) oh (Some sn))).
    assert (Hpar3 : parent_of (cd_mem3 (cd_mem2 m nh nd sn) oh sn rec) oh = p0).
    { unfold parent_of, cd_mem3. cbn [m_disks set_disks]. rewrite updd_eq, Hprec, Hp0. symmetry. apply hd_names. }
    assert (Hc3 : m_children (cd_mem3 (cd_mem2 m nh nd sn) oh sn rec) (Some d) = if dname_eqb sn d then [nh] else m_children m (Some d)).
    { cbn [m_children cd_mem3 set_disks cd_mem2 cd_mem1 set_children]. unfold add_child, updc. cbn [odname_eqb]. rewrite Hcs. reflexivity. }
    rewrite reparent_children; rewrite Hpar3, Hc3; [reflexivity |].
    intros E. rewrite dname_eqb_neq by (intro; subst d; exact (Hsn (or_intror (hd_error_in _ t _ E)))).
    rewrite Hold by (left; right; exact (hd_error_in _ t _ E)). rewrite E, odname_eqb_refl. reflexivity. }
  split; [| split].
  - intros d. cbn [m_disks set_info mc cd_memc set_active set_disks m5 cd_mem5 update_child set_children cd_mem3 cd_mem2 cd_mem1].
    rewrite dk_cons. unfold updd. rewrite dk_cons, HD, dk_cons. cbn [mb_name mb_disk]. unfold updd.
    destruct (dname_eqb oh d) eqn:E1.
    { apply dname_eqb_eq in E1. subst d. rewrite (dname_eqb_neq nh oh Hnh_oh), (dname_eqb_neq sn oh Hsn_oh), dk_none by exact Hoh_t. reflexivity. }
    destruct (dname_eqb sn d) eqn:E2, (dname_eqb nh d) eqn:E3; try reflexivity.
    apply dname_eqb_eq in E2, E3. congruence.
  - intros d Hd. rewrite Hch, !child_of_cons. cbn [hd_error odname_eqb]. fold p0.
    destruct (dname_eqb sn d) eqn:E2.
    { apply dname_eqb_eq in E2. subst d. rewrite Hp0_not by (intro H; apply Hsn; right; exact H). reflexivity. }
    destruct (odname_eqb p0 (Some d)) eqn:E1; [reflexivity |]. rewrite Hold, E1; [reflexivity |].
    destruct Hd as [[E | [E | Hd]] | [Hd | Hd]]; [right; right; exists k; congruence | apply dname_eqb_eq in E; congruence
                                                   | left; right; exact Hd | right; left; exact Hd | right; right; exact Hd].
  - cbn [m_active set_info mc cd_memc set_active set_disks m5 cd_mem5 update_child set_children cd_mem3 cd_mem2 cd_mem1].
    rewrite HA. cbn [rev]. rewrite removelast_last, <- !app_assoc. reflexivity.
Qed.

Lemma cd_cleanup_spec : forall g w1 v vpost nh sn m e,
  recover g w1 = Some v ->
  ~ In nh (names_of_chain (cv_chain v)) -> ~ In sn (names_of_chain (cv_chain v)) ->
  exists w2, runs g v vpost (cd_cleanup nh (Some sn) m e) w1 w2 (m, e) /\ recover g w2 = Some v.
Proof.
  intros g w1 v vpost nh sn m e Hrec Hnh Hsn.
  destruct (rm_disk_off g w1 v nh Hrec Hnh) as [wa [Hra Hruna]].
  destruct (rm_disk_off g wa v sn Hra Hsn) as [wb [Hrb Hrunb]].
  exists wb. split; [| exact Hrb]. unfold cd_cleanup.
  eapply runs_bind; [exact (Hruna _ _ (or_introl (veq_refl _))) |].
  eapply runs_bind; [exact (Hrunb _ _ (or_introl (veq_refl _))) |]. apply runs_ret, Good_pre. exact Hrb.
Qed.

Lemma within_cd_snapmeta : forall g m oh sn nh nd user cr,
  within (snap_S1 nh sn) (cd_snapmeta g m (Some oh) (Some sn) nh nd user cr).
Proof.
  intros g m oh sn nh nd user cr. unfold cd_snapmeta. apply withinQ_within with (Q := fun _ => True).
  eapply withinQ_bind; [apply wq_get_rev; auto |]. intros rv _.
  destruct (m_disks _ oh); [| exact I].
  eapply withinQ_bind; [apply wq_encode; auto; unfold snap_S1; cbn; auto 10 |].
  intros e3 _. destruct (negb (is_ok e3)); exact I.
Qed.

(** createDisk once createNewHead has succeeded *)
Lemma cd_link_spec : forall g w1 v m n k sn id0 d0 tl c idn user cr,
  let nh := Head k in let oh := Head n in
  let nd := mkdisk (Some sn) false false cr c in
  ctx g w1 v m ->
  cv_chain v = mkmember oh id0 d0 :: tl ->
  k <> n -> is_snap sn -> ~ In sn (names_of_chain (cv_chain v)) ->
  S (length (cv_chain v)) <= maxlen g ->
  m_children m (Some sn) = [] ->
  files w1 (Img nh) = Some (IImg idn 0) -> ~ In idn (map mb_id (cv_chain v)) ->
  files w1 (Meta nh) = Some (IDisk nd) -> files w1 Counter = Some (ICounter c) ->
  ospec g w1 v m (cd_link g m (Some oh) (Some sn) nh nd user cr).
Proof.
  intros g w1 v m n k sn id0 d0 tl c idn user cr nh oh nd Hctx Hchain Hk [s Es] Hsn Hlen Hcs Hinh Hidn Hmnh Hcnt.
  subst sn. set (sn := Snap s) in *.
  destruct (ctx_shape g w1 v m Hctx) as [n' [id0' [d0' [tl' [c' [Hchain' [Hvh [Hmh [Hsnaps [Hnd [Hndi [Hvol [Hcnt0 [Hlink [Hlen0 [Hd0 Hpar]]]]]]]]]]]]]]]].
  rewrite Hchain in Hchain'. inversion Hchain'; subst n' id0' d0' tl'. clear Hchain'.
  pose proof (ctx_magree _ _ _ _ Hctx) as Hm.
  assert (Hnh : ~ In nh (names_of_chain (cv_chain v))).
  { rewrite Hchain. intros [H | H]; [injection H as E; exact (Hk (eq_sym E)) | exact (snap_not_head tl k Hsnaps H)]. }
  assert (Hdis := fun x => snap_S1_disjoint _ nh sn x Hnh Hsn).
  rewrite Hchain in Hlink. cbn [linked mb_name mb_disk mb_id] in Hlink. destruct Hlink as [Hmoh [[gn Hioh] [Hp0 Htl1]]].
  unfold cd_link.
  assert (Hlw : within (snap_S1 nh sn) (link_disk (Some oh) (Some sn))).
  { eapply withinQ_within, wq_link_disk. intros x. apply snap_S1_disk. auto. }
  destruct (link_disk_ff w1 oh sn (IImg id0 gn) (IDisk d0) Hioh Hmoh) as [Hffl | Hffl];
    apply (ospec_silent _ g _ w1 v m _ _ _ _ Hctx Hlw Hdis Hffl); intros Hctx2; cbn [is_ok res_eqb negb].
  - destruct (cd_cleanup_spec g w1 v v nh sn m Refused (cx_rec _ _ _ _ Hctx) Hnh Hsn) as [w2 [Hrun2 Hrec2]].
    apply (ospec_of_runs _ _ _ _ _ _ _ _ _ Hrun2); [| auto].
    exact (ctx_move _ _ _ g w1 w2 v m Hctx (proj1 Hrun2) Hrec2).
  - set (w2 := set_file (set_file w1 (Img sn) (Some (IImg id0 gn))) (Meta sn) (Some (IDisk d0))) in *.
    assert (Hc2 : files w2 Counter = Some (ICounter c)).
    { subst w2. rewrite !set_file_neq by discriminate. exact Hcnt. }
    set (rec := mkdisk (d_parent d0) (d_removed d0) user cr c).
    set (m2 := cd_mem2 m nh nd sn). set (m3 := cd_mem3 m2 oh sn rec). set (m5 := cd_mem5 m3 oh sn).
    assert (Hm2oh : m_disks m2 oh = Some d0).
    { subst m2. unfold cd_mem2, cd_mem1. cbn [m_disks set_children set_disks]. rewrite updd_neq by (intro H; injection H as E; exact (Hk E)). exact Hd0. }
    set (w3 := enc_fs w2 (Meta sn) (IDisk rec)).
    assert (Hffm : ff (cd_snapmeta g m (Some oh) (Some sn) nh nd user cr) w2 = (w3, Done (m5, Ok))).
    { unfold cd_snapmeta. fold m2. rewrite (ff_bind_done (get_rev_ff _ c Hc2)). rewrite Hm2oh. fold rec. fold m3.
      rewrite (ff_bind_done (ff_encode_disk g rec sn w2)). reflexivity. }
    apply (ospec_silent _ g _ w2 v m _ _ _ _ Hctx2 (within_cd_snapmeta g m oh sn nh nd user cr) Hdis Hffm); intros Hctx3.
    cbn [is_ok res_eqb negb].
    assert (Hw3 : forall x, x <> Meta sn -> x <> MetaTmp sn -> files w3 x = files w2 x).
    { intros x H1 H2. subst w3. apply enc_fs_other; assumption. }
    destruct (cd_commit_spec g w3 v m5 nh sn oh nd rec idn id0 d0 tl gn (cx_rec _ _ _ _ Hctx3) Hchain Hnd Hnh Hsn Hlen)
      as [w5 [Hrun5 Hrec5]]; try reflexivity.
    { rewrite Hw3 by discriminate. subst w2. rewrite !set_file_neq by discriminate. exact Hmnh. }
    { rewrite Hw3 by discriminate. subst w2. rewrite !set_file_neq by discriminate. exact Hinh. }
    { subst w3. apply enc_fs_self, meta_name_disk. }
    { rewrite Hw3 by discriminate. subst w2. rewrite set_file_neq by discriminate. apply set_file_eq. }
    rewrite Hchain in Hm, Hnd, Hndi, Hsn, Hnh, Hidn. cbn [names_of_chain map mb_name] in Hnd, Hsn, Hnh. 
    apply (ospec_runs _ _ _ _ _ _ _ _ Hrun5).
    apply ctx_intro; [exact Hrec5 | | apply info_sim_refl
                     | exact (snap_magree g m nh sn oh id0 d0 tl nd rec idn k Hm Hnd Hnh Hsn ltac:(discriminate) eq_refl Hcs eq_refl Hp0 _)
                     | exact (ff_fresh_eq _ _ _ _ _ (cx_fresh _ _ _ _ Hctx3) (proj1 Hrun5))].
    inversion Hnd as [| ? ? _ Hnd1]; subst.
    apply wf_view_newhead; [reflexivity | reflexivity | constructor; [exists s; reflexivity | exact Hsnaps] | | exact Hndi | exact Hidn].
    constructor; [intro H; apply Hsn; right; exact H | exact Hnd1].
Qed.

(** The third hypothesis: with [fix_children g = false] a name that was a snapshot once and was removed may still
    have an entry in diskChildrenMap, and a snapshot reusing it would inherit a second child
    ([C12_wf_refuted_children] of Properties/C12.v); under [fix_children] it follows from [agree] ([ok_op_repaired]). *)
Theorem create_disk_spec : forall g w v m s user cr,
  ctx g w v m ->
  (fix_dup g = true \/ ~ In (Snap s) (names_of_chain (cv_chain v))) ->
  (~ In (Snap s) (names_of_chain (cv_chain v)) -> m_children m (Some (Snap s)) = []) ->
  ospec g w v m (create_disk g m s user cr).
Proof.
  intros g w v m s user cr Hctx Hdup Hch.
  destruct (ctx_shape g w v m Hctx) as [n [id0 [d0 [tl [c [Hchain [Hvh [Hmh [Hsnaps [Hnd [Hndi [Hvol [Hcnt [Hlink [Hlen [Hd0 Hpar]]]]]]]]]]]]]]]].
  pose proof (cx_rec _ _ _ _ Hctx) as Hrec. pose proof (cx_ag _ _ _ _ Hctx) as Hag.
  assert (Hnh : ~ In (Head (S n)) (names_of_chain (cv_chain v))) by (rewrite Hchain; apply next_head_fresh; exact Hsnaps).
  unfold create_disk. rewrite Hmh.
  eapply ospec_bind; [apply ff_sync_dir | apply Atomic_const; [repeat constructor | apply Good_pre; exact Hrec] |].
  cbn [is_ok res_eqb negb].
  (* chain length limit *)
  destruct (Nat.ltb (maxlen g) (S (S (length (m_active m))))) eqn:Hmax.
  { apply ospec_refuse; exact Hctx. }
  apply Nat.ltb_ge in Hmax.
  assert (Hlen1 : S (length (cv_chain v)) <= maxlen g).
  { destruct Hag as [_ [_ [_ [_ Hact]]]]. rewrite Hact, rev_length in Hmax. unfold names_of_chain in Hmax. rewrite map_length in Hmax. lia. }
  (* duplicate name (repaired code) *)
  destruct (fix_dup g && match m_disks m (Snap s) with Some _ => true | None => false end) eqn:Hfd.
  { apply ospec_refuse; exact Hctx. }
  assert (Hsn : ~ In (Snap s) (names_of_chain (cv_chain v))).
  { destruct Hdup as [Hdup | Hdup]; [| exact Hdup]. rewrite Hdup in Hfd. cbn [andb] in Hfd.
    intro H. apply (agree_disk_dom g v m _ Hag) in H. destruct (m_disks m (Snap s)); [discriminate | exact (H eq_refl)]. }
  apply (ospec_new_head g w v m n (Some (Snap s)) cr c _ Hctx Hcnt Hnh); cbn [is_ok res_eqb negb rm_disk bind].
  - (* the stale head file holds data: error, nothing changed *)
    apply ospec_refuse; exact Hctx.
  - (* the new head exists *)
    intros w1 Hctx1 K1 K2 Hc1.
    apply cd_link_spec with (id0 := id0) (d0 := d0) (tl := tl) (idn := nextid w) (c := c); try assumption;
      [lia | exists s; reflexivity | exact (Hch Hsn) | exact (ids_fresh_notin g w v Hrec (cx_fresh _ _ _ _ Hctx))].
Qed.

(** ** RemoveDiffDisk *)

(** the memory removeDiskNode leaves, as a function of what it read *)
Definition rm_mem (g : cfg) (m : mem) (d child : dname) (cd' : disk) (ppd : option (dname * disk)) : mem :=
  let m1 := update_child m d (Some child) in
  let m2 := set_disks m1 (updd (m_disks m1) child (Some cd')) in
  let m3 := match ppd with Some (p, pd') => set_disks m2 (updd (m_disks m2) p (Some pd')) | None => m2 end in
  let m4 := set_disks m3 (updd (m_disks m3) d None) in
  let m4 := if fix_children g then set_children m4 (updc (m_children m4) (Some d) []) else m4 in
  set_active m4 (removed d (m_active m4)).

Lemma rm_mem_fields : forall g m d child cd' ppd,
  let m' := rm_mem g m d child cd' ppd in
  m_info m' = m_info m /\ m_active m' = removed d (m_active m)
  /\ m_disks m' = updd (match ppd with Some (p, pd') => updd (updd (m_disks m) child (Some cd')) p (Some pd')
                                      | None => updd (m_disks m) child (Some cd') end) d None
  /\ m_children m' = let ch := m_children (update_child m d (Some child)) in
                     if fix_children g then updc ch (Some d) [] else ch.
Proof. intros g m d child cd' ppd. unfold rm_mem. destruct (fix_children g); destruct ppd as [[p pd'] |]; repeat split; reflexivity. Qed.

Lemma unlink_magree : forall g l1 cmb dmb l2 cd' m,
  magree g (l1 ++ cmb :: dmb :: l2) m ->
  NoDup (names_of_chain (l1 ++ cmb :: dmb :: l2)) ->
  d_parent (mb_disk dmb) = first_name l2 -> (forall k, mb_name dmb <> Head k) ->
  magree g (l1 ++ set_mdisk cmb cd' :: l2) (rm_mem g m (mb_name dmb) (mb_name cmb) cd' None).
Proof.
  intros g l1 cmb dmb l2 cd' m [HD [HK HA]] Hnd0 Hpd Hdh.
  set (d := mb_name dmb) in *. set (child := mb_name cmb) in *.
  destruct (rm_mem_fields g m d child cd' None) as [_ [Ha' [Hd' Hc']]]. cbv zeta in Ha', Hd', Hc'.
  pose proof Hnd0 as Hnd. rewrite names_app_mid in Hnd, HK, HA. fold d child in Hnd, HK, HA.
  set (n1 := names_of_chain l1) in *. set (n2 := names_of_chain l2) in *.
  assert (Hnames : names_of_chain (l1 ++ set_mdisk cmb cd' :: l2) = n1 ++ child :: n2) by apply names_of_chain_app.
  destruct (nodup_mid _ _ _ _ Hnd) as [Hcd [Hd1 [Hd2 _]]].
  assert (Hd_post : ~ In d (n1 ++ child :: n2)).
  { intro H. apply in_app_or in H. destruct H as [H | [H | H]]; [exact (Hd1 H) | exact (Hcd H) | exact (Hd2 H)]. }
  assert (Hpar : parent_of m d = hd_error n2).
  { unfold parent_of. rewrite HD. unfold dk, d. rewrite (find_mb_in _ dmb Hnd0) by (apply in_or_app; cbn; auto). cbn. rewrite Hpd. symmetry. apply hd_names. }
  unfold magree. rewrite Hnames. split; [| split].
  - intros x. rewrite Hd'. unfold dk, updd. rewrite (find_mb_unlink x l1 cmb dmb l2 cd' Hnd0), HD. fold d child. unfold dk.
    destruct (dname_eqb d x); [reflexivity |]. destruct (dname_eqb child x); reflexivity.
  - intros x Hx. rewrite Hc'.
    assert (Hx' : x <> d -> kscope g (n1 ++ child :: d :: n2) x).
    { intros _. destruct Hx as [Hx | Hx]; [left | right; exact Hx].
      apply in_app_or in Hx. apply in_or_app. destruct Hx as [Hx | [Hx | Hx]]; cbn; auto. }
    destruct (dname_dec x d) as [-> | Hxd].
    + rewrite (child_of_off d _ Hd_post).
      destruct Hx as [Hx | [Hx | [k Hx]]]; [contradiction | rewrite Hx; apply updc_eq | exfalso; exact (Hdh k Hx)].
    + rewrite (child_of_removed d child n1 n2 x Hnd Hxd), <- (HK x (Hx' Hxd)).
      assert (H1 : m_children (update_child m d (Some child)) (Some x) = if odname_eqb (hd_error n2) (Some x) then [child] else m_children m (Some x)).
      { rewrite reparent_children; rewrite Hpar; [reflexivity |]. intros E.
        destruct n2 as [| p n2']; [discriminate |]. injection E as ->.
        rewrite HK by (left; apply in_or_app; cbn; auto).
        change (n1 ++ child :: d :: x :: n2') with (n1 ++ [child] ++ d :: x :: n2') in *. rewrite app_assoc in *. apply child_of_split. exact Hnd. }
      destruct (fix_children g); [rewrite updc_neq by congruence |]; exact H1.
  - rewrite Ha', HA, removed_rev, (removed_mid _ _ _ _ Hnd). reflexivity.
Qed.

Definition rm_cd' (dd cd : disk) : disk := mkdisk (d_parent dd) (d_removed cd) (d_user cd) (d_created cd) (d_rev cd).

(** the removed disk is in the live chain and is not the latest snapshot: removeDiskNode forgets it everywhere *)
Lemma rdn_finish_eq : forall g m3 d a n1 c n2,
  m_active m3 = rev ((a :: n1) ++ c :: d :: n2) -> NoDup ((a :: n1) ++ c :: d :: n2) ->
  rdn_finish g m3 d =
  (let m4 := set_disks m3 (updd (m_disks m3) d None) in
   let m4 := if fix_children g then set_children m4 (updc (m_children m4) (Some d) []) else m4 in
   set_active m4 (removed d (m_active m4))).
Proof.
  intros g m3 d a n1 c n2 Hact Hnd. unfold rdn_finish, find_disk. cbv zeta.
  set (m4 := if fix_children g then set_children _ _ else _).
  assert (Ha : m_active m4 = rev ((a :: n1) ++ c :: d :: n2)) by (subst m4; destruct (fix_children g); exact Hact).
  rewrite (proj2 (memd_iff _ _)) by (rewrite Ha; apply in_rev; rewrite rev_involutive; apply in_or_app; cbn; auto). cbn [negb].
  (* [d] is not the element after the first: that one is [c], or one of [n1] *)
  destruct (nodup_mid _ _ _ _ Hnd) as [Hcd [Hd1 _]].
  replace (rev (m_active m4)) with ((a :: n1) ++ c :: d :: n2) by (rewrite Ha; symmetry; apply rev_involutive).
  destruct n1 as [| b n1']; cbn [app]; rewrite dname_eqb_neq; try reflexivity; [exact Hcd | intro E; apply Hd1; right; left; exact E].
Qed.

Lemma ctx_unlink : forall g w v m a l1' cmb dmb l2 cd',
  ctx g w v m -> cv_chain v = (a :: l1') ++ cmb :: dmb :: l2 ->
  d_parent cd' = d_parent (mb_disk dmb) ->
  ctx g (enc_fs w (Meta (mb_name cmb)) (IDisk cd')) (mkview (cv_info v) ((a :: l1') ++ set_mdisk cmb cd' :: l2))
        (rm_mem g m (mb_name dmb) (mb_name cmb) cd' None).
Proof.
  intros g w v m a l1' cmb dmb l2 cd' Hctx Hsplit Hp.
  destruct (ctx_shape g w v m Hctx) as [n [id0 [d0 [tl0 [c [Hchain [_ [_ [Hsnaps [Hnd [Hndi [_ [_ [Hlink _]]]]]]]]]]]]]].
  pose proof (ctx_magree _ _ _ _ Hctx) as Hm. rewrite Hsplit in Hm, Hlink.
  pose proof Hnd as Hnd0. rewrite Hsplit in Hnd0. pose proof Hnd0 as Hndn. rewrite names_app_mid in Hndn.
  apply ctx_intro; [exact (recover_unlink g w v _ cmb dmb l2 cd' (cx_rec _ _ _ _ Hctx) Hsplit ltac:(discriminate) Hnd Hp) |
                   | rewrite (proj1 (rm_mem_fields _ _ _ _ _ _)); apply (cx_ag _ _ _ _ Hctx) |
                   | apply enc_fs_fresh; [exact I | apply Hctx]].
  - assert (Hnames : names_of_chain ((a :: l1') ++ set_mdisk cmb cd' :: l2) = names_of_chain (a :: l1') ++ mb_name cmb :: names_of_chain l2)
      by apply names_of_chain_app.
    apply wf_view_sub; [apply Hctx | rewrite Hsplit; reflexivity | | rewrite Hnames; apply (nodup_mid _ _ _ _ Hndn) |].
    + intros x Hx. rewrite Hnames in Hx. rewrite Hsplit, names_app_mid. apply in_app_or in Hx. apply in_or_app. cbn in *. tauto.
    + rewrite Hsplit, map_app in Hndi. rewrite map_app. apply (nodup_mid _ _ _ _ Hndi).
  - apply (unlink_magree g _ cmb dmb l2 cd' m Hm Hnd0).
    + apply linked_suffix in Hlink. cbn [linked] in Hlink. apply Hlink.
    + intros k E. apply (snap_not_head tl0 k Hsnaps). rewrite Hsplit in Hchain. injection Hchain as _ <-.
      rewrite <- E. rewrite names_of_chain_app. apply in_or_app; cbn; auto.
Qed.

Lemma rdn_ctx : forall g w v m a l1' cmb dmb l2,
  ctx g w v m -> cv_chain v = (a :: l1') ++ cmb :: dmb :: l2 ->
  exists w2 vpost m', runs g v vpost (remove_disk_node g m (mb_name dmb)) w w2 (m', Ok)
    /\ ctx g w2 vpost m' /\ ~ In (mb_name dmb) (names_of_chain (cv_chain vpost)).
Proof.
  intros g w v m a l1' cmb dmb l2 Hctx Hchain.
  set (l1 := a :: l1') in *. set (d := mb_name dmb). set (child := mb_name cmb).
  set (cd' := rm_cd' (mb_disk dmb) (mb_disk cmb)).
  destruct (ctx_shape g w v m Hctx) as [n [id0 [d0 [tl0 [c [Hhd [Hvh [_ [_ [Hnd [_ [_ [_ [Hlink _]]]]]]]]]]]]]].
  pose proof (cx_rec _ _ _ _ Hctx) as Hrec. pose proof (ctx_magree _ _ _ _ Hctx) as [HD [HK HA]].
  pose proof (ctx_unlink g w v m a l1' cmb dmb l2 cd' Hctx Hchain eq_refl) as Hctx1. fold l1 d child in Hctx1.
  set (mid := l1 ++ set_mdisk cmb cd' :: l2) in *. set (w1 := enc_fs w (Meta child) (IDisk cd')) in *.
  rewrite Hchain in Hnd, Hlink, HD, HK, HA.
  assert (Hmof : forall mb, In mb (l1 ++ cmb :: dmb :: l2) -> m_disks m (mb_name mb) = Some (mb_disk mb)).
  { intros mb Hmb. rewrite HD. unfold dk. rewrite (find_mb_in _ mb Hnd Hmb). reflexivity. }
  pose proof Hnd as Hndn. rewrite names_app_mid in Hndn. fold d child in Hndn.
  destruct (nodup_mid _ _ _ _ Hndn) as [Hcd [Hd1 [Hd2 [Hc1 [Hc2 Hnd']]]]].
  assert (Hlk : linked (files w) (cmb :: dmb :: l2)) by exact (linked_suffix _ l1 _ Hlink).
  cbn [linked] in Hlk. destruct Hlk as [_ [_ [_ [_ [_ [Hpd _]]]]]].
  assert (Hdmid : ~ In d (names_of_chain mid)).
  { subst mid. rewrite names_of_chain_app. intro H. apply in_app_or in H. destruct H as [H | [H | H]]; [exact (Hd1 H) | exact (Hcd H) | exact (Hd2 H)]. }
  assert (Hmd : m_disks m d = Some (mb_disk dmb)) by (apply Hmof, in_or_app; cbn; auto).
  assert (Hmch : m_children m (Some d) = [child]).
  { rewrite HK by (left; rewrite names_app_mid; apply in_or_app; cbn; auto). rewrite names_app_mid. apply child_of_split. exact Hndn. }
  assert (Hm1c : m_disks (update_child m d (Some child)) child = Some (mb_disk cmb)) by (apply Hmof, in_or_app; cbn; auto).
  unfold remove_disk_node. rewrite Hmd, Hmch, Hm1c. fold (rm_cd' (mb_disk dmb) (mb_disk cmb)). fold cd'.
  set (m2 := set_disks (update_child m d (Some child)) (updd (m_disks (update_child m d (Some child))) child (Some cd'))).
  pose proof HA as HA'. rewrite names_app_mid in HA'.
  assert (Hg0 : forall vp, Good g v vp w) by (intros vp; apply Good_pre; exact Hrec).
  destruct l2 as [| pmb l2'].
  - exists w1, (mkview (cv_info v) mid), (rm_mem g m d child cd' None). split; [| split; [exact Hctx1 | exact Hdmid]].
    unfold rdn_parent_rev. rewrite Hpd. cbn [bind is_ok res_eqb negb first_name].
    apply runs_encode; [apply meta_name_disk | exact I | apply Hg0 |]. cbn [is_ok res_eqb negb].
    rewrite (rdn_finish_eq g m2 d _ _ _ _ HA' Hndn). apply runs_ret, Good_post. apply Hctx1.
  - set (p := mb_name pmb) in *. set (pd := mb_disk pmb) in *.
    set (pd' := mkdisk (d_parent pd) (d_removed pd) (d_user pd) (d_created pd) (d_rev (mb_disk dmb))).
    assert (Hpin : In p (names_of_chain (pmb :: l2'))) by (left; reflexivity).
    assert (Hpc' : p <> child) by (intro E; apply Hc2; rewrite <- E; exact Hpin).
    assert (Hpmid : In pmb mid) by (subst mid; apply in_or_app; cbn; auto).
    assert (Hph : Some p <> i_head (cv_info v)).
    { intro E. rewrite Hvh in E. injection E as E. rewrite Hchain in Hhd. subst l1. injection Hhd as Ha _.
      apply (nodup_app_disj _ _ p Hndn); [left; rewrite Ha, E; reflexivity | right; right; exact Hpin]. }
    pose proof (ctx_upd g w1 _ _ pmb pd' Hctx1 Hpmid eq_refl Hph) as Hctx2. cbn [cv_info cv_chain] in Hctx2. fold p in Hctx2.
    set (vpost := mkview (cv_info v) (upd_member p pd' mid)) in *. set (w2 := enc_fs w1 (Meta p) (IDisk pd')) in *.
    assert (Hveq : veq (mkview (cv_info v) mid) vpost).
    { apply (veq_upd_member (cv_info v) mid pmb pd'); [| exact Hpmid | repeat split].
      subst mid. rewrite names_of_chain_app. exact Hnd'. }
    assert (Hg1 : Good g v vpost w1) by (eapply Good_veq_post; [apply Hctx1 | exact Hveq]).
    exists w2, vpost, (rm_mem g m d child cd' (Some (p, pd'))). split; [| split].
    + assert (Hg2 : Good g v vpost w2) by (apply Good_post; apply Hctx2).
      unfold rdn_parent_rev. rewrite Hpd. cbn [first_name]. fold p.
      assert (Hm2p : m_disks m2 p = Some pd).
      { subst m2. cbn [m_disks set_disks update_child set_children]. rewrite updd_neq by (apply not_eq_sym; exact Hpc'). apply Hmof, in_or_app. cbn. auto. }
      rewrite Hm2p. fold pd'.
      apply runs_encode; [apply meta_name_disk | exact I | apply Hg0 |]. cbn [is_ok res_eqb negb].
      eapply runs_bind; [apply runs_encode; [apply meta_name_disk | exact I | exact Hg1 | apply runs_ret; exact Hg2] |].
      cbn [is_ok res_eqb negb]. rewrite (rdn_finish_eq g (set_disks m2 (updd (m_disks m2) p (Some pd'))) d _ _ _ _ HA' Hndn). apply runs_ret. exact Hg2.
    + apply (ctx_ext _ _ _ _ _ Hctx2); unfold rm_mem; destruct (fix_children g); try reflexivity;
        intros x; cbn [m_disks set_disks set_children set_active]; unfold updd;
        (destruct (dname_eqb p x) eqn:E; [| reflexivity]); apply dname_eqb_eq in E; subst x;
        rewrite (dname_eqb_neq d p) by (intro E; apply Hd2; rewrite E; exact Hpin); reflexivity.
    + cbn [cv_chain vpost]. rewrite upd_member_names. exact Hdmid.
Qed.

Lemma remove_diff_disk_cases : forall g m d,
  remove_diff_disk g m d = Ret (m, Refused)
  \/ (odname_eqb (Some d) (i_head (m_info m)) = false /\ odname_eqb (i_parent (m_info m)) (Some d) = false
      /\ remove_diff_disk g m d =
         (t_ <- remove_disk_node g m d ;;
          let '(m1, e1) := t_ in if negb (is_ok e1) then Ret (m1, e1) else e2 <- rm_disk (Some d) ;; Ret (m1, e2))).
Proof.
  intros g m d. unfold remove_diff_disk. destruct (negb (mode_eqb (m_mode m) RW)); [left; reflexivity |].
  destruct (odname_eqb (Some d) _); [left; reflexivity |]. destruct (odname_eqb _ (Some d)); [left; reflexivity |].
  destruct (match m_disks m d with Some x => _ | None => false end); [left | right]; auto.
Qed.

Theorem remove_diff_disk_spec : forall g w v m d,
  ctx g w v m -> ospec g w v m (remove_diff_disk g m d).
Proof.
  intros g w v m d Hctx.
  destruct (ctx_shape g w v m Hctx) as [n [id0 [d0 [tl0 [c [Hchain0 [Hvh [Hmh [_ [_ [_ [_ [_ [Hlink [_ [_ Hpar]]]]]]]]]]]]]]]].
  pose proof (cx_rec _ _ _ _ Hctx) as Hrec. pose proof (cx_ag _ _ _ _ Hctx) as Hag.
  destruct (remove_diff_disk_cases g m d) as [-> | [Eh [Ep ->]]]; [apply ospec_refuse; exact Hctx |].
  (* removeDiskNode ends in a directory and memory that no longer have [d]; then its two files go *)
  assert (Hrdn : exists w2 vpost m', runs g v vpost (remove_disk_node g m d) w w2 (m', Ok)
                   /\ ctx g w2 vpost m' /\ ~ In d (names_of_chain (cv_chain vpost))).
  { destruct (m_disks m d) as [dd |] eqn:Hmd.
    - assert (Hin : In d (names_of_chain (cv_chain v))) by (apply (agree_disk_dom g v m d Hag); congruence).
      destruct (split_at_member d (cv_chain v) Hin) as [l1 [cmb [dmb [l2 [Hsplit Hdn]]]]].
      { rewrite Hchain0. cbn. intro E. subst d. rewrite Hmh, odname_eqb_refl in Eh. discriminate. }
      destruct l1 as [| a l1']; [| subst d; exact (rdn_ctx g w v m a l1' cmb dmb l2 Hctx Hsplit)].
      exfalso. rewrite Hsplit in Hlink, Hchain0. cbn [app] in Hlink, Hchain0.
      cbn [linked] in Hlink. destruct Hlink as [_ [_ [Hp0 _]]].
      inversion Hchain0 as [[Hc0 Ht0]]. rewrite Hc0 in Hp0. cbn [mb_disk] in Hp0.
      destruct (agree_head g v m Hag) as [_ Hip]. rewrite Hip, Hpar, Hp0, Hdn, odname_eqb_refl in Ep. discriminate.
    - exists w, v, m. unfold remove_disk_node. rewrite Hmd.
      split; [apply runs_ret, Good_pre; exact Hrec | split; [exact Hctx | exact (fun H => proj2 (agree_disk_dom g v m d Hag) H Hmd)]]. }
  destruct Hrdn as [w2 [vpost [m' [Hrun2 [Hctx2 Hd_post]]]]].
  destruct (rm_disk_off g w2 vpost d (cx_rec _ _ _ _ Hctx2) Hd_post) as [w3 [Hrec3 Hrun3]].
  specialize (Hrun3 v vpost (or_intror (veq_refl _))).
  eapply ospec_runs; [| exact (ctx_move _ _ _ g w2 w3 vpost m' Hctx2 (proj1 Hrun3) Hrec3)].
  eapply runs_bind; [exact Hrun2 |]. cbn [is_ok res_eqb negb].
  eapply runs_bind; [exact Hrun3 | apply runs_ret, Good_post; exact Hrec3].
Qed.

(** ** PrepareRemoveDisk (mark as removed) *)

Theorem prepare_remove_disk_spec : forall g w v m arg,
  ctx g w v m -> sspec g w v (Some m) (op_prog g (Some m) (OPrep arg)).
Proof.
  intros g w v m arg Hctx.
  destruct (ctx_shape g w v m Hctx) as [n [id0 [d0 [tl0 [c [_ [Hvh [Hmh [_ [_ [_ [_ [_ [Hlink _]]]]]]]]]]]]]].
  pose proof (cx_rec _ _ _ _ Hctx) as Hrec. pose proof (cx_ag _ _ _ _ Hctx) as Hag.
  assert (Href : forall r k, sspec g w v (Some m) (t_ <- Ret (m, r, k) ;; let '(m1, e, n) := t_ in Ret (Some m1, e, n))).
  { intros r k. apply sspec_ret; [eapply ctx_InvS; exact Hctx | exact Hrec | auto]. }
  cbn [op_prog]. unfold prepare_remove_disk.
  destruct (negb (mode_eqb (m_mode m) RW)); [apply Href |].
  destruct (match m_disks m arg with Some _ => _ | None => _ end) as [[d data] |] eqn:Ef; [| apply Href].
  assert (Hfound : m_disks m d = Some data).
  { destruct (m_disks m arg) eqn:E1; [inversion Ef; subst; exact E1 |].
    destruct (gen_snap_name arg) as [d2 |]; [| discriminate]. destruct (m_disks m d2) eqn:E2; [inversion Ef; subst; exact E2 | discriminate]. }
  destruct (odname_eqb (Some d) (i_head (m_info m))) eqn:Eh; [apply Href |].
  destruct (odname_eqb (i_parent (m_info m)) (Some d)); [apply Href |].
  destruct (d_parent data) as [par |] eqn:Hpd; [| apply Href].
  destruct (agree_disk_in g v m d data Hag Hfound) as [mb [Hmbin [<- <-]]].
  destruct (linked_member _ _ mb Hlink Hmbin) as [Hmeta [gn Himg]].
  pose proof (linked_parent_in _ _ mb par Hlink Hmbin Hpd) as Hpar_in.
  set (d := mb_name mb) in *. set (data := mb_disk mb) in *.
  set (data' := mkdisk (Some par) true (d_user data) (d_created data) (d_rev data)).
  set (m1 := set_disks m (updd (m_disks m) d (Some data'))).
  set (post := upd_member d data' (cv_chain v)).
  assert (Hctx1 : ctx g (enc_fs w (Meta d) (IDisk data')) (mkview (cv_info v) post) m1).
  { apply (ctx_upd g w v m mb data' Hctx Hmbin); [symmetry; exact Hpd |].
    intro E. rewrite Hmh, <- Hvh, <- E, odname_eqb_refl in Eh. discriminate. }
  (* the parent is a member of the new view too, so the memory that agrees with it has its record *)
  assert (Hm1par : m_disks m1 par <> None).
  { apply (agree_disk_dom g _ m1 par (cx_ag _ _ _ _ Hctx1)). cbn [cv_chain]. unfold post. rewrite upd_member_names. exact Hpar_in. }
  assert (Hg : Good g v (mkview (cv_info v) post) w) by (apply Good_pre; exact Hrec).
  eapply sspec_wrap with (vp := mkview (cv_info v) post).
  - eapply runs_do; [cbn [apply_call]; rewrite Himg; reflexivity | exact Hg |]. cbn [is_err].
    eapply runs_do; [cbn [apply_call]; rewrite Hmeta; reflexivity | exact Hg |]. cbn [is_err]. fold data' m1.
    apply runs_encode; [apply meta_name_disk | exact I | exact Hg |]. cbn [is_ok res_eqb negb]. destruct (m_disks m1 par); [| contradiction].
    apply runs_ret, Good_post. apply Hctx1.
  - reflexivity.
  - exact Hctx1.
  - intros H. congruence.
Qed.

(** ** ReplaceDisk where the code refuses it *)

Lemma replace_refused_spec : forall g w v m t src,
  ctx g w v m ->
  (m_mode m <> RW \/ Some t = i_head (m_info m) \/ files w (Img src) = None) ->
  ospec g w v m (replace_disk g m t src).
Proof.
  intros g w v m t src Hctx H. unfold replace_disk.
  destruct (negb (mode_eqb (m_mode m) RW)) eqn:Em; [apply ospec_refuse; exact Hctx |].
  destruct (odname_eqb (Some t) (i_head (m_info m))) eqn:Eh; [apply ospec_refuse; exact Hctx |].
  destruct H as [H | [H | H]].
  - exfalso. apply H. destruct (m_mode m); cbn in Em; congruence.
  - exfalso. rewrite H, odname_eqb_refl in Eh. discriminate.
  - pose proof (cx_rec _ _ _ _ Hctx) as Hrec.
    exists w, m, Refused, v. unfold Atomic, hardlink_disk. cbn [bind ff apply_call states]. rewrite H. cbn [is_err ff states bind is_ok res_eqb negb fst snd].
    split; [reflexivity |]. split; [exact Hctx |]. split; [| auto].
    repeat constructor; apply Good_pre; exact Hrec.
Qed.

(** ** the open path: readMetadata / readDiskData, openLiveChain, construct, Server.Open *)

Definition frev (c : Z) (d : disk) : disk :=
  if Z.leb (d_rev d) 1 then mkdisk (d_parent d) (d_removed d) (d_user d) (d_created d) c else d.

Definition norm_chain (c : Z) (l : list member) : list member :=
  map (fun mb => set_mdisk mb (frev c (mb_disk mb))) l.

Lemma frev_parent : forall c d, d_parent (frev c d) = d_parent d.
Proof. intros. unfold frev. destruct (Z.leb (d_rev d) 1); reflexivity. Qed.
Lemma frev_attrs : forall c d, attrs_same d (frev c d).
Proof. intros. unfold frev. destruct (Z.leb (d_rev d) 1); repeat split. Qed.

Lemma norm_chain_veq : forall c i l, veq (mkview i l) (mkview i (norm_chain c l)).
Proof.
  intros. split; [apply info_sim_refl |]. induction l as [| a t IH]; [constructor |]. cbn. constructor; [| exact IH].
  split; [reflexivity |]. split; [reflexivity |]. apply frev_attrs.
Qed.

(** the invariant of readMetadata's loop when it has been through the members [p] and goes on to [nxt] *)
Definition rc_inv (p : list member) (nxt : option dname) (m : mem) : Prop :=
  (forall d, m_disks m d = dk p d)
  /\ forall y, m_children m (Some y) = child_of y (names_of_chain p ++ match nxt with Some x => [x] | None => [] end).

(** readDiskData's repair of a RevisionCounter <= 1 *)
Definition rc_fix (g : cfg) (x : dname) (d : disk) : prog (disk * res) :=
  if Z.leb (d_rev d) 1
  then rv <- get_rev ;;
       let d' := mkdisk (d_parent d) (d_removed d) (d_user d) (d_created d) rv in
       e <- encode_to_file g (IDisk d') (Meta x) ;; Ret (d', e)
  else Ret (d, Ok).

Lemma read_chain_unfold : forall g fuel present m x,
  read_chain g (S fuel) present m x =
  if negb (present (Meta x)) then Ret (m, Ok) else
  Do (CReadFile (Meta x)) (fun r =>
  match r with
  | RIno (IDisk d) =>
      t_ <- rc_fix g x d ;;
      let '(d1, e) := t_ in
      let m1 := set_disks m (updd (m_disks m) x (Some d1)) in
      if negb (is_ok e) then Ret (m1, Failed) else
      match d_parent d1 with
      | None => Ret (m1, Ok)
      | Some p => read_chain g fuel present (set_children m1 (add_child (m_children m1) (Some p) x)) p
      end
  | _ => Ret (m, Failed)
  end).
Proof. reflexivity. Qed.

Lemma rc_fix_spec : forall g x d c w v vp, files w Counter = Some (ICounter c) ->
  let w1 := if Z.leb (d_rev d) 1 then enc_fs w (Meta x) (IDisk (frev c d)) else w in
  Good g v vp w -> Good g v vp w1 -> runs g v vp (rc_fix g x d) w w1 (frev c d, Ok).
Proof.
  intros g x d c w v vp Hc w1 Hw Hw1. subst w1. unfold rc_fix, frev in *. destruct (Z.leb (d_rev d) 1).
  - eapply runs_do; [cbn [apply_call]; rewrite Hc; reflexivity | exact Hw |].
    apply runs_encode; [apply meta_name_disk | exact I | exact Hw | apply runs_ret; exact Hw1].
  - apply runs_ret. exact Hw.
Qed.

(** the loop of readMetadata entered at the first of [t], [p] being the members it has been through *)
Lemma read_chain_spec : forall g c present v i t p w m fuel x,
  recover g w = Some (mkview i (p ++ t)) -> veq (mkview i (p ++ t)) v ->
  NoDup (names_of_chain (p ++ t)) -> first_name t = Some x ->
  (forall y, In y (names_of_chain t) -> present (Meta y) = true) ->
  files w Counter = Some (ICounter c) -> length t <= fuel -> rc_inv p (first_name t) m ->
  exists w' m',
    runs g v v (read_chain g fuel present m x) w w' (m', Ok)
    /\ recover g w' = Some (mkview i (p ++ norm_chain c t))
    /\ rc_inv (p ++ norm_chain c t) None m'
    /\ m_info m' = m_info m /\ m_active m' = m_active m.
Proof.
  intros g c present v i t. induction t as [| a t IH]; intros p w m fuel x Hrec Hveq Hnd Hx Hpres Hcnt Hlen [HD HC]; [discriminate |].
  destruct fuel as [| fuel]; [cbn in Hlen; lia |]. injection Hx as <-.
  destruct (recover_elim _ _ _ Hrec) as [_ [h [c0 [_ [_ [Hlink _]]]]]].
  apply linked_suffix in Hlink. cbn [cv_chain linked] in Hlink. destruct Hlink as [Hma [_ [Hpa _]]].
  rewrite read_chain_unfold, (Hpres (mb_name a)) by (left; reflexivity). cbn [negb first_name] in *.
  set (xa := mb_name a) in *. set (da := mb_disk a) in *. set (da' := frev c da).
  set (w1 := if Z.leb (d_rev da) 1 then enc_fs w (Meta xa) (IDisk da') else w).
  set (p1 := p ++ [set_mdisk a da']).
  (* after the repair the directory holds [a] with the repaired record *)
  assert (Hrec1 : recover g w1 = Some (mkview i (p1 ++ t))).
  { subst p1. rewrite <- app_assoc. cbn [app]. subst w1 da'. unfold frev. destruct (Z.leb (d_rev da) 1).
    - rewrite <- (upd_member_mid a _ p t Hnd). apply (recover_upd_member g w _ xa da _ Hrec Hma). reflexivity.
    - destruct a; exact Hrec. }
  assert (Hveq1 : veq (mkview i (p1 ++ t)) v).
  { eapply veq_trans; [| exact Hveq]. subst p1. rewrite <- app_assoc. cbn [app]. rewrite <- (upd_member_mid a da' p t Hnd).
    apply veq_sym, veq_upd_member; [exact Hnd | apply in_or_app; right; left; reflexivity | apply frev_attrs]. }
  assert (Hg : Good g v v w) by exact (Good_veq_post _ _ _ _ _ Hrec Hveq).
  assert (Hg1 : Good g v v w1) by exact (Good_veq_post _ _ _ _ _ Hrec1 Hveq1).
  assert (Hpa' : d_parent da' = first_name t) by (subst da'; rewrite frev_parent; exact Hpa).
  pose proof (rc_fix_spec g xa da c w v v Hcnt Hg Hg1) as Hfix. fold da' w1 in Hfix.
  (* the memory: the record of [a] joins those of [p] *)
  set (m1 := set_disks m (updd (m_disks m) xa (Some da'))).
  assert (Hnames1 : names_of_chain p1 = names_of_chain p ++ [xa]) by (subst p1; apply names_of_chain_app).
  assert (Hnd' : NoDup (names_of_chain p ++ xa :: names_of_chain t)).
  { rewrite names_of_chain_app in Hnd. exact Hnd. }
  assert (HD1 : forall d, m_disks m1 d = dk p1 d).
  { intros d. subst p1 m1. unfold dk. rewrite find_mb_app. cbn [find_mb set_mdisk mb_name mb_disk m_disks set_disks]. fold xa. unfold updd.
    destruct (dname_eqb xa d) eqn:E; [| rewrite HD; unfold dk; destruct (find_mb d p); reflexivity].
    apply dname_eqb_eq in E. subst d. rewrite find_mb_none; [reflexivity |].
    apply NoDup_remove_2 in Hnd'. intro H. apply Hnd'. apply in_or_app. left. exact H. }
  destruct t as [| b t']; cbn [first_name] in Hpa'.
  - (* the base of the chain *)
    exists w1, m1. cbn [norm_chain map]. fold da da' p1. rewrite app_nil_r in Hrec1.
    split; [| split; [exact Hrec1 | split; [| auto]]].
    + eapply runs_do; [cbn [apply_call]; rewrite Hma; reflexivity | exact Hg |].
      eapply runs_bind; [exact Hfix |]. cbn [is_ok res_eqb negb]. rewrite Hpa'. apply runs_ret. exact Hg1.
    + split; [exact HD1 |]. intros y. rewrite Hnames1, app_nil_r. exact (HC y).
  - (* the parent: the rest of the chain by induction *)
    set (xb := mb_name b) in *.
    set (m2 := set_children m1 (add_child (m_children m1) (Some xb) xa)).
    assert (Hxb : ~ In xb (names_of_chain p ++ [xa])).
    { rewrite <- Hnames1. intro H. cbn [names_of_chain map] in Hnd'. fold xb in Hnd'.
      change (xa :: xb :: map mb_name t') with ([xa] ++ xb :: map mb_name t') in Hnd'. rewrite app_assoc in Hnd'.
      apply NoDup_remove_2 in Hnd'. apply Hnd'. apply in_or_app. left. rewrite <- Hnames1. exact H. }
    destruct (IH p1 w1 m2 fuel xb Hrec1 Hveq1) as [w' [m' [Hk [Hrec' [Hinv' [F1 F2]]]]]];
      [subst p1; rewrite <- app_assoc, names_of_chain_app; rewrite names_of_chain_app in Hnd; exact Hnd | reflexivity
      | intros y Hy; apply Hpres; right; exact Hy
      | subst w1; destruct (Z.leb (d_rev da) 1); [rewrite enc_fs_other by discriminate |]; exact Hcnt
      | cbn [length] in *; lia | |].
    { split; [exact HD1 |]. intros y. subst m2 m1. cbn [m_children set_children set_disks first_name]. fold xb.
      rewrite Hnames1, (child_of_snoc y _ xa xb Hxb). unfold add_child.
      rewrite (HC xb), (child_of_off xb _ Hxb).
      cbn [memd app]. unfold updc. cbn [odname_eqb]. destruct (dname_eqb xb y); [reflexivity | apply HC]. }
    subst p1. rewrite <- app_assoc in Hrec', Hinv'. exists w', m'.
    split; [| split; [exact Hrec' | split; [exact Hinv' | auto]]].
    eapply runs_do; [cbn [apply_call]; rewrite Hma; reflexivity | exact Hg |].
    eapply runs_bind; [exact Hfix |]. cbn [is_ok res_eqb negb]. rewrite Hpa'. exact Hk.
Qed.

Lemma open_all_spec : forall l w, (forall y, In y l -> files w (Img y) <> None) ->
  ff (open_all l) w = (w, Done true) /\ Forall (eq w) (states (open_all l) w).
Proof.
  induction l as [| y t IH]; intros w Hex.
  - cbn. split; [reflexivity | constructor; [reflexivity | constructor]].
  - cbn [open_all]. unfold open_file. cbn [bind ff states apply_call].
    destruct (files w (Img y)) as [ci |] eqn:Hi; [| exfalso; apply (Hex y); [left; reflexivity | exact Hi]].
    cbn [is_err bind ff states]. destruct (IH w) as [H1 H2]; [intros z Hz; apply Hex; right; exact Hz |].
    split; [exact H1 |]. constructor; [reflexivity | exact H2].
Qed.

Lemma open_live_chain_spec : forall g m w v,
  recover g w = Some v -> mchain g m = Some (names_of_chain (cv_chain v)) ->
  ff (open_live_chain g m) w = (w, Done (set_active m (m_active m ++ rev (names_of_chain (cv_chain v))), Ok))
  /\ Forall (eq w) (states (open_live_chain g m) w).
Proof.
  intros g m w v Hrec Hm. destruct (recover_elim g w v Hrec) as [_ [h [c [_ [_ [_ [_ Hlen]]]]]]].
  unfold open_live_chain. rewrite Hm.
  replace (Nat.ltb (maxlen g) _) with false by (symmetry; apply Nat.ltb_ge; unfold names_of_chain; rewrite map_length; exact Hlen).
  destruct (open_all_spec (rev (names_of_chain (cv_chain v))) w) as [Hff Hst].
  { intros y Hy. apply in_rev in Hy. exact (recover_img g w v y Hrec Hy). }
  split; [rewrite (ff_bind_done Hff); reflexivity |].
  eapply Forall_states_bind_ff; [exact Hff | exact Hst | apply Forall_states_ret; reflexivity].
Qed.

Lemma init_rev_spec : forall w c, files w Counter = Some (ICounter c) ->
  ff init_revision_counter w = (w, Done (Some c)) /\ Forall (eq w) (states init_revision_counter w).
Proof.
  intros w c Hc. unfold init_revision_counter. cbn [ff states apply_call]. rewrite Hc.
  cbn [is_err ff states apply_call]. rewrite Hc. cbn [is_err ff states apply_call]. rewrite Hc.
  split; [reflexivity |]. repeat constructor.
Qed.

Lemma read_metadata_spec : forall g w v c m,
  recover g w = Some v -> wf_view v ->
  files w Counter = Some (ICounter c) -> (forall q, m_children m q = []) ->
  exists w2 m2,
    runs g v v (read_metadata g m) w w2 (m2, true, Ok)
    /\ recover g w2 = Some (mkview (cv_info v) (norm_chain c (cv_chain v)))
    /\ rc_inv (norm_chain c (cv_chain v)) None m2
    /\ m_info m2 = cv_info v /\ m_active m2 = m_active m.
Proof.
  intros g w v c m Hrec [n [id0 [d0 [tl [Hchain [Hvh [_ [Hnd _]]]]]]]] Hc Hch0.
  destruct (recover_elim g w v Hrec) as [Hvol [h' [c' [Hhd [_ [Hlink [Hf Hlen]]]]]]]. rewrite Hvh in Hhd. injection Hhd as <-.
  set (pres := fun n0 => match files w n0 with Some _ => true | None => false end).
  assert (Hg : Good g v v w) by (apply Good_pre; exact Hrec).
  destruct v as [i l]. cbn [cv_info cv_chain] in *.
  destruct (read_chain_spec g c pres (mkview i l) i l [] w (set_info (set_children (set_disks m no_disks) (m_children m)) i)
              (read_fuel g) (Head n) Hrec (veq_refl _) Hnd Hf)
    as [w2 [m2 [Hrun2 [Hrec2 [Hinv2 Hmem2]]]]]; [| exact Hc | unfold read_fuel; lia | |].
  { intros y Hy. apply in_map_iff in Hy. destruct Hy as [mby [E Hmb]]. subst y pres. cbn beta.
    rewrite (proj1 (linked_member _ _ mby Hlink Hmb)). reflexivity. }
  { split; [reflexivity |]. intros y. cbn [m_children set_info set_children]. rewrite Hch0, Hf. reflexivity. }
  exists w2, m2. split; [| split; [exact Hrec2 | split; [exact Hinv2 | exact Hmem2]]]. unfold read_metadata.
  eapply runs_do; [reflexivity | exact Hg |]. cbn beta iota. rewrite Hvol. cbn [negb].
  eapply runs_do; [cbn [apply_call]; rewrite Hvol; reflexivity | exact Hg |]. cbn beta iota. rewrite Hvh.
  eapply runs_bind; [exact Hrun2 |]. cbn [is_ok res_eqb negb].
  (* "exists": the head's record has been read *)
  replace (m_disks m2 (Head n)) with (Some (frev c d0));
    [| rewrite (proj1 Hinv2), Hchain; unfold dk; cbn [app norm_chain map find_mb set_mdisk mb_name mb_disk]; rewrite dname_eqb_refl; reflexivity].
  apply runs_ret, (Good_veq_post _ _ _ _ _ Hrec2), veq_sym, norm_chain_veq.
Qed.

(** what readMetadata has built becomes, once openLiveChain has set the active list, a memory in [ctx] *)
Lemma rc_inv_ctx : forall g w v m, recover g w = Some v -> wf_view v -> ids_fresh w -> rc_inv (cv_chain v) None m ->
  info_sim (m_info m) (cv_info v) -> m_active m = [] ->
  ctx g w v (set_active m (m_active m ++ rev (names_of_chain (cv_chain v)))).
Proof.
  intros g w [i l] m Hrec Hwf Hfr [HD HC] Hi Ha. apply ctx_intro; [exact Hrec | exact Hwf | exact Hi | | exact Hfr].
  split; [exact HD | split; [intros d _; cbn [m_children set_active]; rewrite (HC d), app_nil_r; reflexivity |]].
  cbn [m_active set_active cv_chain]. rewrite Ha. reflexivity.
Qed.

Lemma construct_spec : forall g w v size now,
  recover g w = Some v -> wf_view v -> ids_fresh w ->
  exists wF mF c,
    files w Counter = Some (ICounter c)
    /\ let iF := set_dirty_rebuilding (cv_info v) true (i_rebuilding (cv_info v)) in
       let vF := mkview iF (norm_chain c (cv_chain v)) in
       ff (construct g size now) w = (wF, Done (Some mF, Ok))
       /\ ctx g wF vF mF
       /\ Atomic g v vF (construct g size now) w
       /\ veq v vF
       (* the path taken: the metadata is found ([errQ_construct] of Fault.v starts from this) *)
       /\ (exists w2 m2, ff (read_metadata g (mkmem (empty_info size) no_disks no_children [] INIT c)) w = (w2, Done (m2, true, Ok))).
Proof.
  intros g w v size now Hrec Hwf Hfr.
  destruct (recover_elim g w v Hrec) as [_ [_ [c [_ [Hc _]]]]].
  set (m0 := mkmem (empty_info size) no_disks no_children [] INIT c).
  destruct (read_metadata_spec g w v c m0 Hrec Hwf Hc (fun _ => eq_refl)) as [w2 [m2 [[Hffrm Hat2] [Hrec2 [Hinv2 [Hi2 Ha2]]]]]].
  set (v2 := mkview (cv_info v) (norm_chain c (cv_chain v))) in *.
  assert (Hveq2 : veq v v2) by (destruct v; apply norm_chain_veq).
  (* from here on the memory is in [ctx] with the directory: the active list is the whole chain *)
  set (m3 := set_active m2 (m_active m2 ++ rev (names_of_chain (cv_chain v2)))).
  assert (Hctx3 : ctx g w2 v2 m3).
  { apply rc_inv_ctx; [exact Hrec2 | exact (wf_view_veq _ _ (veq_sym _ _ Hveq2) Hwf) | exact (ff_fresh_eq _ _ _ _ _ Hfr Hffrm)
                      | exact Hinv2 | rewrite Hi2; apply info_sim_refl | exact Ha2]. }
  destruct (ctx_shape g w2 v2 m3 Hctx3) as [n [id0 [d0 [tl [c2 [_ [_ [Hmh [_ [_ [_ [_ [_ [_ [_ [Hd0 Hpar]]]]]]]]]]]]]]]].
  destruct (open_live_chain_spec g m2 w2 v2 Hrec2 (mchain_of_ctx g w2 v2 m3 Hctx3)) as [Hffolc Hstolc].
  fold m3 in Hffolc.
  (* construct sets info.Parent to the head's parent, which it is already *)
  assert (Hpar_eq : set_iparent (m_info m3) (d_parent d0) = cv_info v).
  { change (m_info m3) with (m_info m2). rewrite Hi2, <- Hpar. destruct (cv_info v); reflexivity. }
  set (iF := set_dirty_rebuilding (cv_info v) true (i_rebuilding (cv_info v))). set (mF := set_info m3 (cv_info v)).
  destruct (vol_only_run _ g w2 v2 iF (Some mF, Ok) (fun e3 => if is_ok e3 then Ret (Some mF, Ok) else Ret (None, Failed)) Hrec2 eq_refl eq_refl)
    as [HffF HstF].
  set (vF := mkview iF (norm_chain c (cv_chain v))) in *.
  assert (HveqF : veq v vF).
  { eapply veq_trans; [exact Hveq2 |]. split; [subst iF; repeat split | apply Forall2_refl; apply member_sim_refl]. }
  assert (Hgood_w : Good g v vF w) by (apply Good_pre; exact Hrec).
  assert (Hgood_w2 : Good g v vF w2) by (exists v2; split; [exact Hrec2 | left; apply veq_sym; exact Hveq2]).
  assert (Hrun : runs g v vF (construct g size now) w (enc_fs w2 Vol (IVol iF)) (Some mF, Ok)).
  { unfold construct. eapply runs_do; [reflexivity | exact Hgood_w |]. cbn beta iota.
    eapply runs_bind; [exact (runs_still _ _ _ _ _ _ _ (init_rev_spec w c Hc) Hgood_w) |]. fold m0.
    eapply runs_bind; [split; [exact Hffrm | apply Atomic_same; exact Hat2] |]. cbn [is_ok res_eqb negb].
    eapply runs_bind; [exact (runs_still _ _ _ _ _ _ _ (conj Hffolc Hstolc) Hgood_w2) |]. cbn [is_ok res_eqb negb].
    rewrite Hmh, Hd0, Hpar_eq. cbn [m_info set_info]. split; [exact HffF |].
    apply Atomic_into_post with (a := v2) (b := vF); [| apply veq_refl | exact HstF].
    eapply veq_trans; [apply veq_sym; exact Hveq2 | exact HveqF]. }
  exists (enc_fs w2 Vol (IVol iF)), mF, c. split; [exact Hc |]. cbn zeta. fold iF vF.
  split; [exact (proj1 Hrun) |]. split; [| split; [exact (proj2 Hrun) | split; [exact HveqF | exists w2, m2; exact Hffrm]]].
  apply (ctx_vol g w2 v2 m3 iF mF Hctx3); try reflexivity; [| | subst iF mF; repeat split];
    change (m_info m3) with (m_info m2); rewrite Hi2; reflexivity.
Qed.

Lemma step_ff : forall g s o w' om' r k,
  (forall k' o', o <> OCrashIn k' o') ->
  ff (op_prog g (s_mem s) o) (s_fs s) = (w', Done (om', r, k)) ->
  step g s o = (mkst w' om', result_of r, k).
Proof.
  intros g s o w' om' r k Hnc Hff.
  unfold step, run. destruct o; try (exfalso; eapply Hnc; reflexivity); rewrite exec_ff, Hff; reflexivity.
Qed.

Lemma open_spec : forall g w v, recover g w = Some v -> wf_view v -> ids_fresh w ->
  exists wF mF vF,
    ff (open_volume g) w = (wF, Done (Some mF, Ok, O))
    /\ step g (mkst w None) OOpen = (mkst wF (Some mF), ResOk, O)
    /\ ctx g wF vF mF /\ veq v vF
    /\ Atomic g v vF (open_volume g) w.
Proof.
  intros g w v Hrec Hwf Hfr. destruct (recover_elim g w v Hrec) as [Hvol _].
  destruct (construct_spec g w v (i_size (cv_info v)) 0 Hrec Hwf Hfr) as [wF [mF [c [Hc HF]]]].
  cbn zeta in HF. destruct HF as [HffF [HctxF [HstF [HveqF _]]]].
  assert (Hff : ff (open_volume g) w = (wF, Done (Some mF, Ok, O))).
  { unfold open_volume. cbn [ff apply_call]. rewrite Hvol. rewrite (ff_bind_done HffF). reflexivity. }
  eexists wF, mF, _. split; [exact Hff |].
  split; [apply (step_ff g (mkst w None) OOpen wF (Some mF) Ok O); [intros; discriminate | exact Hff] |].
  split; [exact HctxF |]. split; [exact HveqF |].
  unfold Atomic, open_volume. rewrite states_Do. cbn [apply_call]. rewrite Hvol. constructor; [apply Good_pre; exact Hrec |].
  eapply Atomic_bind; [exact HffF | exact HstF |]. apply Atomic_ret, Good_post. apply HctxF.
Qed.

Lemma open_sspec : forall g w v, recover g w = Some v -> wf_view v -> ids_fresh w -> sspec g w v None (open_volume g).
Proof.
  intros g w v Hrec Hwf Hfr. destruct (open_spec g w v Hrec Hwf Hfr) as [wF [mF [vF [Hff [_ [HctxF [_ Hst]]]]]]].
  exists wF, (Some mF), Ok, O, vF. split; [exact Hff |]. split; [eapply ctx_InvS; exact HctxF |].
  split; [apply HctxF |]. split; [exact Hst | intros H; congruence].
Qed.

(** ** Revert *)

(** the view after the commit of revertDisk: the new head on the chain from its parent down *)
Lemma revert_view_spec : forall g w1 v i' k idn gn nd hdm pre suf,
  recover g w1 = Some v -> wf_view v -> cv_chain v = hdm :: pre ++ suf ->
  ~ In (Head k) (names_of_chain (cv_chain v)) -> ~ In idn (map mb_id (cv_chain v)) ->
  files w1 (Meta (Head k)) = Some (IDisk nd) -> files w1 (Img (Head k)) = Some (IImg idn gn) ->
  d_parent nd = first_name suf -> i_head i' = Some (Head k) -> i_parent i' = d_parent nd ->
  let v2 := mkview i' (mkmember (Head k) idn nd :: suf) in
  recover g (enc_fs w1 Vol (IVol i')) = Some v2 /\ wf_view v2 /\ ~ In (mb_name hdm) (names_of_chain (cv_chain v2)).
Proof.
  intros g w1 v i' k idn gn nd hdm pre suf Hrec [n [id0 [d0 [tl0 [Hchain [_ [Hsnaps [Hnd [Hndi _]]]]]]]]] Hsplit Hnh Hidn Hm Hi Hp Hh Hpar v2.
  destruct (recover_elim g w1 v Hrec) as [_ [h [c [_ [Hc [Hlink [_ Hlen]]]]]]].
  rewrite Hsplit in Hchain. injection Hchain as -> <-. rewrite Hsplit in *.
  cbn [names_of_chain map] in Hnd, Hndi. apply NoDup_cons_iff in Hnd, Hndi. destruct Hnd as [Hn0 Hnd1]. destruct Hndi as [_ Hndi1].
  split; [| split].
  - apply recover_commit with (h := Head k) (c := c); [| reflexivity | exact Hh | exact Hc |].
    + cbn [linked mb_name mb_disk mb_id]. split; [exact Hm |]. split; [eauto |]. split; [exact Hp |].
      exact (linked_suffix (files w1) (mkmember (Head n) id0 d0 :: pre) suf Hlink).
    + cbn [length] in *. rewrite app_length in Hlen. lia.
  - apply wf_view_newhead; [exact Hh | exact Hpar | | exact (nodup_map_suffix _ _ mb_name pre suf Hnd1)
                            | exact (nodup_map_suffix _ _ mb_id pre suf Hndi1)
                            | intro H; apply Hidn; right; rewrite map_app; apply in_or_app; right; exact H].
    apply Forall_forall. intros mb Hmb. eapply Forall_forall in Hsnaps; [exact Hsnaps |]. apply in_or_app. right. exact Hmb.
  - cbn [cv_chain v2 names_of_chain map mb_name]. intros [E | H]; [apply Hnh; left; symmetry; exact E |].
    apply Hn0. rewrite names_of_chain_app. apply in_or_app. right. exact H.
Qed.

(** revertDisk from the commit on *)
Definition revert_commit (g : cfg) (m : mem) (old : option dname) (info' : info) : prog (mem * res) :=
  e2 <- encode_to_file g (IVol info') Vol ;;
  if negb (is_ok e2) then _ <- encode_to_file g (IVol (m_info m)) Vol ;; Ret (m, Failed) else
  e3 <- rm_disk old ;;
  if negb (is_ok e3) then Ret (m, Failed) else
  t_ <- construct g (i_size (m_info m)) 0 ;;
  let '(om, e4) := t_ in
  match om with
  | Some mn =>
      if is_ok e4
      then Ret (set_info (set_mode mn (m_mode m))
                  (set_dirty_rebuilding (m_info mn) (i_dirty (m_info m)) (i_rebuilding (m_info mn))), Ok)
      else Ret (m, Failed)
  | None => Ret (m, Failed)
  end.

Lemma revert_disk_unfold : forall g m parent cr,
  revert_disk g m parent cr =
  if fix_rev g && (match m_disks m parent with Some _ => false | None => true end
                   || odname_eqb (Some parent) (i_head (m_info m)))
  then Ret (m, Refused) else
  Do (CStat (Img parent)) (fun rs =>
  if is_err rs then Ret (m, Refused) else
  t_ <- create_new_head g m (i_head (m_info m)) (Some parent) cr ;;
  let '(nhn, nd, e1) := t_ in
  if negb (is_ok e1) then Ret (m, Failed) else
  revert_commit g m (i_head (m_info m))
    (mkinfo (i_size (m_info m)) nhn true (i_rebuilding (m_info m)) (d_parent nd) (i_checkpoint (m_info m)) (i_rev (m_info m)))).
Proof. reflexivity. Qed.

Lemma revert_commit_spec : forall g w1 v v2 m oh i',
  recover g w1 = Some v -> ids_fresh w1 ->
  recover g (enc_fs w1 Vol (IVol i')) = Some v2 -> wf_view v2 -> ~ In oh (names_of_chain (cv_chain v2)) ->
  exists wF mF vF, runs g v vF (revert_commit g m (Some oh) i') w1 wF (mF, Ok) /\ ctx g wF vF mF.
Proof.
  intros g w1 v v2 m oh i' Hrec1 Hfr1 Hrec2 Hwf2 Hoh2. set (w2 := enc_fs w1 Vol (IVol i')) in *.
  destruct (rm_disk_off g w2 v2 oh Hrec2 Hoh2) as [w3 [Hrec3 Hrun3]].
  assert (Hfr3 : ids_fresh w3) by (eapply ff_fresh_eq; [| exact (proj1 (Hrun3 v2 v2 (or_introl (veq_refl _))))]; apply enc_fs_fresh; [exact I | exact Hfr1]).
  destruct (construct_spec g w3 v2 (i_size (m_info m)) 0 Hrec3 Hwf2 Hfr3) as [wF [mF [c' [HcF HF]]]].
  cbn zeta in HF. destruct HF as [HffF [HctxF [HstF [HveqF _]]]].
  set (vF := mkview (set_dirty_rebuilding (cv_info v2) true (i_rebuilding (cv_info v2))) (norm_chain c' (cv_chain v2))) in *.
  exists wF, (set_info (set_mode mF (m_mode m)) (set_dirty_rebuilding (m_info mF) (i_dirty (m_info m)) (i_rebuilding (m_info mF)))), vF.
  split; [| destruct HctxF as [R1 R2 R3 R4 R5]; constructor; assumption].
  unfold revert_commit. apply runs_encode; [apply meta_name_vol | exact I | apply Good_pre; exact Hrec1 |]. fold w2. cbn [is_ok res_eqb negb].
  eapply runs_bind; [exact (Hrun3 _ _ (or_intror HveqF)) |]. cbn [is_ok res_eqb negb].
  eapply runs_bind; [split; [exact HffF | exact (Atomic_into_post _ _ v _ _ _ _ _ HveqF (veq_refl _) HstF)] |].
  cbn [is_ok res_eqb]. apply runs_ret, Good_post. apply HctxF.
Qed.

Theorem revert_disk_spec : forall g w v m parent cr,
  ctx g w v m ->
  (fix_rev g = true
   \/ (In parent (names_of_chain (cv_chain v)) /\ Some parent <> i_head (cv_info v))
   \/ files w (Img parent) = None) ->
  ospec g w v m (revert_disk g m parent cr).
Proof.
  intros g w v m parent cr Hctx Harg.
  destruct (ctx_shape g w v m Hctx) as [n [id0 [d0 [tl0 [c [Hchain [Hvh [Hmh [Hsnaps [Hnd [Hndi [Hvol [Hcnt [Hlink [Hlen [Hd0 Hpar]]]]]]]]]]]]]]]].
  pose proof (cx_rec _ _ _ _ Hctx) as Hrec. pose proof (cx_ag _ _ _ _ Hctx) as Hag. pose proof (cx_fresh _ _ _ _ Hctx) as Hfr.
  rewrite revert_disk_unfold.
  (* the repaired code's argument check *)
  destruct (fix_rev g && (match m_disks m parent with Some _ => false | None => true end
                          || odname_eqb (Some parent) (i_head (m_info m)))) eqn:Efx.
  { apply ospec_refuse; exact Hctx. }
  assert (Hst : exists r, apply_call w (CStat (Img parent)) = (w, r)
                          /\ is_err r = match files w (Img parent) with None => true | Some _ => false end).
  { cbn [apply_call]. destruct (files w (Img parent)) as [[] |]; eexists; split; reflexivity. }
  destruct Hst as [rs [Hcs Hers]]. eapply ospec_do; [exact Hcs | exact Hrec |]. rewrite Hers.
  destruct (files w (Img parent)) as [ci |] eqn:Hip; [| apply ospec_refuse; exact Hctx].
  assert (Hin : In parent (names_of_chain (cv_chain v)) /\ parent <> Head n).
  { destruct Harg as [Hfx | [[H1 H2] | H3]]; [| split; [exact H1 | intro E; apply H2; rewrite Hvh, E; reflexivity] | congruence].
    rewrite Hfx in Efx. cbn [andb] in Efx. apply Bool.orb_false_iff in Efx. destruct Efx as [E1 E2].
    split.
    - apply (agree_disk_dom g v m parent Hag). destruct (m_disks m parent); discriminate.
    - intro E. subst parent. rewrite Hmh, odname_eqb_refl in E2. discriminate. }
  destruct Hin as [Hin Hnothead].
  assert (Hin_tl : In parent (names_of_chain tl0)).
  { rewrite Hchain in Hin. cbn in Hin. destruct Hin as [E | H]; [congruence | exact H]. }
  rewrite Hmh.
  set (nh := Head (S n)).
  assert (Hnh : ~ In nh (names_of_chain (cv_chain v))) by (rewrite Hchain; apply next_head_fresh; exact Hsnaps).
  apply (ospec_new_head g w v m n (Some parent) cr c _ Hctx Hcnt Hnh); cbn [is_ok res_eqb negb].
  { (* a stale head file with data: error *)
    apply ospec_refuse; exact Hctx. }
  intros w1 Hctx1 K1 K2 _. fold nh in K1, K2. set (nd := mkdisk (Some parent) false false cr c) in *.
  (* the commit: volume.meta names the new head *)
  set (info' := mkinfo (i_size (m_info m)) (Some nh) true (i_rebuilding (m_info m)) (d_parent nd) (i_checkpoint (m_info m)) (i_rev (m_info m))).
  apply in_map_iff in Hin_tl. destruct Hin_tl as [pmb [Hpn Hpin]]. destruct (in_split _ _ Hpin) as [pre [suf Htl]].
  destruct (revert_view_spec g w1 v info' (S n) (nextid w) 0%N nd (mkmember (Head n) id0 d0) pre (pmb :: suf) (cx_rec _ _ _ _ Hctx1) (cx_wf _ _ _ _ Hctx))
    as [Hrec2 [Hwf2 Hoh2]];
    [rewrite Hchain, Htl; reflexivity | exact Hnh | exact (ids_fresh_notin g w v Hrec Hfr) | exact K2 | exact K1
    | exact (f_equal Some (eq_sym Hpn)) | reflexivity | reflexivity |].
  destruct (revert_commit_spec g w1 v _ m (Head n) info' (cx_rec _ _ _ _ Hctx1) (cx_fresh _ _ _ _ Hctx1) Hrec2 Hwf2 Hoh2)
    as [wF [mF [vF [Hrun HctxF]]]].
  exact (ospec_runs g w1 v m _ wF mF vF Hrun HctxF).
Qed.

(** ** one step of a history ([step_sspec]); histories *)

(** the arguments with which the configuration [g] keeps the invariant.  Snapshot: a name that is not in use
    (or [fix_dup] refuses it) and has no entry left in diskChildrenMap from an earlier removal (none can be left
    under [fix_children]); Revert: a snapshot of the chain (or [fix_rev] refuses the others, or the file is missing).
    With the three flags set every argument is fine ([ok_op_repaired]). *)
Definition ok_op (g : cfg) (s : st) (o : op) : Prop :=
  match o, s_mem s, recover g (s_fs s) with
  | OSnap sn _ _, Some m, Some v =>
      (fix_dup g = true \/ ~ In (Snap sn) (names_of_chain (cv_chain v)))
      /\ (~ In (Snap sn) (names_of_chain (cv_chain v)) -> m_children m (Some (Snap sn)) = [])
  | ORevert d _, Some m, Some v =>
      fix_rev g = true
      \/ (In d (names_of_chain (cv_chain v)) /\ Some d <> i_head (cv_info v))
      \/ files (s_fs s) (Img d) = None
  | OReplace t src, Some m, Some v =>          (* ReplaceDisk: only its refusals are covered here *)
      m_mode m <> RW \/ Some t = i_head (m_info m) \/ files (s_fs s) (Img src) = None
  | OCrashIn _ _, _, _ => False               (* treated separately *)
  | _, _, _ => True
  end.

Lemma create_existing_sspec : forall g w v size now,
  InvS g (mkst w None) -> recover g w = Some v -> sspec g w v None (create_volume g size now).
Proof.
  intros g w v size now Hinv Hrec. unfold create_volume. destruct (recover_elim g w v Hrec) as [Hvol _].
  exists w, None, Ok, O, v. split; [cbn [ff apply_call]; rewrite Hvol; reflexivity |].
  split; [exact Hinv |]. split; [exact Hrec |]. split; [| intros H; congruence].
  unfold Atomic. cbn [states apply_call]. rewrite Hvol. cbn [states]. repeat constructor; apply Good_pre; exact Hrec.
Qed.

Theorem step_sspec : forall g s o,
  InvS g s -> ok_op g s o ->
  exists v, recover g (s_fs s) = Some v /\ sspec g (s_fs s) v (s_mem s) (op_prog g (s_mem s) o).
Proof.
  intros g [w om] o Hinv Hok. cbn [s_fs s_mem] in *.
  pose proof Hinv as [v [Hrec [Hwf [Hfr Hmem]]]]. cbn [s_fs s_mem] in Hrec, Hfr, Hmem. exists v. split; [exact Hrec |]. unfold ok_op in Hok. cbn [s_fs s_mem] in Hok. rewrite Hrec in Hok.
  destruct om as [m |].
  - (* a replica is open *)
    destruct Hmem as [Hag Hheads]. assert (Hctx : ctx g w v m) by (constructor; assumption).
    destruct o; cbn [op_prog].
    + (* OCreate *) apply sspec_ret; [exact Hinv | exact Hrec | auto].
    + (* OOpen *) apply sspec_ret; [exact Hinv | exact Hrec | auto].
    + (* OClose *) apply close_sspec. exact Hctx.
    + (* OCrash *) apply sspec_ret; [eapply InvS_drop_mem; exact Hinv | exact Hrec | intros H; congruence].
    + (* OSetMode *) destruct mo as [[| | |] |]; (apply sspec_ret; [exact Hinv | exact Hrec | intros H; congruence]).
    + (* OWrite *) apply sspec_lift. apply write_at_spec. exact Hctx.
    + (* OSnap *) destruct Hok as [Hd Hc]. apply sspec_lift. apply ospec_keepold. apply create_disk_spec; assumption.
    + (* ORemove *) apply sspec_lift. apply remove_diff_disk_spec; assumption.
    + (* OPrep *) apply prepare_remove_disk_spec. exact Hctx.
    + (* ORevert *) apply sspec_lift. apply revert_disk_spec; assumption.
    + (* OResize *) apply sspec_lift. apply ospec_keepold. apply resize_spec. exact Hctx.
    + (* OCheckpoint *) apply sspec_lift. apply ospec_keepold. apply set_checkpoint_spec. exact Hctx.
    + (* ORebuilding *) destruct b; destruct (mstate m); try (apply sspec_ret; [exact Hinv | exact Hrec | auto]);
        (apply sspec_lift; apply set_rebuilding_spec; exact Hctx).
    + (* OReplace *) apply sspec_lift. apply replace_refused_spec; assumption.
    + (* OCrashIn *) contradiction.
  - (* no replica open: everything but OCreate and OOpen is refused or does nothing *)
    destruct o; cbn [op_prog]; try (apply sspec_ret; [exact Hinv | exact Hrec | auto]).
    + (* OCreate on an existing volume *) apply create_existing_sspec; assumption.
    + (* OOpen *) apply open_sspec; assumption.
Qed.

Definition plain (o : op) : Prop := match o with OCrashIn _ _ => False | _ => True end.

Definition ok_step (g : cfg) (s : st) (o : op) : Prop :=
  match o with
  | OCrashIn _ o' => plain o' /\ ok_op g s o'
  | _ => ok_op g s o
  end.

Fixpoint ok_hist (g : cfg) (s : st) (os : list op) : Prop :=
  match os with
  | [] => True
  | o :: t => ok_step g s o /\ ok_hist g (fst (fst (step g s o))) t
  end.

Lemma plain_not_crash : forall o, plain o -> forall k' o', o <> OCrashIn k' o'.
Proof. intros o H k' o' E. subst o. exact H. Qed.

Lemma step_plain : forall g s o, InvS g s -> plain o -> ok_op g s o ->
  exists v vp s' r k,
    step g s o = (s', result_of r, k)
    /\ recover g (s_fs s) = Some v /\ recover g (s_fs s') = Some vp /\ InvS g s'
    /\ Atomic g v vp (op_prog g (s_mem s) o) (s_fs s)
    /\ (r <> Ok -> vp = v /\ s_mem s' = s_mem s).
Proof.
  intros g s o Hinv Hpl Hok.
  destruct (step_sspec g s o Hinv Hok) as [v [Hrec [w' [om' [r [k [vp [Hff [Hinv' [Hrec' [Hst Hr]]]]]]]]]]].
  exists v, vp, (mkst w' om'), r, k. split; [exact (step_ff g s o w' om' r k (plain_not_crash o Hpl) Hff) | auto 6].
Qed.

Lemma crash_state : forall g s o k,
  InvS g s -> plain o -> ok_op g s o ->
  exists vpre vpost vk,
    recover g (s_fs s) = Some vpre
    /\ recover g (s_fs (fst (fst (step g s o)))) = Some vpost
    /\ recover g (dir_of_run (exec (op_prog g (s_mem s) o) (s_fs s) 0 (Some k) None)) = Some vk
    /\ (veq vk vpre \/ veq vk vpost)
    /\ wf_view vk /\ ids_fresh (dir_of_run (exec (op_prog g (s_mem s) o) (s_fs s) 0 (Some k) None)).
Proof.
  intros g s o k Hinv Hpl Hok.
  destruct (step_plain g s o Hinv Hpl Hok) as [v [vp [s' [r [k0 [Hstep [Hr [Hr' [Hinv' [Hat _]]]]]]]]]].
  rewrite Hstep. cbn [fst].
  pose proof (crash_in_states _ (op_prog g (s_mem s) o) (s_fs s) k) as Hin.
  destruct (proj1 (Forall_forall _ _) Hat _ Hin) as [vk [Hk1 Hk2]].
  exists v, vp, vk. split; [exact Hr |]. split; [exact Hr' |]. split; [exact Hk1 |]. split; [exact Hk2 |]. split.
  - destruct Hk2 as [E | E]; (eapply wf_view_veq; [exact E |]); [exact (InvS_wf g s v Hinv Hr) | exact (InvS_wf g s' vp Hinv' Hr')].
  - destruct Hinv as [v0 [_ [_ [Hfr0 _]]]]. exact (proj1 (Forall_forall _ _) (states_fresh _ _ _ Hfr0) _ Hin).
Qed.

Theorem step_inv : forall g s o, InvS g s -> ok_step g s o -> InvS g (fst (fst (step g s o))).
Proof.
  intros g s o Hinv Hok.
  assert (Hp : plain o -> InvS g (fst (fst (step g s o)))).
  { intros Hpl. destruct (step_plain g s o Hinv Hpl) as [v [vp [s' [r [k [Hstep [_ [_ [Hinv' _]]]]]]]]];
      [destruct o; try exact Hok; contradiction | rewrite Hstep; exact Hinv']. }
  destruct o; try (apply Hp; exact I). clear Hp.
  (* a process death inside o *)
  destruct Hok as [Hpl Hok]. cbn [step].
  destruct (crash_state g s o k Hinv Hpl Hok) as [vpre [vpost [vk [_ [_ [Hk [_ [Hwf Hfr]]]]]]]].
  destruct (exec (op_prog g (s_mem s) o) (s_fs s) 0 (Some k) None) as [[wx tx] ox].
  exists vk. split; [exact Hk | split; [exact Hwf | split; [exact Hfr | exact I]]].
Qed.

Lemma run_ops_app : forall g s a b, run_ops g s (a ++ b) = run_ops g (run_ops g s a) b.
Proof. intros g s a. revert s. induction a as [| o t IH]; intros s b; [reflexivity |]. cbn [app run_ops]. apply IH. Qed.

Theorem hist_inv : forall g os s, InvS g s -> ok_hist g s os -> InvS g (run_ops g s os).
Proof.
  intros g os. induction os as [| o t IH]; intros s Hinv Hok; [exact Hinv |].
  cbn [run_ops ok_hist] in *. destruct Hok as [H1 H2]. apply IH; [apply step_inv; assumption | exact H2].
Qed.

(** the state right after Server.Create on an empty directory (not Model's [created w n], which it shadows
    from here on) *)
Definition created (g : cfg) (size now : N) : st := fst (fst (step g init (OCreate size now))).

(** below 2 the length test of createDisk refuses the initial head: Create leaves no volume *)
Definition cfg_ok (g : cfg) : Prop := 2 <= maxlen g.

Lemma created_inv : forall g size now, cfg_ok g -> size <> 0%N -> InvS g (created g size now).
Proof.
  intros g size now Hcfg Hsz. unfold cfg_ok in Hcfg.
  assert (Hfr : ids_fresh (s_fs (created g size now))).
  { unfold created, step, run. rewrite exec_ff.
    destruct (snd (ff _ _)) as [[[om e] n] | |]; apply ff_fresh; intros n0 id gn H; discriminate. }
  destruct g as [ml fx fd fr fc fch fm]. cbn [maxlen] in Hcfg.
  destruct ml as [| [| ml]]; try lia. destruct size as [| p]; [congruence |].
  (* creation evaluates once [fixed] and [fix_dup] are known: of the flags only these two are tested on its path *)
  assert (Hmem : s_mem (created (mkcfg (S (S ml)) fx fd fr fc fch fm) (N.pos p) now) = None).
  { destruct fx, fd; vm_compute; reflexivity. }
  assert (Hrec : exists v, recover (mkcfg (S (S ml)) fx fd fr fc fch fm) (s_fs (created (mkcfg (S (S ml)) fx fd fr fc fch fm) (N.pos p) now)) = Some v
                          /\ wf_view v).
  { destruct fx, fd; (eexists; split; [vm_compute; reflexivity |]);
      (exists 0, 1%N, (mkdisk None false false now 1), []; cbn [cv_chain cv_info];
       repeat split; try reflexivity; repeat constructor; cbn; tauto). }
  destruct Hrec as [v [Hr Hw]]. exists v. rewrite Hmem. repeat split; assumption.
Qed.

(** ReplaceDisk is the exception: only its refusals are inside [ok_op] (its successful runs are
    exercised by the correspondence runs of the check, not by the invariant theorem) *)
Definition norepl (o : op) : Prop :=
  match o with OReplace _ _ => False | OCrashIn _ (OReplace _ _) => False | _ => True end.

Lemma ok_op_repaired : forall g s o,
  fix_dup g = true -> fix_rev g = true -> fix_children g = true -> InvS g s -> plain o -> norepl o -> ok_op g s o.
Proof.
  intros g [w om] o H1 H2 H3 [v [Hrec [Hwf [Hfr Hmem]]]] Hpl Hnr. unfold ok_op. cbn [s_fs s_mem] in *. rewrite Hrec.
  destruct o; try exact I; try contradiction; destruct om as [m |]; try exact I.
  - destruct Hmem as [[_ [_ [_ [Hfix _]]]] _]. split; [left; exact H1 | intros Hn; apply Hfix; assumption].
  - left. exact H2.
Qed.

Definition shape_ok (o : op) : Prop := match o with OCrashIn _ o' => plain o' | _ => True end.

Lemma ok_hist_repaired : forall g os s,
  cfg_ok g -> fix_dup g = true -> fix_rev g = true -> fix_children g = true ->
  InvS g s -> Forall shape_ok os -> Forall norepl os -> ok_hist g s os.
Proof.
  intros g os. induction os as [| o t IH]; intros s Hcfg H1 H2 H3 Hinv Hsh Hnr; [exact I |].
  inversion Hsh as [| ? ? Ho Ht]; subst. inversion Hnr as [| ? ? Hno Hnt]; subst. cbn [ok_hist].
  assert (Hstep : ok_step g s o).
  { destruct o; cbn [ok_step shape_ok] in *; try (apply ok_op_repaired; assumption || exact I).
    split; [exact Ho | apply ok_op_repaired; try assumption]. destruct o; try exact I; contradiction. }
  split; [exact Hstep |]. apply IH; try assumption. apply step_inv; assumption.
Qed.

(** ** the theorems of C12 and C08 over reachable states *)

Theorem C12_wf_thm : forall g size now os,
  cfg_ok g -> size <> 0%N -> ok_hist g (created g size now) os ->
  InvS g (run_ops g (created g size now) os).
Proof. intros. apply hist_inv; [apply created_inv; assumption | assumption]. Qed.

Theorem refused_unchanged : forall g s o,
  cfg_ok g -> InvS g s -> plain o -> ok_op g s o ->
  snd (fst (step g s o)) <> ResOk ->
  recover g (s_fs (fst (fst (step g s o)))) = recover g (s_fs s) /\ s_mem (fst (fst (step g s o))) = s_mem s.
Proof.
  intros g s o Hcfg Hinv Hpl Hok.
  destruct (step_plain g s o Hinv Hpl Hok) as [v [vp [s' [r [k [Hstep [Hrec [Hrec' [_ [_ Hr]]]]]]]]]].
  rewrite Hstep. cbn [fst snd]. intros Hne.
  destruct Hr as [E1 E2]; [intro E; subst r; apply Hne; reflexivity |]. subst vp. rewrite Hrec, Hrec'. auto.
Qed.

(** close ([how = true]) or process death between operations, then open *)
Theorem reopen_roundtrip : forall g w m (how : bool),
  cfg_ok g -> InvS g (mkst w (Some m)) ->
  let s1 := fst (fst (step g (mkst w (Some m)) (if how then OClose else OCrash))) in
  let s2 := fst (fst (step g s1 OOpen)) in
  exists v v2 m2,
    recover g w = Some v /\ recover g (s_fs s2) = Some v2 /\ veq v v2
    /\ snd (fst (step g s1 OOpen)) = ResOk
    /\ s_mem s2 = Some m2 /\ mchain g m2 = Some (names_of_chain (cv_chain v))
    /\ (forall d, m_disks m2 d = option_map mb_disk (find_mb d (cv_chain v2))).
Proof.
  intros g w m how Hcfg Hinv s1 s2.
  pose proof Hinv as [v [Hrec [Hwf [Hfr [Hag Hh]]]]]. cbn [s_fs s_mem] in *.
  (* the state after close / death: same chain, volume.meta possibly rewritten *)
  assert (H1 : exists w1 v1, s1 = mkst w1 None /\ recover g w1 = Some v1 /\ wf_view v1 /\ ids_fresh w1 /\ veq v v1).
  { subst s1. destruct how.
    - destruct (close_replica_ctx g w v m (mkctx g w v m Hrec Hwf Hag Hfr Hh)) as [[Hff _] Hc'].
      eexists _, _. split; [| split; [apply Hc' | split; [apply Hc' | split; [apply Hc' |]]]].
      + erewrite step_ff; [reflexivity | intros; discriminate |]. cbn [op_prog s_mem s_fs].
        rewrite (ff_bind_done Hff). reflexivity.
      + split; [| apply Forall2_refl; apply member_sim_refl]. destruct Hag as [[B1 [B2 [B3 [B4 [B5 B6]]]]] _].
        cbn [cv_info]. repeat split; cbn; congruence.
    - exists w, v. split; [reflexivity |]. repeat split; try assumption. apply veq_refl. }
  destruct H1 as [w1 [v1 [Es1 [Hr1 [Hwf1 [Hfr1 Hveq1]]]]]].
  destruct (open_spec g w1 v1 Hr1 Hwf1 Hfr1) as [wF [mF [vF [_ [Hstep [HctxF [HveqF _]]]]]]].
  subst s2. rewrite Es1, Hstep. cbn [fst snd s_fs s_mem].
  assert (Hveq : veq v vF) by (eapply veq_trans; eassumption).
  exists v, vF, mF. split; [exact Hrec |]. split; [apply HctxF |]. split; [exact Hveq |].
  split; [reflexivity |]. split; [reflexivity |]. split; [| apply (cx_ag _ _ _ _ HctxF)].
  rewrite (mchain_of_ctx g wF vF mF HctxF). f_equal. symmetry. apply veq_names. exact Hveq.
Qed.

(** the C08 kill oracle at the level of views ([C08_kill_reopen]) *)
Theorem kill_reopen_model : forall g s o k,
  cfg_ok g -> InvS g s -> plain o -> ok_op g s o ->
  let w' := dir_of_run (exec (op_prog g (s_mem s) o) (s_fs s) 0 (Some k) None) in
  let s2 := fst (fst (step g (mkst w' None) OOpen)) in
  exists vpre vpost v2 m2,
    recover g (s_fs s) = Some vpre
    /\ recover g (s_fs (fst (fst (step g s o)))) = Some vpost
    /\ snd (fst (step g (mkst w' None) OOpen)) = ResOk
    /\ recover g (s_fs s2) = Some v2 /\ (veq v2 vpre \/ veq v2 vpost)
    /\ s_mem s2 = Some m2 /\ mchain g m2 = Some (names_of_chain (cv_chain v2)).
Proof.
  intros g s o k Hcfg Hinv Hpl Hok w' s2.
  destruct (crash_state g s o k Hinv Hpl Hok) as [vpre [vpost [vk [H1 [H2 [Hk [Hv [Hwfk Hfrk]]]]]]]].
  fold w' in Hk, Hfrk.
  destruct (open_spec g w' vk Hk Hwfk Hfrk) as [wF [mF [vF [_ [Hstep [HctxF [HveqF _]]]]]]].
  subst s2. rewrite Hstep. cbn [fst snd s_fs s_mem].
  exists vpre, vpost, vF, mF. split; [exact H1 |]. split; [exact H2 |]. split; [reflexivity |].
  split; [apply HctxF |]. split.
  - destruct Hv as [E | E]; [left | right]; (eapply veq_trans; [apply veq_sym; exact HveqF | exact E]).
  - split; [reflexivity |]. apply (mchain_of_ctx g wF vF mF HctxF).
Qed.

(** ** a Snapshot / Resize / SetCheckpoint that does not return success leaves the memory as it was *)

Definition mem_guarded (o : op) : Prop :=
  match o with OSnap _ _ _ | OResize _ | OCheckpoint _ => True | _ => False end.

(** Whatever happens inside: a refusal, any call failing ([fa]), any later crash point ([ca]).  No invariant is
    needed: with [fix_mem g = true] [op_prog] puts the three bodies under [keepold]. *)
Theorem failed_unchanged : forall g w m o cnt ca fa om r n,
  fix_mem g = true -> mem_guarded o ->
  out_of_run (exec (op_prog g (Some m) o) w cnt ca fa) = Done (om, r, n) -> r <> Ok -> om = Some m.
Proof.
  intros g w m o cnt ca fa om r n Hfm Hg Hout Hr.
  assert (Hgen : forall p : prog (mem * res),
            out_of_run (exec (lift (keepold g m p)) w cnt ca fa) = Done (om, r, n) -> om = Some m).
  { intros p H. rewrite exec_lift, exec_keepold in H. destruct (exec p w cnt ca fa) as [[w1 t] o'].
    unfold out_of_run in H. cbn [snd] in H. destruct o' as [[m' r'] | |]; cbn [map_outcome] in H; try discriminate.
    unfold keep_old in H. rewrite Hfm in H. cbn [snd andb] in H.
    destruct (negb (is_ok r')) eqn:E; cbn [fst snd] in H; inversion H; subst; [reflexivity |].
    exfalso. apply Hr. destruct r; try discriminate; reflexivity. }
  destruct o; try contradiction; cbn [op_prog] in Hout; eapply Hgen; exact Hout.
Qed.

(** ** C08_durable: after the last directory change of a successful operation the directory is synced *)

(** the lint of Corr.v, call by call: [pending] after a call *)
Definition cpend (pd : bool) (c : call) : bool :=
  match c with
  | CFsyncDir => false
  | _ => pd || existsb changes_dir (map sys_code (sys_of_call c))
  end.

Definition codes_of_trace (t : trace) : list (N * N * N) :=
  flat_map (fun cr => map sys_code (sys_of_call (fst cr))) t.

Lemma sys_trace_codes : forall t i, map snd (sys_trace i t) = codes_of_trace t.
Proof.
  induction t as [| [c r] t IH]; intros i; [reflexivity |].
  cbn [sys_trace codes_of_trace flat_map fst]. rewrite map_app, IH. f_equal.
  rewrite map_map. cbn [snd]. reflexivity.
Qed.

Fixpoint pend_of_trace (pd : bool) (t : trace) : bool :=
  match t with [] => pd | (c, _) :: t' => pend_of_trace (cpend pd c) t' end.

(** a sync code (tag 9) is only ever produced right after the open-directory code of the same call *)
Lemma durable_from_call : forall c pd prev rest,
  exists prev', durable_from pd prev (map sys_code (sys_of_call c) ++ rest) = durable_from (cpend pd c) prev' rest.
Proof.
  intros c pd prev rest.
  destruct c; cbn [sys_of_call map app durable_from cpend existsb];
    try (eexists; reflexivity);
    try (destruct prev as [[t0 a0] b0]; eexists; cbn [is_dirsync sys_code changes_dir];
         rewrite ?Bool.andb_false_r, ?Bool.orb_false_r; cbn; rewrite ?Bool.orb_false_r; reflexivity).
Qed.

Lemma durable_from_trace : forall t pd prev,
  exists prev', durable_from pd prev (codes_of_trace t) = durable_from (pend_of_trace pd t) prev' [].
Proof.
  induction t as [| [c r] t IH]; intros pd prev; [exists prev; reflexivity |].
  cbn [codes_of_trace flat_map fst pend_of_trace]. fold (codes_of_trace t).
  destruct (durable_from_call c pd prev (codes_of_trace t)) as [p1 H1]. rewrite H1. apply IH.
Qed.

(** [pd]: whether a directory change is still unsynced *)
Fixpoint durP {A} (Q : A -> bool -> Prop) (pd : bool) (p : prog A) : Prop :=
  match p with
  | Ret a => Q a pd
  | Abort _ => True
  | Do c k => forall r, possible c r -> durP Q (cpend pd c) (k r)
  end.

Lemma durP_bind : forall A B (Q : A -> bool -> Prop) (R : B -> bool -> Prop) (p : prog A) (f : A -> prog B) pd,
  durP Q pd p -> (forall a pd', Q a pd' -> durP R pd' (f a)) -> durP R pd (bind p f).
Proof.
  induction p as [a | e | c k IH]; intros f pd Hp Hf; cbn [bind durP] in *; auto.
Qed.

Lemma durP_weaken : forall A (Q R : A -> bool -> Prop) (p : prog A) pd,
  (forall a pd', Q a pd' -> R a pd') -> durP Q pd p -> durP R pd p.
Proof. induction p as [a | e | c k IH]; intros pd HQR Hp; cbn [durP] in *; auto. Qed.

Lemma durP_ff : forall A (Q : A -> bool -> Prop) (p : prog A) w pd a,
  durP Q pd p -> snd (ff p w) = Done a -> Q a (pend_of_trace pd (fftr p w)).
Proof.
  induction p as [a' | e | c k IH]; intros w pd a Hp Hd; cbn [ff fftr durP pend_of_trace] in *.
  - inversion Hd; subst. exact Hp.
  - discriminate.
  - destruct (apply_call w c) as [w1 r] eqn:Hc. cbn [pend_of_trace].
    apply IH; [apply Hp; exists w; rewrite Hc; reflexivity | exact Hd].
Qed.

Lemma durP_true : forall A (p : prog A) pd, durP (fun _ _ => True) pd p.
Proof. induction p as [a | e | c k IH]; intros pd; cbn [durP]; auto. Qed.

Lemma durP_skip : forall A B (R : B -> bool -> Prop) (p : prog A) (f : A -> prog B) pd,
  (forall a pd', durP R pd' (f a)) -> durP R pd (bind p f).
Proof. intros A B R p f pd H. eapply durP_bind; [apply durP_true | intros a pd' _; apply H]. Qed.

Definition Qok (e : res) (pd : bool) : Prop := e = Ok -> pd = false.

Lemma dp_sync : forall pd, durP (fun e pd' => e = Ok /\ pd' = false) pd sync_dir.
Proof. intros pd. cbn. intros r [w0 <-]. cbn. auto. Qed.

Lemma dp_encode : forall g c n pd, durP Qok pd (encode_to_file g c n).
Proof.
  intros g c n pd. unfold encode_to_file. cbn [durP]. intros r1 _.
  destruct (is_err r1); [discriminate |]. cbn [durP]. intros r2 _.
  destruct (fixed g && is_err r2); [discriminate |]. cbn [durP]. intros r3 _.
  destruct (is_err r3); [discriminate |]. cbn [durP]. intros r4 _.
  destruct (is_err r4); [discriminate |].
  eapply durP_weaken; [| apply dp_sync]. intros a pd' [_ H] _. exact H.
Qed.

Lemma unlink_reply : forall n r, possible (CUnlink n) r -> enoent_or_ok r = true.
Proof. intros n r [w0 <-]. cbn. destruct (files w0 n); reflexivity. Qed.

Lemma dp_rm_some : forall x pd, durP (fun e pd' => e = Ok /\ pd' = false) pd (rm_disk (Some x)).
Proof.
  intros x pd. unfold rm_disk. cbn [durP]. intros r1 H1. rewrite (unlink_reply _ _ H1). cbn [negb durP].
  intros r2 H2. rewrite (unlink_reply _ _ H2). apply dp_sync.
Qed.

Lemma dp_rm : forall d pd, pd = false -> durP (fun e pd' => pd' = false) pd (rm_disk d).
Proof.
  intros d pd Hpd. destruct d as [x |]; [| cbn; exact Hpd].
  eapply durP_weaken; [| apply dp_rm_some]. intros a pd' [_ H]. exact H.
Qed.

Lemma dp_link : forall old new pd, pd = false -> durP Qok pd (link_disk old new).
Proof.
  intros old new pd Hpd. destruct old as [o |]; [| cbn; intros _; exact Hpd]. destruct new as [nw |]; [| discriminate].
  unfold link_disk. cbn [durP]. intros r1 _. destruct (negb (is_err r1)); [discriminate |].
  cbn [durP]. intros r2 _. destruct (negb (is_err r2)); [discriminate |].
  cbn [durP]. intros r3 _. destruct (is_err r3); [discriminate |].
  cbn [durP]. intros r4 _. destruct (is_err r4); [discriminate |].
  eapply durP_weaken; [| apply dp_sync]. intros a pd' [_ H] _. exact H.
Qed.

Definition Qop {M} (a : M * res) (pd : bool) : Prop := snd a = Ok -> pd = false.

Lemma dp_cleanup : forall nh snap (m' : mem) e pd, e <> Ok -> durP Qop pd (cd_cleanup nh snap m' e).
Proof.
  intros nh snap m' e pd He. unfold cd_cleanup. apply durP_skip. intros _ pd1. apply durP_skip. intros _ pd2 H. destruct (He H).
Qed.

Lemma dp_cd_commit : forall g ma old snap nh nd pd, durP Qop pd (cd_commit g ma old snap nh nd).
Proof.
  intros g ma old snap nh nd pd. unfold cd_commit.
  eapply durP_bind; [apply dp_encode |]. intros e5 pd1 H5. destruct e5; cbn [is_ok res_eqb negb].
  { eapply durP_bind; [apply dp_rm; apply H5; reflexivity |]. intros x pd2 H2 _. exact H2. }
  all: destruct (fix_commit g); [| apply dp_cleanup; discriminate].
  all: cbn [durP]; intros rv _; destruct rv as [| | | [iv | | | |] |]; try (apply dp_cleanup; discriminate).
  all: destruct (odname_eqb (i_head iv) (Some nh)); [| apply dp_cleanup; discriminate].
  all: apply durP_skip; intros _ pd2; discriminate.
Qed.

Lemma dp_create_disk : forall g m s user cr pd, durP Qop pd (create_disk g m s user cr).
Proof.
  intros g m s user cr pd. unfold create_disk.
  apply durP_skip. intros e0 pd0. destruct (negb (is_ok e0)); [discriminate |].
  destruct (Nat.ltb _ _); [discriminate |]. destruct (fix_dup g && _); [discriminate |].
  apply durP_skip. intros [[nhn nd] e1] pd1. destruct (negb (is_ok e1)); [apply durP_skip; intros _ pd2; discriminate |].
  destruct nhn as [nh |]; [| discriminate].
  unfold cd_link. apply durP_skip. intros e2 pd2. destruct e2; cbn [is_ok res_eqb negb]; try (apply dp_cleanup; discriminate).
  apply durP_skip. intros [ma e4] pd3. destruct e4; cbn [is_ok res_eqb negb]; try (apply dp_cleanup; discriminate).
  apply dp_cd_commit.
Qed.

Lemma dp_remove_diff_disk : forall g m d pd, durP Qop pd (remove_diff_disk g m d).
Proof.
  intros g m d pd. destruct (remove_diff_disk_cases g m d) as [-> | [_ [_ ->]]]; [discriminate |].
  apply durP_skip. intros [m1 e1] pd1. destruct e1; cbn [is_ok res_eqb negb]; try discriminate.
  eapply durP_bind; [apply dp_rm_some |]. intros e2 pd2 [_ H2] _. exact H2.
Qed.

Lemma dp_replace_disk : forall g m t src pd, durP Qop pd (replace_disk g m t src).
Proof.
  intros g m t src pd. unfold replace_disk.
  destruct (negb (mode_eqb (m_mode m) RW)); [discriminate |].
  destruct (odname_eqb (Some t) _); [discriminate |].
  apply durP_skip. intros e0 pd0. destruct e0; cbn [is_ok res_eqb negb]; try discriminate.
  apply durP_skip. intros [m1 e1] pd1. destruct e1; cbn [is_ok res_eqb negb]; try discriminate.
  eapply durP_bind; [apply dp_rm_some |]. intros e2 pd2 [_ H2].
  destruct (negb (is_ok e2)); [exact I | intros _; exact H2].
Qed.

Lemma dp_construct : forall g size now pd, durP (fun a pd' => snd a = Ok -> pd' = false) pd (construct g size now).
Proof.
  intros g size now pd. unfold construct. cbn [durP]. intros rm _.
  destruct (match rm with RErr EEXIST => false | RErr _ => true | _ => false end); [discriminate |].
  apply durP_skip. intros oc pd1. destruct oc as [cache |]; [| discriminate].
  apply durP_skip. intros [[m1 ex] e1] pd2. destruct (negb (is_ok e1)); [discriminate |].
  apply durP_skip. intros [m2 e2] pd3. destruct (negb (is_ok e2)); [discriminate |].
  destruct (i_head (m_info m2)); [| exact I]. destruct (m_disks m2 d); [| exact I].
  eapply durP_bind; [apply dp_encode |]. intros e3 pd4 H3.
  destruct e3; cbn [is_ok res_eqb]; try discriminate. intros _. apply H3. reflexivity.
Qed.

Lemma dp_revert : forall g m parent cr pd, durP Qop pd (revert_disk g m parent cr).
Proof.
  intros g m parent cr pd. unfold revert_disk.
  destruct (fix_rev g && _); [discriminate |].
  cbn [durP]. intros rs _. destruct (is_err rs); [discriminate |].
  apply durP_skip. intros [[nhn nd] e1] pd1. destruct (negb (is_ok e1)); [discriminate |].
  apply durP_skip. intros e2 pd2. destruct (negb (is_ok e2)); [apply durP_skip; intros _ pd3; discriminate |].
  apply durP_skip. intros e3 pd3. destruct (negb (is_ok e3)); [discriminate |].
  eapply durP_bind; [apply dp_construct |]. intros [om e4] pd4 H4.
  destruct om as [mn |]; [| discriminate]. destruct e4; cbn [is_ok res_eqb]; try discriminate. intros _. apply H4. reflexivity.
Qed.

Lemma dp_vol_only : forall g i (k : res -> prog (mem * res)) pd,
  (forall e pd', (e = Ok -> pd' = false) -> durP Qop pd' (k e)) ->
  durP Qop pd (e <- encode_to_file g (IVol i) Vol ;; k e).
Proof. intros g i k pd Hk. eapply durP_bind; [apply dp_encode |]. intros e pd' H. apply Hk. exact H. Qed.

Lemma durP_no_change : forall A (Q : A -> bool -> Prop) (p : prog A),
  (forall pd, durP (fun a pd' => pd' = pd) pd p) -> True.
Proof. auto. Qed.

Lemma dp_lift : forall (p : prog (mem * res)) pd,
  durP Qop pd p -> durP (fun a pd' => snd (fst a) = Ok -> pd' = false) pd (lift p).
Proof. intros p pd Hp. unfold lift. eapply durP_bind; [exact Hp |]. intros [m e] pd' H. exact H. Qed.

Lemma dp_keepold : forall g m0 (p : prog (mem * res)) pd, durP Qop pd p -> durP Qop pd (keepold g m0 p).
Proof.
  intros g m0 p pd Hp. unfold keepold. eapply durP_bind; [exact Hp |]. intros a pd' H. cbn [durP]. unfold Qop in *.
  rewrite keep_old_res. exact H.
Qed.

Lemma dp_write_at : forall m, durP Qop false (write_at m).
Proof.
  intros m. unfold write_at. cbn [m_mode set_info]. destruct (m_mode m); try discriminate.
  - destruct (i_head _); [| discriminate]. cbn [durP]. intros r _.
    destruct (is_err r); [discriminate |]. cbn [durP]. intros r2 _.
    destruct (is_err r2); [discriminate | intros _; reflexivity].
  - destruct (i_head _); [| discriminate]. cbn [durP]. intros r _.
    destruct (is_err r); [discriminate | intros _; reflexivity].
Qed.

Lemma dp_prepare_remove_disk : forall g m d,
  durP (fun a pd' => snd (fst a) = Ok -> pd' = false) false (prepare_remove_disk g m d).
Proof.
  intros g m d. unfold prepare_remove_disk. destruct (negb (mode_eqb (m_mode m) RW)); [cbn; reflexivity |].
  destruct (match m_disks m d with Some x => Some (d, x) | None => _ end) as [[d1 data] |]; [| cbn; reflexivity].
  destruct (odname_eqb (Some d1) _); [discriminate |]. destruct (odname_eqb _ (Some d1)); [discriminate |].
  destruct (d_parent data); [| discriminate].
  cbn [durP]. intros r1 _. destruct (is_err r1); [discriminate |]. cbn [durP]. intros r2 _.
  destruct (is_err r2); [discriminate |].
  eapply durP_bind; [apply dp_encode |]. intros e pd' H. destruct e; cbn [is_ok res_eqb negb]; try discriminate.
  destruct (m_disks _ d0); [intros _; apply H; reflexivity | discriminate].
Qed.

Lemma dp_resize : forall g m sz pd, durP Qop pd (resize g m sz).
Proof.
  intros g m sz pd. unfold resize. destruct (mchain g m); [| discriminate]. destruct (N.ltb sz _); [discriminate |].
  apply durP_skip. intros okf pd'. destruct (negb okf); [discriminate |]. apply dp_vol_only. intros e pd1 H. exact H.
Qed.

Lemma dp_set_checkpoint : forall g m c pd, durP Qop pd (set_checkpoint g m c).
Proof. intros g m c pd. apply dp_vol_only. intros e pd' H. exact H. Qed.

Lemma dp_set_rebuilding : forall g m b pd, durP Qop pd (set_rebuilding g m b).
Proof.
  intros g m b pd. apply dp_vol_only. intros e pd' H. destruct e; cbn [is_ok res_eqb]; try discriminate. exact H.
Qed.

Lemma dp_close : forall g m, durP (fun a pd' => snd (fst a) = Ok -> pd' = false) false (op_prog g (Some m) OClose).
Proof.
  intros g m. eapply durP_bind with (Q := Qop); [apply dp_vol_only; intros e pd' H; exact H |].
  intros [m1 e] pd' H. destruct e; cbn [is_ok res_eqb]; try discriminate. exact H.
Qed.

Lemma dp_open_volume : forall g, durP (fun a pd' => snd (fst a) = Ok -> pd' = false) false (open_volume g).
Proof.
  intros g. unfold open_volume. cbn [durP]. intros rv _. change (cpend false (CReadFile Vol)) with false.
  eapply durP_bind; [apply dp_construct |]. intros [om e] pd' H. exact H.
Qed.

Theorem op_durable : forall g om o,
  (forall sz nw, o <> OCreate sz nw) ->
  durP (fun a pd => snd (fst a) = Ok -> pd = false) false (op_prog g om o).
Proof.
  intros g om o Hnc.
  destruct om as [m |]; destruct o; cbn [op_prog]; try (exfalso; eapply Hnc; reflexivity);
    try (cbn; intros; reflexivity).
  - (* OClose *) apply dp_close.
  - (* OSetMode *) destruct mo as [[| | |] |]; cbn; intros; reflexivity.
  - (* OWrite *) apply dp_lift, dp_write_at.
  - (* OSnap *) apply dp_lift, dp_keepold, dp_create_disk.
  - (* ORemove *) apply dp_lift, dp_remove_diff_disk.
  - (* OPrep *) eapply durP_bind; [apply dp_prepare_remove_disk | intros [[m1 e] n] pd' H; exact H].
  - (* ORevert *) apply dp_lift, dp_revert.
  - (* OResize *) apply dp_lift, dp_keepold, dp_resize.
  - (* OCheckpoint *) apply dp_lift, dp_keepold, dp_set_checkpoint.
  - (* ORebuilding *) destruct b; destruct (mstate m); try discriminate; apply dp_lift, dp_set_rebuilding.
  - (* OReplace *) apply dp_lift, dp_replace_disk.
  - (* OOpen *) apply dp_open_volume.
Qed.

Theorem durable : forall g s o w' om' k,
  plain o -> (forall sz nw, o <> OCreate sz nw) ->
  ff (op_prog g (s_mem s) o) (s_fs s) = (w', Done (om', Ok, k)) ->
  durable_codes (map snd (sys_trace 0 (trace_of_run (run (op_prog g (s_mem s) o) (s_fs s))))) = true.
Proof.
  intros g s o w' om' k Hpl Hnc Hff.
  pose proof (op_durable g (s_mem s) o Hnc) as Hd.
  pose proof (durP_ff _ _ _ (s_fs s) false (om', Ok, k) Hd) as Hq. rewrite Hff in Hq. specialize (Hq eq_refl eq_refl).
  unfold run, trace_of_run. rewrite exec_ff, sys_trace_codes. cbn [fst snd]. unfold durable_codes.
  destruct (durable_from_trace (fftr (op_prog g (s_mem s) o) (s_fs s)) false (0, 0, 0)%N) as [prev' Hp].
  rewrite Hp, Hq. reflexivity.
Qed.

(** ** witnesses against configurations without the repairs (each replayed on the implementation) *)

(** the configuration of the witnesses below: of the repairs only the refusal of duplicate snapshot
    names (/repo 3b20437); the configuration of /repo itself is [code_cfg] of Corr.v *)
Definition cfg_asis (maxlen : nat) : cfg := mkcfg maxlen false true false false false false.

Definition wit_state : st := run_ops (cfg_asis 8) (created (cfg_asis 8) 16384 7) [OOpen; OSetMode (Some RW)].

Definition fault_outcome (g : cfg) (s : st) (o : op) (k : nat) (e : errno) : rclass * bool :=
  let '(w', _, out) := exec (op_prog g (s_mem s) o) (s_fs s) 0 None (Some (k, e)) in
  (out_class out, match recover g w' with Some _ => true | None => false end).

(** [fixed g = false], the encodeToFile that /repo 2b7d891 replaced: the write(2) of volume.meta.tmp fails with
    ENOSPC during a snapshot: Snapshot returns nil and the directory cannot be recovered *)
Theorem fault_refuted_write_ignored :
  InvS (cfg_asis 8) wit_state /\ ok_op (cfg_asis 8) wit_state (OSnap 1 false 1)
  /\ fault_outcome (cfg_asis 8) wit_state (OSnap 1 false 1) 23 ENOSPC = (COk, false)
  /\ fault_outcome (cfg_asis 8) wit_state (OCheckpoint (Some (Snap 1))) 1 ENOSPC = (COk, false).
Proof.
  split; [| split; [| split]].
  - unfold wit_state. apply hist_inv; [apply created_inv; [unfold cfg_ok; cbn; lia | discriminate] |].
    vm_compute. tauto.
  - vm_compute. split; [left; reflexivity | intros _; reflexivity].
  - vm_compute. reflexivity.
  - vm_compute. reflexivity.
Qed.

(** [fix_rev g = false] (/repo 67e4d78 added the test): Revert with the head's own name: an error is returned over
    a directory that cannot be recovered (the memory still shows the old chain) *)
Theorem wf_refuted_revert_target :
  let g := cfg_asis 8 in
  let s := run_ops g wit_state [OSnap 1 false 1] in
  InvS g s /\ snd (fst (step g s (ORevert (Head 1) 5))) = ResFailed
  /\ recover g (s_fs (fst (fst (step g s (ORevert (Head 1) 5))))) = None.
Proof.
  cbn zeta. split; [| split].
  - unfold wit_state. rewrite <- (run_ops_app (cfg_asis 8)). 
    apply hist_inv; [apply created_inv; [unfold cfg_ok; cbn; lia | discriminate] |].
    vm_compute. tauto.
  - vm_compute. reflexivity.
  - vm_compute. reflexivity.
Qed.

(** non-vacuity: a history through every kind of operation meets the hypotheses of the invariant
    theorem; it ends with the chain [Head 4; Snap 1] *)
Example inv_nonvacuous :
  let g := cfg_asis 8 in
  let os := [OOpen; OSetMode (Some RW); OWrite; OSnap 1 true 1; OWrite; OSnap 2 false 2; OSnap 3 false 3;
             OPrep (Snap 2); ORemove (Snap 2); ORevert (Snap 1) 9; OCrashIn 12 (OSnap 5 false 5); OOpen] in
  ok_hist g (created g 16384 7) os
  /\ match s_mem (run_ops g (created g 16384 7) os) with Some m => mchain g m = Some [Head 4; Snap 1] | None => False end.
Proof. vm_compute. repeat split; auto; try (right; left; split; [tauto | discriminate]); try (left; reflexivity). Qed.

(** ** the oracles and the checker functions of Corr.v on the model's own runs *)

(** the C12 oracle on the model's traces of two representative histories (refusals, removal, revert, mark removed,
    process death, reopen); what is proved of it in general is said at the head of Properties/C12.v *)
Example c12_oracle_model_ex1 :
  let u := [Head 0; Head 1; Head 2; Head 3; Head 4; Head 5; Snap 0; Snap 1; Snap 2; Snap 3; Snap 9; Odd 2] in
  let os := [OCreate 16384 7; OOpen; OSetMode (Some RW); OWrite; OSnap 1 true 1; OWrite; OSnap 2 false 2; OSnap 3 false 3;
             OPrep (Snap 2); OPrep (Odd 2); OPrep (Snap 3); OPrep (Snap 9); ORemove (Snap 9); ORemove (Snap 3);
             ORemove (Snap 2); OSnap 1 false 4; ORevert (Snap 9) 5; OResize 8192; OClose; OOpen; OCrash; OOpen] in
  c12_oracle None obs0 os (trace_ops (cfg_asis 8) u init os) = true.
Proof. vm_compute. reflexivity. Qed.

Example c12_oracle_model_ex2 :
  let u := [Head 0; Head 1; Head 2; Head 3; Head 4; Snap 0; Snap 1; Snap 2] in
  let os := [OCreate 16384 7; OOpen; OSetMode (Some WO); OSnap 1 false 1; ORemove (Snap 1); OSetMode (Some RW); OSnap 2 true 2;
             ORevert (Snap 1) 9; OCheckpoint (Some (Snap 1)); ORebuilding true; ORebuilding true; OCrash; OCreate 16384 8; OOpen] in
  c12_oracle None obs0 os (trace_ops (cfg_asis 8) u init os) = true.
Proof. vm_compute. reflexivity. Qed.

Theorem follow_all_ok_states : forall v os,
  follow_all_ok v os =
  forallb (fun w => follow_ok (trace_ops (vc_cfg v) (vc_univ v) (mkst w None) os))
          (s_fs (vic_state v) :: later (vic_prog v) (s_fs (vic_state v))).
Proof.
  intros v os. unfold follow_all_ok, vic_ncalls, run.
  set (p := vic_prog v). set (w0 := s_fs (vic_state v)).
  rewrite exec_ff, <- calls_states.
  assert (C : forall k, (let '(w, _, _) := exec p w0 0 (Some k) None in
                         follow_ok (trace_ops (vc_cfg v) (vc_univ v) (mkst w None) os)) =
                        follow_ok (trace_ops (vc_cfg v) (vc_univ v) (mkst (nth k (states p w0) (last (states p w0) w0)) None) os)).
  { intros k. rewrite <- (crash_prefix _ p w0 0 k). cbn [Nat.add]. destruct (exec p w0 0 (Some k) None) as [[w t'] o']. reflexivity. }
  apply eq_true_iff_eq. rewrite !forallb_forall. split.
  - intros H w Hw. apply states_later in Hw. destruct (In_nth _ _ (last (states p w0) w0) Hw) as (k & Hk & E).
    rewrite <- E, <- C. apply H. apply in_seq. split; [apply Nat.le_0_l | exact Hk].
  - intros H k Hk. apply in_seq in Hk. rewrite C. apply H. apply states_later. apply nth_In. exact (proj2 Hk).
Qed.

(** ** SetCheckpoint with one failing call, call by call *)

(** [fixed g = true]: a failure up to the rename leaves all but the temporary file as it was, a failure of the
    directory sync after it leaves the new volume.meta in place and returns an error.  Nothing uses this one: Fault.v
    has the general [checkpoint_fault_atomic]. *)
Theorem fault_atomic_checkpoint : forall g w m c k e,
  fixed g = true -> InvS g (mkst w (Some m)) ->
  let p := lift (set_checkpoint g m c) in
  let r := exec p w 0 None (Some (k, e)) in
  exists vpre vpost vk,
    recover g w = Some vpre /\ recover g (fst (ff p w)) = Some vpost
    /\ recover g (dir_of_run r) = Some vk /\ (vk = vpre \/ vk = vpost)
    /\ (out_class (out_of_run r) = COk -> vk = vpost).
Proof.
  intros g w m c k e Hfx Hinv p r. destruct Hinv as [v [Hrec [Hwf [Hfr [Hag Hh]]]]]. cbn [s_fs s_mem] in *.
  set (i' := set_checkpoint_info (m_info m) c).
  assert (Hpost : recover g (enc_fs w Vol (IVol i')) = Some (mkview i' (cv_chain v))).
  { apply recover_vol_rewrite; [exact Hrec | subst i'; cbn; apply (agree_head g v m Hag)]. }
  assert (Hpre : forall x, only_on (eq VolTmp) w x -> recover g x = Some v).
  { intros x Hx. eapply recover_only_on; [exact Hrec | exact Hx | intros n <-; apply footprint_voltmp]. }
  assert (Hff : fst (ff p w) = enc_fs w Vol (IVol i')).
  { subst p. unfold lift, set_checkpoint. rewrite ff_bind, ff_bind, ff_encode_vol. reflexivity. }
  exists v, (mkview i' (cv_chain v)). rewrite Hff.
  subst r p. unfold set_checkpoint. rewrite exec_lift, (exec_bind_ret _ _ _ _ (fun e0 => (set_info m i', e0))) by reflexivity.
  fold i'. unfold encode_to_file. rewrite Hfx.
  destruct k as [| [| [| [| [| k]]]]]; cbn [exec hits fails Nat.eqb apply_call is_img tmp_of is_err andb sync_dir];
    rewrite ?set_file_eq; cbn [exec hits fails Nat.eqb apply_call is_img is_err andb sync_dir];
    rewrite ?set_file_eq; cbn [exec hits fails Nat.eqb apply_call is_img is_err andb sync_dir map_outcome dir_of_run out_of_run out_class fst snd].
  1-4: exists v; (split; [exact Hrec | split; [exact Hpost | split; [| split; [left; reflexivity | discriminate]]]]).
  1-4: apply Hpre; intros x Hx; rewrite ?set_file_neq by exact Hx; reflexivity.
  all: exists (mkview i' (cv_chain v)); (split; [exact Hrec | split; [exact Hpost | split; [exact Hpost | split; [right; reflexivity | reflexivity]]]]).
Qed.
