(** * Meta: one failing file-system call ([fault_atomic_all], the statement C08_fault_atomic_partial).

    A run in which call number k fails is the fault-free run up to the state before call k, then the
    fault-free run of that call's continuation applied to the error ([fexec_at]): what is proved about
    fault-free runs (Proofs.v) applies to the error continuations.  An operation that reports a failure at
    once and writes nothing more ([errQ]) stops in a state of its fault-free run, which crash atomicity says
    is good ([tail_fault]).  createDisk cleans up and revertDisk writes the old volume.meta back: there the
    blocks before the commit are taken one by one ([FA_bind]); they and the clean-up write no file of the chain.

    What is concluded, from the inside out.  [FOutP okp g v vpost (w', o)]: the directory [w'] recovers to the old
    or the new view, the new one when the outcome [o] is a success by [okp]; [FOut] and [FOutO] are its instances
    at results [mem * res] and [option mem * res * nat] ([FOutP_R], [FOutP_O]).  [FAP P ex p w]: [P] holds of what
    every failing traced call of [p] leaves, the indices in [ex] excepted; [FA] and [FAO] are [FAP] at [FOut] and
    [FOutO] ([FAO_lift] leads from one to the other) and [FAP_exec] turns them into a statement about [exec] with
    a [fail_at].  [fault_okx X g p w] is that statement with the two views taken from [recover]: of an untraced
    call it claims nothing, of an index past the end of the run it speaks of the fault-free run; [fault_ok]
    excludes no call, [fault_ok11] the call [f11_at].

    Three roads lead there.  (1) [errQ] alone: with the [Atomic] run of the operation's spec, [tail_fault] gives
    [FAP] ([FA_of_errQ], [FAO_bind_ret]), packaged as [fault_ok_ospec] / [fault_ok_sspec]: every operation but
    Snapshot and Revert, and [construct] inside Open.  (2) [errB] with [FA_bind] / [FA_bind_within]: Snapshot
    ([create_disk_fault]) and Revert ([revert_FA]) are cut into the blocks before the commit, the commit
    ([FAP_enc_bind]), and what follows it.  (3) [FAP_do] by hand for a first call whose failure changes what follows
    or ends the operation: the ReadInfo of Open, Create on an existing volume, the stat of Revert. *)
From Coq Require Import List ZArith NArith Bool Arith Lia.
From Jiva Require Import Meta.Model Meta.Corr Meta.Proofs.
Import ListNotations.

(** ** a run in which call j fails ([step_at], [fexec_at]) *)

(** the errnos of C08's quantifier *)
Definition EE (e : errno) : Prop := e = ENOSPC \/ e = EIO.

(** a call the system-call trace shows (stat / close / pread are not system calls the checker can
    make fail; [exec] can fail them too, and of such a run the theorems below say nothing) *)
Definition traced (c : call) : bool := match sys_of_call c with [] => false | _ => true end.

Fixpoint step_at {A} (p : prog A) (w : fs) (j : nat) : option (call * (reply -> prog A) * fs) :=
  match p with
  | Do c k =>
      match j with
      | O => Some (c, k, w)
      | S j' => let '(w1, r) := apply_call w c in step_at (k r) w1 j'
      end
  | _ => None
  end.

Definition ncalls {A} (p : prog A) (w : fs) : nat := length (fftr p w).

Definition fexec {A} (p : prog A) (w : fs) (cnt k : nat) (e : errno) := exec p w cnt None (Some (k, e)).

Lemma fexec_past : forall A (p : prog A) w cnt k e, k < cnt ->
  dir_of_run (fexec p w cnt k e) = fst (ff p w) /\ out_of_run (fexec p w cnt k e) = snd (ff p w).
Proof.
  unfold fexec. induction p as [a | x | c kk IH]; intros w cnt k e Hlt; cbn [exec ff hits fails]; auto.
  replace (Nat.eqb k cnt) with false by (symmetry; apply Nat.eqb_neq; lia).
  destruct (apply_call w c) as [w1 r]. specialize (IH r w1 (S cnt) k e (Nat.lt_lt_succ_r _ _ Hlt)).
  destruct (exec (kk r) w1 (S cnt) None (Some (k, e))) as [[w2 t] o]. exact IH.
Qed.

Lemma fexec_at : forall A (p : prog A) w cnt j e,
  match step_at p w j with
  | Some (c, kont, wk) =>
      dir_of_run (fexec p w cnt (cnt + j) e) = fst (ff (kont (RErr e)) wk)
      /\ out_of_run (fexec p w cnt (cnt + j) e) = snd (ff (kont (RErr e)) wk)
  | None =>
      dir_of_run (fexec p w cnt (cnt + j) e) = fst (ff p w)
      /\ out_of_run (fexec p w cnt (cnt + j) e) = snd (ff p w)
  end.
Proof.
  unfold fexec. induction p as [a | x | c kk IH]; intros w cnt j e; cbn [step_at]; try (cbn; auto).
  destruct j as [| j].
  - cbn [exec hits fails]. replace (cnt + 0) with cnt by lia. rewrite Nat.eqb_refl.
    pose proof (fexec_past _ (kk (RErr e)) w (S cnt) cnt e (Nat.lt_succ_diag_r cnt)) as [H1 H2]. unfold fexec in *.
    destruct (exec (kk (RErr e)) w (S cnt) None (Some (cnt, e))) as [[w2 t] o]. exact (conj H1 H2).
  - cbn [exec ff hits fails]. replace (Nat.eqb (cnt + S j) cnt) with false by (symmetry; apply Nat.eqb_neq; lia).
    destruct (apply_call w c) as [w1 r]. specialize (IH r w1 (S cnt) j e).
    replace (S cnt + j) with (cnt + S j) in IH by lia.
    destruct (step_at (kk r) w1 j) as [[[c' kont] wk] |];
      destruct (exec (kk r) w1 (S cnt) None (Some (cnt + S j, e))) as [[w2 t] o]; exact IH.
Qed.

Lemma step_at_bind : forall A B (p : prog A) (f : A -> prog B) w j,
  step_at (bind p f) w j =
  match step_at p w j with
  | Some (c, kont, wk) => Some (c, fun r => bind (kont r) f, wk)
  | None => match snd (ff p w) with
            | Done a => step_at (f a) (fst (ff p w)) (j - ncalls p w)
            | _ => None
            end
  end.
Proof.
  unfold ncalls. induction p as [a | x | c kk IH]; intros f w j; cbn [bind step_at ff fftr length snd fst].
  - rewrite Nat.sub_0_r. reflexivity.
  - reflexivity.
  - destruct j as [| j]; [reflexivity |]. destruct (apply_call w c) as [w1 r]. cbn [length]. apply IH.
Qed.

Lemma step_at_state : forall A (p : prog A) w j c kont wk,
  step_at p w j = Some (c, kont, wk) -> In wk (states p w).
Proof.
  induction p as [a | x | c kk IH]; intros w j c' kont wk H; cbn [step_at] in H; try discriminate.
  rewrite states_Do. destruct j as [| j].
  - inversion H; subst. left. reflexivity.
  - right. destruct (apply_call w c) as [w1 r]. eapply IH. exact H.
Qed.

Lemma step_at_none_ge : forall A (p : prog A) w j, step_at p w j = None -> ncalls p w <= j.
Proof.
  unfold ncalls. induction p as [a | x | c kk IH]; intros w j H; cbn [step_at fftr length] in *; try lia.
  destruct j as [| j]; [discriminate |]. destruct (apply_call w c) as [w1 r]. cbn [length]. specialize (IH r w1 j H). lia.
Qed.

Lemma step_at_ge : forall A (p : prog A) w j, ncalls p w <= j -> step_at p w j = None.
Proof.
  unfold ncalls. induction p as [a | x | c kk IH]; intros w j H; cbn [step_at fftr length] in *; try reflexivity.
  destruct (apply_call w c) as [w1 r]. cbn [length] in H. destruct j as [| j]; [lia |]. apply IH. lia.
Qed.

Lemma step_at_bind_cases : forall A B (p : prog A) (f : A -> prog B) w j c kont wk,
  step_at (bind p f) w j = Some (c, kont, wk) ->
  (exists kont', step_at p w j = Some (c, kont', wk) /\ kont = fun r => bind (kont' r) f)
  \/ (exists a, snd (ff p w) = Done a /\ ncalls p w <= j
                /\ step_at (f a) (fst (ff p w)) (j - ncalls p w) = Some (c, kont, wk)).
Proof.
  intros A B p f w j c kont wk Hs. rewrite step_at_bind in Hs.
  destruct (step_at p w j) as [[[c' kont'] wk'] |] eqn:Hsp.
  - injection Hs as -> <- ->. left. exists kont'. split; reflexivity.
  - right. destruct (snd (ff p w)) as [a | |]; try discriminate.
    exists a. split; [reflexivity | split; [apply step_at_none_ge; exact Hsp | exact Hs]].
Qed.

Lemma step_at_ret_cont : forall A B (p : prog A) (h : A -> prog B) w j,
  (forall a, exists b, h a = Ret b) ->
  step_at (bind p h) w j = match step_at p w j with
                           | Some (c, kont, wk) => Some (c, fun r => bind (kont r) h, wk)
                           | None => None
                           end.
Proof.
  intros A B p h w j Hh. rewrite step_at_bind. destruct (step_at p w j) as [[[c kont] wk] |]; [reflexivity |].
  destruct (snd (ff p w)) as [a | |]; try reflexivity. destruct (Hh a) as [b Hb]. rewrite Hb. reflexivity.
Qed.

Lemma step_at_only_on : forall A (S : name -> Prop) (p : prog A) w j c kont wk,
  within S p -> step_at p w j = Some (c, kont, wk) -> only_on S w wk.
Proof.
  intros A S p w j c kont wk Hw Hs. pose proof (within_states _ S p w Hw) as H.
  eapply Forall_forall in H; [exact H | eapply step_at_state; exact Hs].
Qed.

Definition call_at {A} (p : prog A) (w : fs) (j : nat) : option call :=
  match step_at p w j with Some (c, _, _) => Some c | None => None end.

Lemma call_at_bind_ret : forall A B (p : prog A) (h : A -> prog B) w j,
  (forall a, exists b, h a = Ret b) -> call_at (bind p h) w j = call_at p w j.
Proof.
  intros A B p h w j Hh. unfold call_at. rewrite (step_at_ret_cont _ _ p h w j Hh).
  destruct (step_at p w j) as [[[c kont] wk] |]; reflexivity.
Qed.

Lemma call_at_bind_ge : forall A B (p : prog A) (f : A -> prog B) w a j,
  snd (ff p w) = Done a -> call_at (bind p f) w (j + ncalls p w) = call_at (f a) (fst (ff p w)) j.
Proof.
  intros A B p f w a j Ha. unfold call_at. rewrite step_at_bind, (step_at_ge _ p w (j + ncalls p w)) by lia.
  rewrite Ha. replace (j + ncalls p w - ncalls p w) with j by lia. reflexivity.
Qed.

Lemma call_at_bind_lt : forall A B (p : prog A) (f : A -> prog B) w j c,
  call_at p w j = Some c -> call_at (bind p f) w j = Some c.
Proof.
  intros A B p f w j c H. unfold call_at in *. rewrite step_at_bind.
  destruct (step_at p w j) as [[[c' k'] w'] |]; [exact H | discriminate].
Qed.

Lemma ff_bind_ret_fst : forall A B (p : prog A) (h : A -> prog B) w,
  (forall a, exists b, h a = Ret b) -> fst (ff (bind p h) w) = fst (ff p w).
Proof.
  intros A B p h w Hh. rewrite ff_bind. destruct (ff p w) as [w' [a | |]]; try reflexivity.
  destruct (Hh a) as [b Hb]. rewrite Hb. reflexivity.
Qed.

Lemma ff_bind_abort : forall A B (x : abort) (f : A -> prog B) w, ff (bind (Abort x) f) w = (w, Aborted x).
Proof. reflexivity. Qed.

Lemma Forall_states_rest : forall A B (P : fs -> Prop) (p : prog A) (f : A -> prog B) w w1 a,
  ff p w = (w1, Done a) -> Forall P (states (bind p f) w) -> Forall P (states (f a) w1).
Proof.
  induction p as [a0 | e | c k IH]; intros f w w1 a Hff H; cbn [ff bind] in *.
  - injection Hff as <- <-. exact H.
  - discriminate.
  - rewrite states_Do in H. destruct (apply_call w c) as [w0 r]. exact (IH r f w0 w1 a Hff (Forall_inv_tail H)).
Qed.

Lemma states_bind_incl : forall A B (p : prog A) (f : A -> prog B) w a x,
  snd (ff p w) = Done a -> In x (states (f a) (fst (ff p w))) -> In x (states (bind p f) w).
Proof.
  intros A B p f w a x Ha. destruct (ff p w) as [w1 o] eqn:Hff. cbn [fst snd] in *. subst o.
  revert x. apply Forall_forall. apply (Forall_states_rest _ _ (fun y => In y (states (bind p f) w)) p f w w1 a Hff).
  apply Forall_forall. auto.
Qed.

(** ** what a failing call leaves: [FOutP], [FAP], [fault_okx] *)

Definition FOut (g : cfg) (v vpost : chainview) (x : fs * outcome (mem * res)) : Prop :=
  exists vk, recover g (fst x) = Some vk /\ (veq vk v \/ veq vk vpost)
             /\ (forall m', snd x = Done (m', Ok) -> veq vk vpost).

Definition okO (a : option mem * res * nat) : Prop := snd (fst a) = Ok.

Definition FOutO (g : cfg) (v vpost : chainview) (x : fs * outcome (option mem * res * nat)) : Prop :=
  exists vk, recover g (fst x) = Some vk /\ (veq vk v \/ veq vk vpost)
             /\ (forall a, snd x = Done a -> okO a -> veq vk vpost).

Definition FOutP {A} (okp : A -> Prop) (g : cfg) (v vpost : chainview) (x : fs * outcome A) : Prop :=
  exists vk, recover g (fst x) = Some vk /\ (veq vk v \/ veq vk vpost)
             /\ (forall a, snd x = Done a -> okp a -> veq vk vpost).

Lemma FOutP_O : forall g v vpost x, FOutP okO g v vpost x <-> FOutO g v vpost x.
Proof. intros. unfold FOutP, FOutO. tauto. Qed.

Lemma FOutP_R : forall g v vpost x, FOutP (fun a : mem * res => snd a = Ok) g v vpost x <-> FOut g v vpost x.
Proof.
  intros g v vpost x. split; intros [vk [H1 [H2 H3]]]; exists vk; (split; [exact H1 | split; [exact H2 |]]).
  - intros m' Hd. exact (H3 (m', Ok) Hd eq_refl).
  - intros [m' r] Hd Hok. cbn in Hok. subst r. exact (H3 m' Hd).
Qed.

Lemma FOutP_post : forall A (okp : A -> Prop) g v vpost x, recover g (fst x) = Some vpost -> FOutP okp g v vpost x.
Proof. intros A okp g v vpost x H. exists vpost. split; [exact H | split; [right; apply veq_refl | intros; apply veq_refl]]. Qed.

Lemma FOut_of_ff : forall g v vpost (p : prog (mem * res)) w w' m' r,
  ff p w = (w', Done (m', r)) -> recover g w' = Some vpost -> (r <> Ok -> vpost = v) ->
  FOut g v vpost (ff p w).
Proof. intros g v vpost p w w' m' r Hff Hrec _. apply FOutP_R, FOutP_post. rewrite Hff. exact Hrec. Qed.

Lemma FOutP_pre : forall A (okp : A -> Prop) g v vpost vk x,
  recover g (fst x) = Some vk -> veq vk v -> (forall a, snd x = Done a -> ~ okp a) -> FOutP okp g v vpost x.
Proof.
  intros A okp g v vpost vk x H Hv Hn. exists vk. split; [exact H | split; [left; exact Hv |]].
  intros a Ha Hok. exfalso. exact (Hn a Ha Hok).
Qed.

Lemma FOutP_bind_ret : forall A B (okp : A -> Prop) (okq : B -> Prop) g v vpost (k : prog A) (h : A -> prog B) w,
  (forall a, exists b, h a = Ret b /\ (okq b -> okp a)) ->
  FOutP okp g v vpost (ff k w) -> FOutP okq g v vpost (ff (bind k h) w).
Proof.
  intros A B okp okq g v vpost k h w Hh [vk [H1 [H2 H3]]]. rewrite ff_bind. destruct (ff k w) as [w' o]. cbn [fst snd] in *.
  exists vk. destruct o as [a | |]; [destruct (Hh a) as [b [Hb Hok]]; rewrite Hb |..]; cbn [ff fst snd];
    (split; [exact H1 | split; [exact H2 |]]); intros b0 Hd; try discriminate.
  injection Hd as <-. intros Hq. exact (H3 a eq_refl (Hok Hq)).
Qed.

Definition FAP {A} (P : fs * outcome A -> Prop) (ex : nat -> Prop) (p : prog A) (w : fs) : Prop :=
  forall j c kont wk e, step_at p w j = Some (c, kont, wk) -> traced c = true -> EE e -> ~ ex j ->
    P (ff (kont (RErr e)) wk).

Lemma FAP_exec : forall A (P : fs * outcome A -> Prop) ex (p : prog A) w k e,
  FAP P ex p w -> P (ff p w) -> EE e ->
  (forall c, call_at p w k = Some c -> traced c = true /\ ~ ex k) ->
  P (dir_of_run (fexec p w 0 k e), out_of_run (fexec p w 0 k e)).
Proof.
  intros A P ex p w k e Hfa Hff He Hc. pose proof (fexec_at _ p w 0 k e) as H. cbn [plus] in H.
  unfold call_at in Hc. destruct (step_at p w k) as [[[c kont] wk] |] eqn:Hs; destruct H as [H1 H2];
    rewrite H1, H2, <- surjective_pairing; [| exact Hff].
  destruct (Hc c eq_refl) as [Ht Hex]. exact (Hfa k c kont wk e Hs Ht He Hex).
Qed.

Lemma FAP_do : forall A (P : fs * outcome A -> Prop) c (k : reply -> prog A) w,
  (traced c = true -> forall e, EE e -> P (ff (k (RErr e)) w)) ->
  FAP P (fun _ => False) (k (snd (apply_call w c))) (fst (apply_call w c)) ->
  FAP P (fun _ => False) (Do c k) w.
Proof.
  intros A P c k w H0 Hk j c' kont wk e Hs Ht He Hex. cbn [step_at] in Hs. destruct j as [| j].
  - injection Hs as <- <- <-. exact (H0 Ht e He).
  - rewrite (surjective_pairing (apply_call w c)) in Hs. exact (Hk j c' kont wk e Hs Ht He Hex).
Qed.

Definition FA (g : cfg) (v vpost : chainview) (ex : nat -> Prop) (p : prog (mem * res)) (w : fs) : Prop :=
  forall j c kont wk e, step_at p w j = Some (c, kont, wk) -> traced c = true -> EE e -> ~ ex j ->
    FOut g v vpost (ff (kont (RErr e)) wk).

Theorem FA_exec : forall g v vpost ex (p : prog (mem * res)) w k e,
  FA g v vpost ex p w -> FOut g v vpost (ff p w) -> EE e ->
  (forall c, call_at p w k = Some c -> traced c = true /\ ~ ex k) ->
  FOut g v vpost (dir_of_run (fexec p w 0 k e), out_of_run (fexec p w 0 k e)).
Proof. intros g v vpost ex p w k e. exact (FAP_exec _ (FOut g v vpost) ex p w k e). Qed.

Lemma FA_ret : forall g v vpost ex a w, FA g v vpost ex (Ret a) w.
Proof. intros g v vpost ex a w j c kont wk e H. discriminate. Qed.

Lemma FA_untraced : forall g v vpost c (k : reply -> prog (mem * res)) w,
  traced c = false -> fst (apply_call w c) = w ->
  FA g v vpost (fun _ => False) (k (snd (apply_call w c))) w -> FA g v vpost (fun _ => False) (Do c k) w.
Proof. intros g v vpost c k w Ht Hw Hk. apply (FAP_do _ (FOut g v vpost)); [intros Hx; congruence | rewrite Hw; exact Hk]. Qed.

Lemma FA_mono : forall g v vpost (ex1 ex2 : nat -> Prop) p w,
  (forall j, ex1 j -> ex2 j) -> FA g v vpost ex1 p w -> FA g v vpost ex2 p w.
Proof. intros g v vpost ex1 ex2 p w H Hfa j c kont wk e Hs Ht He Hex. apply (Hfa j c kont wk e Hs Ht He). intro E. apply Hex. auto. Qed.

Definition FAO (g : cfg) (v vpost : chainview) (ex : nat -> Prop) (p : prog (option mem * res * nat)) (w : fs) : Prop :=
  forall j c kont wk e, step_at p w j = Some (c, kont, wk) -> traced c = true -> EE e -> ~ ex j ->
    FOutO g v vpost (ff (kont (RErr e)) wk).

Theorem FAO_exec : forall g v vpost ex (p : prog (option mem * res * nat)) w k e,
  FAO g v vpost ex p w -> FOutO g v vpost (ff p w) -> EE e ->
  (forall c, call_at p w k = Some c -> traced c = true /\ ~ ex k) ->
  FOutO g v vpost (dir_of_run (fexec p w 0 k e), out_of_run (fexec p w 0 k e)).
Proof. intros g v vpost ex p w k e. exact (FAP_exec _ (FOutO g v vpost) ex p w k e). Qed.

Lemma lift_ret_ok : forall a : mem * res, exists b, (let '(m, e) := a in Ret (Some m, e, O)) = Ret b /\ (okO b -> snd a = Ok).
Proof. intros [m e]. eexists. split; [reflexivity | intros H; exact H]. Qed.

Lemma lift_ret : forall a : mem * res, exists b, (let '(m, e) := a in Ret (Some m, e, O)) = Ret b.
Proof. intros [m e]. eexists. reflexivity. Qed.

Lemma call_at_lift : forall (p : prog (mem * res)) w j, call_at (lift p) w j = call_at p w j.
Proof. intros p w j. exact (call_at_bind_ret _ _ p _ w j lift_ret). Qed.

Lemma FAO_lift : forall g v vpost ex (p : prog (mem * res)) w,
  FA g v vpost ex p w -> FAO g v vpost ex (lift p) w.
Proof.
  intros g v vpost ex p w Hfa j c kont wk e Hs Ht He Hex.
  destruct (step_at_bind_cases _ _ _ _ _ _ _ _ _ Hs) as [[kont' [Hsp ->]] | [[m e0] [_ [_ Hs']]]]; [| discriminate].
  apply FOutP_O. eapply FOutP_bind_ret; [exact lift_ret_ok |]. apply FOutP_R. exact (Hfa j c kont' wk e Hsp Ht He Hex).
Qed.

(** the excluded shape (finding createdisk-sync-after-commit): the failing call is the directory sync that
    immediately follows rename(volume.meta.tmp, volume.meta) *)
Definition f11_at {A} (p : prog A) (w : fs) (j : nat) : Prop :=
  call_at p w j = Some CFsyncDir /\ exists j', j = S j' /\ call_at p w j' = Some (CRename VolTmp Vol).

Lemma f11_shift : forall A B (p : prog A) (f : A -> prog B) w a j,
  snd (ff p w) = Done a -> f11_at (f a) (fst (ff p w)) j -> f11_at (bind p f) w (j + ncalls p w).
Proof.
  intros A B p f w a j Ha [H1 [j' [Hj H2]]]. split.
  - rewrite (call_at_bind_ge _ _ p f w a j Ha). exact H1.
  - exists (j' + ncalls p w). split; [lia |]. rewrite (call_at_bind_ge _ _ p f w a j' Ha). exact H2.
Qed.

Lemma f11_shift_do : forall A c (k : reply -> prog A) w j,
  f11_at (k (snd (apply_call w c))) (fst (apply_call w c)) j -> f11_at (Do c k) w (S j).
Proof.
  intros A c k w j [H1 [j' [Hj H2]]]. unfold f11_at, call_at in *. cbn [step_at].
  destruct (apply_call w c) as [w1 r]. cbn [fst snd] in *. split; [exact H1 |].
  exists (S j'). split; [lia |]. cbn [step_at]. exact H2.
Qed.

Definition fault_okx (X : nat -> Prop) (g : cfg) (p : prog (option mem * res * nat)) (w : fs) : Prop :=
  forall k e, EE e ->
    (forall c, call_at p w k = Some c -> traced c = true /\ ~ X k) ->
    exists vpre vpost,
      recover g w = Some vpre /\ recover g (fst (ff p w)) = Some vpost
      /\ FOutO g vpre vpost (dir_of_run (fexec p w 0 k e), out_of_run (fexec p w 0 k e)).

Definition fault_ok (g : cfg) (p : prog (option mem * res * nat)) (w : fs) : Prop := fault_okx (fun _ => False) g p w.
Definition fault_ok11 (g : cfg) (p : prog (option mem * res * nat)) (w : fs) : Prop := fault_okx (f11_at p w) g p w.

Lemma fault_okx_mono : forall (X Y : nat -> Prop) g p w, (forall j, X j -> Y j) -> fault_okx X g p w -> fault_okx Y g p w.
Proof.
  intros X Y g p w HXY H k e He Hc. apply H; [exact He |]. intros c Hcc. destruct (Hc c Hcc) as [H1 H2].
  split; [exact H1 | intro E; apply H2; apply HXY; exact E].
Qed.

Lemma fault_okx_intro : forall g p w v vpost (ex : nat -> Prop),
  recover g w = Some v -> recover g (fst (ff p w)) = Some vpost -> FAO g v vpost ex p w -> fault_okx ex g p w.
Proof.
  intros g p w v vpost ex Hr Hrp Hfa k e He Hc. exists v, vpost. split; [exact Hr |]. split; [exact Hrp |].
  apply FAO_exec with (ex := ex); try assumption. apply FOutP_O, FOutP_post. exact Hrp.
Qed.

Lemma fault_ok_intro : forall g p w v vpost (ex : nat -> Prop),
  recover g w = Some v -> recover g (fst (ff p w)) = Some vpost ->
  FOutO g v vpost (ff p w) -> FAO g v vpost ex p w -> (forall j, ex j -> False) ->
  fault_ok g p w.
Proof.
  intros g p w v vpost ex Hr Hrp _ Hfa Hex. exact (fault_okx_mono ex _ g p w Hex (fault_okx_intro g p w v vpost ex Hr Hrp Hfa)).
Qed.

Lemma fault_okx_lift : forall g (p : prog (mem * res)) w v vpost (ex : nat -> Prop),
  recover g w = Some v -> recover g (fst (ff p w)) = Some vpost -> FA g v vpost ex p w ->
  fault_okx ex g (lift p) w.
Proof.
  intros g p w v vpost ex Hrec Hrp HFA. apply fault_okx_intro with (v := v) (vpost := vpost); [exact Hrec | | apply FAO_lift; exact HFA].
  unfold lift. rewrite (ff_bind_ret_fst _ _ p _ w lift_ret). exact Hrp.
Qed.

Lemma fault_ok_lift : forall g (p : prog (mem * res)) w v vpost,
  recover g w = Some v -> recover g (fst (ff p w)) = Some vpost ->
  FOut g v vpost (ff p w) -> FA g v vpost (fun _ => False) p w ->
  fault_ok g (lift p) w.
Proof. intros g p w v vpost Hrec Hrp _ HFA. exact (fault_okx_lift g p w v vpost _ Hrec Hrp HFA). Qed.

Lemma fault_ok_ret : forall g a w v, recover g w = Some v -> fault_ok g (Ret a) w.
Proof.
  intros g a w v Hrec. apply fault_okx_intro with (v := v) (vpost := v); [exact Hrec | exact Hrec |].
  intros j c kont wk e Hs. discriminate.
Qed.

(** Snapshot / Resize / SetCheckpoint under [keepold] issue the same calls and leave the same directory as their
    bodies; only the memory inside a non-success outcome differs, which [FOutO] does not look at *)
Lemma keepold_ret : forall g m (a : mem * res), exists b, Ret (keep_old g m a) = Ret b.
Proof. intros. eexists. reflexivity. Qed.

Lemma call_at_keepold : forall g m (p : prog (mem * res)) w j, call_at (lift (keepold g m p)) w j = call_at (lift p) w j.
Proof. intros g m p w j. rewrite !call_at_lift. exact (call_at_bind_ret _ _ p _ w j (keepold_ret g m)). Qed.

Lemma fault_okx_keepold : forall (X X' : nat -> Prop) g m (p : prog (mem * res)) w,
  (forall k, X k -> X' k) ->
  fault_okx X g (lift p) w -> fault_okx X' g (lift (keepold g m p)) w.
Proof.
  intros X X' g m p w HX H k e He Hc.
  destruct (H k e He) as [vpre [vpost [H1 [H2 H3]]]].
  { intros c Hcc. rewrite <- call_at_keepold with (g := g) (m := m) in Hcc. destruct (Hc c Hcc) as [Ht Hn].
    split; [exact Ht | intro E; apply Hn; apply HX; exact E]. }
  exists vpre, vpost. split; [exact H1 |]. split.
  - unfold lift in H2 |- *. rewrite (ff_bind_ret_fst _ _ _ _ w lift_ret) in H2. rewrite (ff_bind_ret_fst _ _ _ _ w lift_ret).
    unfold keepold. rewrite (ff_bind_ret_fst _ _ p _ w (keepold_ret g m)). exact H2.
  - unfold fexec in *. rewrite exec_lift, exec_keepold. rewrite exec_lift in H3.
    destruct (exec p w 0 None (Some (k, e))) as [[w1 t] o]. unfold dir_of_run, out_of_run in *. cbn [fst snd] in *.
    destruct H3 as [vk [G1 [G2 G3]]]. exists vk. split; [exact G1 | split; [exact G2 |]].
    intros a Ha Hok. destruct o as [[m' r] | |]; cbn [map_outcome] in *; try discriminate.
    injection Ha as <-. unfold okO in Hok. cbn [fst snd] in Hok. rewrite keep_old_res in Hok. cbn [snd] in Hok.
    apply (G3 (Some m', r, O)); [reflexivity | exact Hok].
Qed.

(** ** first road: failures reported at once or masked ([errQ], [tail_fault]) *)

(** no name: the footprint of a continuation that writes nothing *)
Definition NoN (n : name) : Prop := False.

(** The second alternative: the failure is masked, as when os.OpenFile(O_RDWR) fails and the retry with O_CREATE
    succeeds.  Nothing is said of the state at the failing call: crash atomicity supplies that ([tail_fault]). *)
Definition errQ {A} (Q : A -> Prop) (p : prog A) (w : fs) : Prop :=
  forall j c kont wk e, step_at p w j = Some (c, kont, wk) -> traced c = true -> EE e ->
    withinQ NoN Q (kont (RErr e)) \/ ff (kont (RErr e)) wk = ff p w.

Lemma errQ_ret : forall A (Q : A -> Prop) a w, errQ Q (Ret a) w.
Proof. intros A Q a w j c kont wk e H. discriminate. Qed.

Lemma errQ_abort : forall A (Q : A -> Prop) x w, errQ Q (Abort x) w.
Proof. intros A Q a w j c kont wk e H. discriminate. Qed.

Lemma errQ_bind : forall A B (Q : A -> Prop) (R : B -> Prop) (p : prog A) (f : A -> prog B) w,
  errQ Q p w ->
  (forall b, Q b -> withinQ NoN R (f b)) ->
  (forall a, snd (ff p w) = Done a -> errQ R (f a) (fst (ff p w))) ->
  errQ R (bind p f) w.
Proof.
  intros A B Q R p f w Hp Hq Hf j c kont wk e Hs Ht He.
  destruct (step_at_bind_cases _ _ _ _ _ _ _ _ _ Hs) as [[kont' [Hsp ->]] | [a [Ha [_ Hs']]]].
  - destruct (Hp j c kont' wk e Hsp Ht He) as [H2 | H2].
    + left. eapply withinQ_bind; [exact H2 | exact Hq].
    + right. rewrite !ff_bind, H2. reflexivity.
  - destruct (Hf a Ha _ c kont wk e Hs' Ht He) as [H2 | H2]; [left; exact H2 | right].
    rewrite H2, ff_bind. destruct (ff p w) as [w1 o]. cbn [snd fst] in *. subst o. reflexivity.
Qed.

Lemma errQ_bind_ret : forall A B (Q : A -> Prop) (R : B -> Prop) (p : prog A) (h : A -> prog B) w,
  errQ Q p w -> (forall a, exists b, h a = Ret b /\ (Q a -> R b)) -> errQ R (bind p h) w.
Proof.
  intros A B Q R p h w Hp Hh. eapply errQ_bind; [exact Hp | |].
  - intros a Ha. destruct (Hh a) as [b [Hb Hr]]. rewrite Hb. exact (Hr Ha).
  - intros a _. destruct (Hh a) as [b [Hb _]]. rewrite Hb. apply errQ_ret.
Qed.

Lemma errQ_do : forall A (Q : A -> Prop) c (k : reply -> prog A) w,
  (traced c = true -> forall e, EE e -> withinQ NoN Q (k (RErr e)) \/ ff (k (RErr e)) w = ff (Do c k) w) ->
  errQ Q (k (snd (apply_call w c))) (fst (apply_call w c)) ->
  errQ Q (Do c k) w.
Proof.
  intros A Q c k w H0 Hk j c' kont wk e Hs Ht He. cbn [step_at] in Hs. destruct j as [| j].
  - injection Hs as <- <- <-. apply H0; assumption.
  - destruct (apply_call w c) as [w1 r] eqn:Hc. cbn [fst snd] in *.
    destruct (Hk j c' kont wk e Hs Ht He) as [H2 | H2]; [left; exact H2 | right]. rewrite H2. cbn [ff]. rewrite Hc. reflexivity.
Qed.

Lemma errQ_untraced : forall A (Q : A -> Prop) c (k : reply -> prog A) w,
  traced c = false -> errQ Q (k (snd (apply_call w c))) (fst (apply_call w c)) -> errQ Q (Do c k) w.
Proof. intros A Q c k w Ht Hk. apply errQ_do; [intros Hx; congruence | exact Hk]. Qed.

Lemma errQ_weaken : forall A (Q R : A -> Prop) p w, (forall a, Q a -> R a) -> errQ Q p w -> errQ R p w.
Proof.
  intros A Q R p w HQR H j c kont wk e Hs Ht He. destruct (H j c kont wk e Hs Ht He) as [H2 | H2]; [left | right; exact H2].
  eapply withinQ_weaken; [| exact HQR | exact H2]. auto.
Qed.

Definition notOk (e : res) : Prop := e <> Ok.
Definition notOkR (a : mem * res) : Prop := snd a <> Ok.

Lemma notOk_negb : forall e, notOk e -> negb (is_ok e) = true.
Proof. intros [] H; [exfalso; apply H |..]; reflexivity. Qed.

Lemma errQ_pair : forall A (a : A) (p : prog res) w,
  errQ notOk p w -> errQ (fun t : A * res => snd t <> Ok) (e <- p ;; Ret (a, e)) w.
Proof. intros A a p w Hp. eapply errQ_bind_ret; [exact Hp |]. intros e. eexists. split; [reflexivity | intros He; exact He]. Qed.

Lemma tail_fault : forall A (okp Q : A -> Prop) g v vpost (p : prog A) w,
  (forall a, Q a -> ~ okp a) ->
  errQ Q p w -> Forall (Good g v vpost) (states p w) -> FOutP okp g v vpost (ff p w) ->
  forall j c kont wk e, step_at p w j = Some (c, kont, wk) -> traced c = true -> EE e ->
    FOutP okp g v vpost (ff (kont (RErr e)) wk).
Proof.
  intros A okp Q g v vpost p w HQ Hq Hst Hff j c kont wk e Hs Ht He.
  destruct (Hq j c kont wk e Hs Ht He) as [H | H]; [| rewrite H; exact Hff].
  pose proof (step_at_state _ p w j c kont wk Hs) as Hin.
  eapply Forall_forall in Hst; [| exact Hin]. destruct Hst as [vk [Hr Hv]].
  exists vk. split; [| split; [exact Hv |]].
  - eapply recover_only_on; [exact Hr | apply within_ff; eapply withinQ_within; exact H | intros n []].
  - intros a Ha Hok. exfalso. apply (HQ a); [| exact Hok]. exact (withinQ_ff _ _ _ _ wk a H Ha).
Qed.

Lemma FA_of_errQ : forall g v vpost ex (p : prog (mem * res)) w,
  errQ notOkR p w -> Forall (Good g v vpost) (states p w) -> FOut g v vpost (ff p w) -> FA g v vpost ex p w.
Proof.
  intros g v vpost ex p w Hq Hst HFO j c kont wk e Hs Ht He _. apply FOutP_R.
  eapply tail_fault with (Q := notOkR) (p := p) (w := w); try eassumption; [| apply FOutP_R; exact HFO].
  intros a H1 H2. exact (H1 H2).
Qed.

(** an operation is a program [p] whose result a last step [h] wraps; [okp] is what success of [p] is *)
Lemma FAO_bind_ret : forall A (okp : A -> Prop) g (p : prog A) (h : A -> prog (option mem * res * nat)) w v vpost,
  recover g (fst (ff (bind p h) w)) = Some vpost -> Atomic g v vpost (bind p h) w ->
  errQ (fun a => ~ okp a) p w -> (forall a, exists b, h a = Ret b /\ (okO b -> okp a)) ->
  FAO g v vpost (fun _ => False) (bind p h) w.
Proof.
  intros A okp g p h w v vpost Hrp Hst Hq Hh j c kont wk e Hs Ht He _. apply FOutP_O.
  eapply tail_fault with (Q := fun a => ~ okO a) (p := bind p h) (w := w); try eassumption; [auto | | apply FOutP_post; exact Hrp].
  eapply errQ_bind_ret; [exact Hq |]. intros a. destruct (Hh a) as [b [Hb Hok]]. exists b. split; [exact Hb | auto].
Qed.

Lemma fault_ok_sspec : forall A (okp : A -> Prop) g w v om (p : prog A) (h : A -> prog (option mem * res * nat)),
  recover g w = Some v -> sspec g w v om (bind p h) ->
  errQ (fun a => ~ okp a) p w -> (forall a, exists b, h a = Ret b /\ (okO b -> okp a)) ->
  fault_ok g (bind p h) w.
Proof.
  intros A okp g w v om p h Hrec [w' [om' [r [k [vp [Hff [_ [Hr' [Hst _]]]]]]]]] Hq Hh.
  assert (Hrp : recover g (fst (ff (bind p h) w)) = Some vp) by (rewrite Hff; exact Hr').
  exact (fault_okx_intro g _ w v vp _ Hrec Hrp (FAO_bind_ret A okp g p h w v vp Hrp Hst Hq Hh)).
Qed.

Lemma fault_ok_ospec : forall g w v m (p : prog (mem * res)),
  ctx g w v m -> ospec g w v m p -> errQ notOkR p w -> fault_ok g (lift p) w.
Proof.
  intros g w v m p Hctx Hsp Hq.
  exact (fault_ok_sspec _ (fun a => snd a = Ok) g w v _ p _ (cx_rec _ _ _ _ Hctx) (sspec_lift g w v m p Hsp) Hq lift_ret_ok).
Qed.

(** ** second road: blocks before a commit, taken one by one ([errB], [FA_bind]) *)

(** [errQ] for a block whose error exits may still write names of [S] (clean-up); it also bounds what the block
    has written before the failing call *)
Definition errB {A} (S : name -> Prop) (Q : A -> Prop) (p : prog A) (w : fs) : Prop :=
  forall j c kont wk e, step_at p w j = Some (c, kont, wk) -> traced c = true -> EE e ->
    only_on S w wk /\ (withinQ S Q (kont (RErr e)) \/ ff (kont (RErr e)) wk = ff p w).

Lemma errB_weaken : forall A (S T : name -> Prop) (Q R : A -> Prop) p w,
  (forall n, S n -> T n) -> (forall a, Q a -> R a) -> errB S Q p w -> errB T R p w.
Proof.
  intros A S T Q R p w HST HQR H j c kont wk e Hs Ht He. destruct (H j c kont wk e Hs Ht He) as [H1 H2]. split.
  - intros n Hn. apply H1. intro; apply Hn; auto.
  - destruct H2 as [H2 | H2]; [left; eapply withinQ_weaken; eauto | right; exact H2].
Qed.

Lemma errB_of_errQ : forall A (S : name -> Prop) (Q : A -> Prop) p w, within S p -> errQ Q p w -> errB S Q p w.
Proof.
  intros A S Q p w Hw Hq j c kont wk e Hs Ht He. split; [eapply step_at_only_on; eassumption |].
  destruct (Hq j c kont wk e Hs Ht He) as [H | H]; [left | right; exact H].
  eapply withinQ_weaken; [| | exact H]; [intros n [] | auto].
Qed.

Lemma errB_ret : forall A S (Q : A -> Prop) a w, errB S Q (Ret a) w.
Proof. intros A S Q a w. apply errB_of_errQ; [exact I | apply errQ_ret]. Qed.

Lemma errB_bind : forall A B S (Q : A -> Prop) (R : B -> Prop) (p : prog A) (f : A -> prog B) w,
  errB S Q p w ->
  (forall b, Q b -> withinQ S R (f b)) ->
  (forall a, snd (ff p w) = Done a -> only_on S w (fst (ff p w)) /\ errB S R (f a) (fst (ff p w))) ->
  errB S R (bind p f) w.
Proof.
  intros A B S Q R p f w Hp Hq Hf j c kont wk e Hs Ht He.
  destruct (step_at_bind_cases _ _ _ _ _ _ _ _ _ Hs) as [[kont' [Hsp ->]] | [a [Ha [_ Hs']]]].
  - destruct (Hp j c kont' wk e Hsp Ht He) as [H1 [H2 | H2]]; (split; [exact H1 |]).
    + left. eapply withinQ_bind; [exact H2 | exact Hq].
    + right. rewrite !ff_bind, H2. reflexivity.
  - destruct (Hf a Ha) as [Hoo Hfa]. destruct (Hfa _ c kont wk e Hs' Ht He) as [H1 H2].
    split; [eapply only_on_trans; eassumption |]. destruct H2 as [H2 | H2]; [left; exact H2 | right].
    rewrite H2, ff_bind. destruct (ff p w) as [w1 o]. cbn [snd fst] in *. subst o. reflexivity.
Qed.

Lemma errB_do : forall A S (Q : A -> Prop) c (k : reply -> prog A) w,
  (traced c = true -> forall e, EE e -> withinQ S Q (k (RErr e)) \/ ff (k (RErr e)) w = ff (Do c k) w) ->
  only_on S w (fst (apply_call w c)) ->
  errB S Q (k (snd (apply_call w c))) (fst (apply_call w c)) ->
  errB S Q (Do c k) w.
Proof.
  intros A S Q c k w H0 Hoo Hk j c' kont wk e Hs Ht He. cbn [step_at] in Hs. destruct j as [| j].
  - injection Hs as <- <- <-. split; [apply only_on_refl | apply H0; assumption].
  - destruct (apply_call w c) as [w1 r] eqn:Hc. cbn [fst snd] in *.
    destruct (Hk j c' kont wk e Hs Ht He) as [H1 H2]. split; [eapply only_on_trans; eassumption |].
    destruct H2 as [H2 | H2]; [left; exact H2 | right]. rewrite H2. cbn [ff]. rewrite Hc. reflexivity.
Qed.

Lemma errB_untraced : forall A S (Q : A -> Prop) c (k : reply -> prog A) w,
  traced c = false -> fst (apply_call w c) = w ->
  errB S Q (k (snd (apply_call w c))) w -> errB S Q (Do c k) w.
Proof.
  intros A S Q c k w Ht Hw Hk. apply errB_do; [intros Hx; congruence | rewrite Hw; apply only_on_refl | rewrite Hw; exact Hk].
Qed.

Lemma FOut_pre_within : forall g v vpost (S : name -> Prop) (k : prog (mem * res)) w,
  recover g w = Some v -> (forall n, S n -> ~ footprint (cv_chain v) n) -> withinQ S notOkR k ->
  FOut g v vpost (ff k w).
Proof.
  intros g v vpost S k w Hrec Hdis Hw. eapply FOutP_R, FOutP_pre; [| apply veq_refl |].
  - eapply recover_only_on; [exact Hrec | apply within_ff; eapply withinQ_within; exact Hw | exact Hdis].
  - intros a Ha Hok. exact (withinQ_ff _ _ _ _ w a Hw Ha Hok).
Qed.

(** a block before the commit, in front of the rest of the operation; [w0] is where the old view recovers, and up
    to the block ([w]) only names of [S] have been written, which the chain does not use *)
Lemma FA_bind : forall g v vpost ex A (S : name -> Prop) (Q : A -> Prop) (p : prog A) (f : A -> prog (mem * res)) w0 w,
  recover g w0 = Some v -> (forall n, S n -> ~ footprint (cv_chain v) n) -> only_on S w0 w ->
  errB S Q p w ->
  (forall b, Q b -> withinQ S notOkR (f b)) ->
  FOut g v vpost (ff (bind p f) w) ->
  (forall a, snd (ff p w) = Done a ->
     only_on S w (fst (ff p w)) /\ FA g v vpost (fun j => ex (j + ncalls p w)) (f a) (fst (ff p w))) ->
  FA g v vpost ex (bind p f) w.
Proof.
  intros g v vpost ex A S Q p f w0 w Hrec Hdis Hoo Hp Hq Hff Hf j c kont wk e Hs Ht He Hex.
  destruct (step_at_bind_cases _ _ _ _ _ _ _ _ _ Hs) as [[kont' [Hsp ->]] | [a [Ha [Hge Hs']]]].
  - destruct (Hp j c kont' wk e Hsp Ht He) as [H1 [H2 | H2]]; [| rewrite ff_bind, H2, <- ff_bind; exact Hff].
    apply FOut_pre_within with (S := S); [| exact Hdis | eapply withinQ_bind; [exact H2 | exact Hq]].
    eapply recover_only_on; [exact Hrec | eapply only_on_trans; eassumption | exact Hdis].
  - apply (proj2 (Hf a Ha) _ c kont wk e Hs' Ht He). replace (j - ncalls p w + ncalls p w) with j by lia. exact Hex.
Qed.

Lemma FA_bind_within : forall g v vpost ex A (S : name -> Prop) (Q : A -> Prop) (p : prog A) (f : A -> prog (mem * res)) w,
  recover g w = Some v -> (forall n, S n -> ~ footprint (cv_chain v) n) ->
  within S p -> errQ Q p w ->
  (forall b, Q b -> withinQ S notOkR (f b)) ->
  FOut g v vpost (ff (bind p f) w) ->
  (forall a w', ff p w = (w', Done a) -> recover g w' = Some v ->
     FA g v vpost (fun j => ex (j + ncalls p w)) (f a) w') ->
  FA g v vpost ex (bind p f) w.
Proof.
  intros g v vpost ex A S Q p f w Hrec Hdis Hw Hp Hq Hff Hf.
  apply FA_bind with (S := S) (Q := Q) (w0 := w); [exact Hrec | exact Hdis | apply only_on_refl | apply errB_of_errQ; assumption | exact Hq | exact Hff |].
  intros a Ha. pose proof (within_ff _ S p w Hw) as Hoo. destruct (ff p w) as [w' o]. cbn [snd fst] in *. subst o.
  split; [exact Hoo | exact (Hf a w' eq_refl (recover_only_on g S w w' v Hrec Hoo Hdis))].
Qed.

(** a final part that fails before any commit *)
Lemma FA_errB : forall g v vpost ex (S : name -> Prop) (p : prog (mem * res)) w0 w,
  recover g w0 = Some v -> (forall n, S n -> ~ footprint (cv_chain v) n) -> only_on S w0 w ->
  errB S notOkR p w -> FOut g v vpost (ff p w) -> FA g v vpost ex p w.
Proof.
  intros g v vpost ex S p w0 w Hrec Hdis Hoo Hp Hff j c kont wk e Hs Ht He _.
  destruct (Hp j c kont wk e Hs Ht He) as [H1 [H2 | H2]]; [| rewrite H2; exact Hff].
  apply FOut_pre_within with (S := S); [| exact Hdis | exact H2].
  eapply recover_only_on; [exact Hrec | eapply only_on_trans; eassumption | exact Hdis].
Qed.

Lemma FA11_bind : forall g v vpost A (S : name -> Prop) (Q : A -> Prop) (p : prog A) (f : A -> prog (mem * res)) w0 w,
  recover g w0 = Some v -> (forall n, S n -> ~ footprint (cv_chain v) n) -> only_on S w0 w ->
  errB S Q p w ->
  (forall b, Q b -> withinQ S notOkR (f b)) ->
  FOut g v vpost (ff (bind p f) w) ->
  (forall a, snd (ff p w) = Done a ->
     only_on S w (fst (ff p w)) /\ FA g v vpost (f11_at (f a) (fst (ff p w))) (f a) (fst (ff p w))) ->
  FA g v vpost (f11_at (bind p f) w) (bind p f) w.
Proof.
  intros g v vpost A S Q p f w0 w Hrec Hdis Hoo Hp Hq Hff Hf.
  eapply FA_bind; try eassumption. intros a Ha. destruct (Hf a Ha) as [H1 H2]. split; [exact H1 |].
  eapply FA_mono; [| exact H2]. intros j Hj. apply (f11_shift _ _ p f w a j Ha Hj).
Qed.

Lemma FA11_bind_within : forall g v vpost A (S : name -> Prop) (Q : A -> Prop) (p : prog A) (f : A -> prog (mem * res)) w,
  recover g w = Some v -> (forall n, S n -> ~ footprint (cv_chain v) n) ->
  within S p -> errQ Q p w ->
  (forall b, Q b -> withinQ S notOkR (f b)) ->
  FOut g v vpost (ff (bind p f) w) ->
  (forall a w', ff p w = (w', Done a) -> recover g w' = Some v -> FA g v vpost (f11_at (f a) w') (f a) w') ->
  FA g v vpost (f11_at (bind p f) w) (bind p f) w.
Proof.
  intros g v vpost A S Q p f w Hrec Hdis Hw Hp Hq Hff Hf.
  eapply FA_bind_within; try eassumption. intros a w' Ha Hr. eapply FA_mono; [| exact (Hf a w' Ha Hr)].
  intros j Hj. apply (f11_shift _ _ p f w a j); rewrite Ha; [reflexivity | exact Hj].
Qed.

(** ** the building blocks under one failing call *)

Lemma EE_not_enoent : forall e, EE e -> enoent_or_ok (RErr e) = false.
Proof. intros e [H | H]; subst; reflexivity. Qed.

Lemma stat_same : forall w n, fst (apply_call w (CStat n)) = w.
Proof. intros w n. exact (silent_same w (CStat n) eq_refl). Qed.

Lemma errQ_sync_dir : forall w, errQ notOk sync_dir w.
Proof.
  intros w. unfold sync_dir. apply errQ_do; [intros _ e He; left; discriminate |].
  cbn. apply errQ_ret.
Qed.

Lemma errB_sync_dir : forall S w, errB S notOk sync_dir w.
Proof. intros S w. apply errB_of_errQ; [exact (withinQ_within _ _ _ _ (wq_sync_dir S)) | apply errQ_sync_dir]. Qed.

(** no condition on [c] or [n]: the walk splits on [is_err] of each reply and never computes one *)
Lemma errQ_enc : forall g c n w, fixed g = true -> errQ notOk (encode_to_file g c n) w.
Proof.
  intros g c n w Hfx. unfold encode_to_file. rewrite Hfx. cbn [andb].
  apply errQ_do; [intros _ e He; left; discriminate |]. destruct (is_err _); [apply errQ_ret |].
  apply errQ_do; [intros _ e He; left; cbn; split; [intros n0 [] | intros; discriminate] |].
  destruct (is_err _); [apply errQ_untraced; [reflexivity | apply errQ_ret] |].
  apply errQ_untraced; [reflexivity |]. destruct (is_err _); [apply errQ_ret |].
  apply errQ_do; [intros _ e He; left; discriminate |]. destruct (is_err _); [apply errQ_ret |].
  apply errQ_sync_dir.
Qed.

Lemma errQ_encode : forall g c n w, fixed g = true -> meta_name n -> meta_content c -> errQ notOk (encode_to_file g c n) w.
Proof. intros g c n w Hfx _ _. apply errQ_enc, Hfx. Qed.

Lemma errB_encode : forall g c n (S : name -> Prop) w,
  fixed g = true -> meta_name n -> meta_content c -> S (tmp_of n) -> S n ->
  errB S notOk (encode_to_file g c n) w.
Proof.
  intros g c n S w Hfx Hn Hc Ht Hs. apply errB_of_errQ; [| apply errQ_enc; exact Hfx].
  eapply withinQ_within, wq_encode; assumption.
Qed.

Lemma errQ_encode_ret : forall A (R : A -> Prop) g c n (h : res -> prog A) w,
  fixed g = true ->
  (forall e, exists b, h e = Ret b /\ (notOk e -> R b)) -> errQ R (bind (encode_to_file g c n) h) w.
Proof. intros A R g c n h w Hfx Hh. eapply errQ_bind_ret; [apply errQ_enc; exact Hfx | exact Hh]. Qed.

Lemma errQ_rm_disk : forall d w, errQ notOk (rm_disk d) w.
Proof.
  intros [x |] w; [| apply errQ_ret]. unfold rm_disk.
  assert (Hr : forall w0 a, enoent_or_ok (snd (apply_call w0 (CUnlink a))) = true) by (intros w0 a; apply (unlink_reply a); exists w0; reflexivity).
  apply errQ_do; [intros _ e He; left; rewrite (EE_not_enoent e He); discriminate |].
  rewrite Hr. cbn [negb].
  apply errQ_do; [intros _ e He; left; rewrite (EE_not_enoent e He); discriminate |].
  rewrite Hr. cbn [negb]. apply errQ_sync_dir.
Qed.

Lemma errB_rm_disk : forall x (S : name -> Prop) w, S (Img x) -> S (Meta x) -> errB S notOk (rm_disk (Some x)) w.
Proof.
  intros x S w H1 H2. apply errB_of_errQ; [| apply errQ_rm_disk].
  eapply withinQ_within, wq_rm_disk. intros y [= <-]. auto.
Qed.

Lemma errB_rm_tail : forall d (m : mem) (S : name -> Prop) w, S (Img d) -> S (Meta d) ->
  errB S notOkR (bind (rm_disk (Some d)) (fun e2 => Ret (m, e2))) w.
Proof.
  intros d m S w H1 H2. apply errB_of_errQ.
  - apply within_bind; [| intros; exact I]. eapply withinQ_within, wq_rm_disk. intros y [= <-]. auto.
  - apply errQ_pair, errQ_rm_disk.
Qed.

Lemma errQ_link_disk : forall o nw w, errQ notOk (link_disk (Some o) (Some nw)) w.
Proof.
  intros o nw w. unfold link_disk.
  apply errQ_untraced; [reflexivity |]. destruct (negb (is_err _)); [apply errQ_ret |].
  apply errQ_untraced; [reflexivity |]. destruct (negb (is_err _)); [apply errQ_ret |].
  apply errQ_do; [intros _ e He; left; discriminate |]. destruct (is_err _); [apply errQ_ret |].
  apply errQ_do; [intros _ e He; left; discriminate |]. destruct (is_err _); [apply errQ_ret |].
  apply errQ_sync_dir.
Qed.

Lemma errB_link_disk : forall o nw (S : name -> Prop) w,
  S (Img nw) -> S (Meta nw) -> errB S notOk (link_disk (Some o) (Some nw)) w.
Proof.
  intros o nw S w H1 H2. apply errB_of_errQ; [| apply errQ_link_disk].
  eapply withinQ_within, wq_link_disk. intros y [= <-]. auto.
Qed.

Lemma errQ_get_rev : forall (Q : Z -> Prop) w, errQ Q get_rev w.
Proof.
  intros Q w. unfold get_rev. apply errQ_untraced; [reflexivity |].
  destruct (snd (apply_call w CPreadCounter)) as [| | | [] |]; apply errQ_ret.
Qed.

Lemma errB_get_rev : forall S (Q : Z -> Prop) w, errB S Q get_rev w.
Proof. intros S Q w. apply errB_of_errQ; [exact (withinQ_within _ _ _ _ (wq_get_rev S)) | apply errQ_get_rev]. Qed.

(** os.OpenFile(O_RDWR) failing is masked by the retry with O_CREATE *)
Lemma errQ_open_file : forall n (Q : bool -> Prop) w, Q false -> errQ Q (open_file n) w.
Proof.
  intros n Q w HQ. unfold open_file. apply errQ_do.
  - intros _ e He. right. cbn [ff apply_call]. destruct (files w n) as [i |] eqn:Hf; cbn [fst snd is_err ff apply_call]; rewrite ?Hf; reflexivity.
  - destruct (is_err (snd (apply_call w (COpenRW n)))); [| apply errQ_ret].
    apply errQ_do; [| apply errQ_ret]. intros _ e He. left. cbn. exact HQ.
Qed.

(** the same for O_TRUNC: the retry with O_CREATE|O_TRUNC does to an existing file what the first open would have done *)
Lemma errQ_open_file_trunc : forall n (Q : bool -> Prop) w, Q false -> errQ Q (open_file_trunc n) w.
Proof.
  intros n Q w HQ. unfold open_file_trunc. apply errQ_do.
  - intros _ e He. right. cbn [ff apply_call]. destruct (files w n) as [i |] eqn:Hf; cbn [fst snd is_err ff apply_call]; rewrite ?Hf; destruct (is_img n); reflexivity.
  - destruct (is_err (snd (apply_call w (COpenTrunc n)))); [| apply errQ_ret].
    apply errQ_do; [| apply errQ_ret]. intros _ e He. left. cbn. exact HQ.
Qed.

Lemma errB_open_file_trunc : forall n (S : name -> Prop) w,
  files w n = None -> S n -> errB S (fun b => b = false) (open_file_trunc n) w.
Proof.
  intros n S w _ Hs. apply errB_of_errQ; [| apply errQ_open_file_trunc; reflexivity].
  eapply withinQ_within, wq_open_file_trunc. exact Hs.
Qed.

Definition Qcnh (nh : dname) (t : option dname * disk * res) : Prop :=
  snd t <> Ok /\ (fst (fst t) = None \/ fst (fst t) = Some nh).

Lemma errQ_cnh_rest : forall g m nh par cr w, fixed g = true -> errQ (Qcnh nh) (cnh_rest g m nh par cr) w.
Proof.
  intros g m nh par cr w Hfx. unfold cnh_rest.
  assert (Hfail : Qcnh nh (None, nodisk, Failed)) by (split; cbn; [discriminate | auto]).
  eapply errQ_bind with (Q := fun b => b = false); [apply errQ_open_file_trunc; auto | intros b ->; exact Hfail |].
  intros okf _. destruct (negb okf); [apply errQ_ret |].
  apply errQ_do; [intros _ e He; left; exact Hfail |]. destruct (is_err _); [apply errQ_ret |].
  eapply errQ_bind; [apply errQ_get_rev with (Q := fun _ => False) | intros b [] |].
  intros rv _. apply errQ_encode_ret; [exact Hfx |].
  intros e0. eexists. split; [reflexivity |]. intros He0. split; cbn; auto.
Qed.

Lemma errB_cnh_rest : forall g m nh par cr (S : name -> Prop) w,
  fixed g = true -> files w (Img nh) = None -> S (Img nh) -> S (Meta nh) -> S (MetaTmp nh) ->
  errB S (Qcnh nh) (cnh_rest g m nh par cr) w.
Proof.
  intros g m nh par cr S w Hfx _ H1 H2 H3. apply errB_of_errQ; [| apply errQ_cnh_rest; exact Hfx].
  eapply withinQ_within, wq_cnh_rest; assumption.
Qed.

Lemma errQ_create_new_head : forall g m n par cr w,
  fixed g = true -> errQ (Qcnh (Head (S n))) (create_new_head g m (Some (Head n)) par cr) w.
Proof.
  intros g m n par cr w Hfx. rewrite create_new_head_unfold. set (nh := Head (S n)).
  assert (Hfail : Qcnh nh (None, nodisk, Failed)) by (split; cbn; [discriminate | auto]).
  apply errQ_untraced; [reflexivity |]. destruct (is_err _); [apply errQ_cnh_rest; exact Hfx |].
  apply errQ_untraced; [reflexivity |]. destruct (snd _) as [| | [] | |]; try apply errQ_ret.
  all: eapply errQ_bind; [apply errQ_rm_disk | intros b Hb; destruct b; [exfalso; apply Hb; reflexivity | exact Hfail | exact Hfail] |].
  all: intros a _; destruct (is_ok a); [apply errQ_cnh_rest; exact Hfx | apply errQ_ret].
Qed.

Lemma errB_create_new_head : forall g m n par cr (S : name -> Prop) w,
  fixed g = true ->
  S (Img (Head (Datatypes.S n))) -> S (Meta (Head (Datatypes.S n))) -> S (MetaTmp (Head (Datatypes.S n))) ->
  errB S (Qcnh (Head (Datatypes.S n))) (create_new_head g m (Some (Head n)) par cr) w.
Proof.
  intros g m n par cr S w Hfx H1 H2 H3. apply errB_of_errQ; [| apply errQ_create_new_head; exact Hfx].
  eapply withinQ_within, wq_create_new_head; assumption.
Qed.

Lemma errQ_cd_snapmeta : forall g m oh sn nh nd user cr w,
  fixed g = true -> errQ notOkR (cd_snapmeta g m (Some oh) (Some sn) nh nd user cr) w.
Proof.
  intros g m oh sn nh nd user cr w Hfx. unfold cd_snapmeta.
  eapply errQ_bind; [apply errQ_get_rev with (Q := fun _ => False) | intros b [] |].
  intros rv _. destruct (m_disks _ oh) as [x |]; [| apply errQ_abort].
  apply errQ_encode_ret; [exact Hfx |].
  intros e3. destruct e3; eexists; (split; [reflexivity |]); intros He3;
    [exfalso; apply He3; reflexivity | |]; discriminate.
Qed.

Lemma errB_cd_snapmeta : forall g m oh sn nh nd user cr w,
  fixed g = true ->
  errB (snap_S1 nh sn) notOkR (cd_snapmeta g m (Some oh) (Some sn) nh nd user cr) w.
Proof. intros g m oh sn nh nd user cr w Hfx. apply errB_of_errQ; [apply within_cd_snapmeta | apply errQ_cd_snapmeta; exact Hfx]. Qed.

Lemma errQ_truncate_all : forall l sz w, errQ (fun b => b = false) (truncate_all l sz) w.
Proof.
  induction l as [| y t IH]; intros sz w; [apply errQ_ret |]. cbn [truncate_all].
  apply errQ_do; [intros _ e He; left; reflexivity |]. destruct (is_err _); [apply errQ_ret | apply IH].
Qed.

Lemma errB_truncate_all : forall l sz w, errB (fun _ => False) (fun b => b = false) (truncate_all l sz) w.
Proof.
  intros l sz w. apply errB_of_errQ; [| apply errQ_truncate_all].
  induction l as [| y t IH]; [exact I |]. split; [intros n [] | intros r _; destruct (is_err r); [exact I | exact IH]].
Qed.

(** index 4 is the directory sync after the rename; every earlier call starts from a state in which only the
    temporary file differs *)
Lemma encode_steps : forall g c0 n w j c kont wk,
  fixed g = true -> meta_name n -> meta_content c0 ->
  step_at (encode_to_file g c0 n) w j = Some (c, kont, wk) ->
  (j <= 3 /\ only_on (eq (tmp_of n)) w wk
   /\ forall e, withinQ (eq (tmp_of n)) (eq Failed) (kont (RErr e)) /\ ff (kont (RErr e)) wk = (wk, Done Failed))
  \/ (j = 4 /\ c = CFsyncDir /\ wk = enc_fs w n c0 /\ forall e, kont (RErr e) = Ret Failed).
Proof.
  intros g c0 n w j c kont wk Hfx Hn Hc Hs. destruct (meta_name_tmp n Hn) as [Hne Himg].
  assert (Hoo : forall v1 v2, only_on (eq (tmp_of n)) w (set_file (set_file w (tmp_of n) v1) (tmp_of n) v2)).
  { intros v1 v2 x Hx. rewrite !set_file_neq; auto. }
  assert (Hoo1 : forall v1, only_on (eq (tmp_of n)) w (set_file w (tmp_of n) v1)).
  { intros v1 x Hx. rewrite !set_file_neq; auto. }
  unfold encode_to_file in Hs. rewrite Hfx in Hs.
  destruct c0; try contradiction;
  (destruct j as [| [| [| [| [| j]]]]]; cbn [step_at apply_call] in Hs; rewrite ?Himg in Hs; cbn [step_at apply_call is_err andb] in Hs;
   rewrite ?set_file_eq in Hs; cbn [step_at apply_call is_err andb sync_dir] in Hs; rewrite ?set_file_eq in Hs;
   cbn [step_at apply_call is_err andb sync_dir] in Hs; try discriminate; injection Hs as <- <- <-;
   first [ right; split; [reflexivity | split; [reflexivity | split; [reflexivity | intros; reflexivity]]]
         | left; split; [lia | split; [first [apply only_on_refl | apply Hoo1 | apply Hoo] |]];
           intros e; split; [cbn; first [reflexivity | split; [intros ? [] | intros; reflexivity]] | reflexivity] ]).
Qed.

Lemma encode_calls_3_4 : forall g c0 n w, fixed g = true -> meta_name n -> meta_content c0 ->
  call_at (encode_to_file g c0 n) w 3 = Some (CRename (tmp_of n) n) /\ call_at (encode_to_file g c0 n) w 4 = Some CFsyncDir
  /\ ncalls (encode_to_file g c0 n) w = 5.
Proof.
  intros g c0 n w Hfx Hn Hc. destruct (meta_name_tmp n Hn) as [Hne Himg].
  unfold call_at, ncalls, encode_to_file. rewrite Hfx. destruct c0; try contradiction;
    cbn [step_at fftr apply_call]; rewrite Himg; cbn [step_at fftr apply_call is_err andb]; rewrite set_file_eq;
    cbn [step_at fftr apply_call is_err andb]; rewrite set_file_eq; cbn [step_at fftr apply_call is_err andb sync_dir length]; auto.
Qed.

Lemma enc_step_cases : forall A g c0 n w (K : res -> prog A) j c kont wk,
  fixed g = true -> meta_name n -> meta_content c0 ->
  step_at (bind (encode_to_file g c0 n) K) w j = Some (c, kont, wk) ->
  (j <= 3 /\ only_on (eq (tmp_of n)) w wk /\ forall e, ff (kont (RErr e)) wk = ff (K Failed) wk)
  \/ (j = 4 /\ wk = enc_fs w n c0 /\ forall e, ff (kont (RErr e)) wk = ff (K Failed) wk)
  \/ (step_at (K Ok) (enc_fs w n c0) (j - 5) = Some (c, kont, wk)).
Proof.
  intros A g c0 n w K j c kont wk Hfx Hn Hc Hs.
  destruct (step_at_bind_cases _ _ _ _ _ _ _ _ _ Hs) as [[kont' [Hse ->]] | [a [Ha [_ Hs']]]].
  - destruct (encode_steps g c0 n w j c kont' wk Hfx Hn Hc Hse) as [[Hj [Hoow Hkw]] | [Hj [_ [Hwk Hkf]]]].
    + left. split; [exact Hj | split; [exact Hoow |]]. intros e. rewrite ff_bind, (proj2 (Hkw e)). reflexivity.
    + right. left. split; [exact Hj | split; [exact Hwk |]]. intros e. rewrite Hkf. reflexivity.
  - right. right. rewrite ff_encode in Ha, Hs' by assumption. injection Ha as <-.
    destruct (encode_calls_3_4 g c0 n w Hfx Hn Hc) as [_ [_ Hnc]]. rewrite Hnc in Hs'. exact Hs'.
Qed.

(** a commit by encodeToFile in front of the rest of the operation: a failure before the rename (only the temporary
    file differs) and one of the directory sync after it (index 4) are answered by [K Failed] *)
Lemma FAP_enc_bind : forall A (P : fs * outcome A -> Prop) (ex : nat -> Prop) g c0 n (K : res -> prog A) w,
  fixed g = true -> meta_name n -> meta_content c0 ->
  (forall wk, only_on (eq (tmp_of n)) w wk -> P (ff (K Failed) wk)) ->
  (ex 4 \/ P (ff (K Failed) (enc_fs w n c0))) ->
  FAP P (fun _ => False) (K Ok) (enc_fs w n c0) ->
  FAP P ex (bind (encode_to_file g c0 n) K) w.
Proof.
  intros A P ex g c0 n K w Hfx Hn Hc Hpre Hsync Hpost j c kont wk e Hs Ht He Hex.
  destruct (enc_step_cases _ g c0 n w K j c kont wk Hfx Hn Hc Hs) as [[_ [Hoo Hk]] | [[-> [-> Hk]] | Hs']].
  - rewrite Hk. exact (Hpre wk Hoo).
  - rewrite Hk. destruct Hsync as [H | H]; [exact (False_ind _ (Hex H)) | exact H].
  - exact (Hpost _ c kont wk e Hs' Ht He (fun H => H)).
Qed.

Lemma enc_commit_fault : forall A (okp : A -> Prop) g c0 n w v vpost (K : res -> prog A),
  fixed g = true -> meta_name n -> meta_content c0 ->
  recover g w = Some v -> ~ footprint (cv_chain v) (tmp_of n) ->
  recover g (enc_fs w n c0) = Some vpost ->
  (forall x, exists a, K x = Ret a) -> (forall a, K Failed = Ret a -> ~ okp a) ->
  forall j c kont wk e, step_at (bind (encode_to_file g c0 n) K) w j = Some (c, kont, wk) -> traced c = true -> EE e ->
    FOutP okp g v vpost (ff (kont (RErr e)) wk).
Proof.
  intros A okp g c0 n w v vpost K Hfx Hn Hc Hrec Htmp Hrp HK Hnok j c kont wk e Hs Ht He.
  destruct (HK Failed) as [a Ha]. destruct (HK Ok) as [b Hb].
  refine (FAP_enc_bind _ (FOutP okp g v vpost) (fun _ => False) g c0 n K w Hfx Hn Hc _ _ _ j c kont wk e Hs Ht He (fun H => H)).
  - intros wk' Hoo. rewrite Ha. apply FOutP_pre with (vk := v); [| apply veq_refl | intros a0 [= <-]; exact (Hnok a Ha)].
    eapply recover_only_on; [exact Hrec | exact Hoo | intros x <-; exact Htmp].
  - right. rewrite Ha. apply FOutP_post. exact Hrp.
  - rewrite Hb. intros j' c' k' w' e' Hs'. discriminate.
Qed.

Lemma FA_vol1 : forall g w v i' (k1 : res -> prog (mem * res)) ex,
  fixed g = true -> recover g w = Some v -> i_head i' = i_head (cv_info v) ->
  (forall x, exists a, k1 x = Ret a) -> (forall a, k1 Failed = Ret a -> snd a <> Ok) ->
  FA g v (mkview i' (cv_chain v)) ex (bind (encode_to_file g (IVol i') Vol) k1) w.
Proof.
  intros g w v i' k1 ex Hfx Hrec Hh Hk1 Hnok j c kont wk e Hs Ht He _. apply FOutP_R.
  eapply enc_commit_fault with (K := k1); try eassumption;
    [left; reflexivity | exact I | apply footprint_voltmp | apply recover_vol_rewrite; assumption].
Qed.

Lemma FAO_vol : forall g w v i' A (k1 : res -> prog A) (k2 : A -> prog (option mem * res * nat)),
  fixed g = true -> recover g w = Some v -> i_head i' = i_head (cv_info v) ->
  (forall x, exists a, k1 x = Ret a) -> (forall a, exists b, k2 a = Ret b) ->
  (forall a b, k1 Failed = Ret a -> k2 a = Ret b -> ~ okO b) ->
  FAO g v (mkview i' (cv_chain v)) (fun _ => False) (bind (bind (encode_to_file g (IVol i') Vol) k1) k2) w.
Proof.
  intros g w v i' A k1 k2 Hfx Hrec Hh Hk1 Hk2 Hnok j c kont wk e Hs Ht He _.
  rewrite (step_at_ret_cont _ _ _ k2 w j Hk2) in Hs.
  destruct (step_at (bind (encode_to_file g (IVol i') Vol) k1) w j) as [[[c' kont'] wk'] |] eqn:Hs1; [| discriminate].
  injection Hs as <- <- <-. apply FOutP_O. apply FOutP_bind_ret with (okp := fun a => exists b, k2 a = Ret b /\ okO b).
  - intros a. destruct (Hk2 a) as [b Hb]. exists b. split; [exact Hb | intros Hok; exists b; auto].
  - eapply enc_commit_fault with (K := k1); try eassumption;
      [left; reflexivity | exact I | apply footprint_voltmp | apply recover_vol_rewrite; assumption |].
    intros a Ha [b [Hb Hok]]. exact (Hnok a b Ha Hb Hok).
Qed.

Lemma vol_op_fault : forall g w v i' A (k1 : res -> prog A) (k2 : A -> prog (option mem * res * nat)),
  fixed g = true -> recover g w = Some v -> i_head i' = i_head (cv_info v) ->
  (forall x, exists a, k1 x = Ret a) -> (forall a, exists b, k2 a = Ret b) ->
  (forall a b, k1 Failed = Ret a -> k2 a = Ret b -> ~ okO b) ->
  fault_ok g (bind (bind (encode_to_file g (IVol i') Vol) k1) k2) w.
Proof.
  intros g w v i' A k1 k2 Hfx Hrec Hh Hk1 Hk2 Hnok.
  apply fault_okx_intro with (v := v) (vpost := mkview i' (cv_chain v)); [exact Hrec | | apply FAO_vol; assumption].
  rewrite (ff_bind_ret_fst _ _ _ k2 w Hk2), (ff_bind_ret_fst _ _ _ k1 w Hk1), ff_encode_vol. apply recover_vol_rewrite; assumption.
Qed.

(** ** the operations whose failures are all reported at once *)

Theorem write_fault_atomic : forall g w m,
  InvS g (mkst w (Some m)) -> fault_ok g (op_prog g (Some m) OWrite) w.
Proof.
  intros g w m Hinv. destruct (InvS_ctx g w m Hinv) as [v Hctx].
  cbn [op_prog]. apply (fault_ok_ospec g w v m _ Hctx (write_at_spec g w v m Hctx)).
  unfold write_at. destruct (m_mode m) eqn:Hmode; try apply errQ_ret.
  all: cbv zeta; cbn [m_info m_mode set_info]; rewrite ?Hmode; destruct (i_head _) as [h |]; [| apply errQ_ret].
  all: apply errQ_do; [intros _ e He; left; discriminate |].
  all: destruct (is_err _); [apply errQ_ret |]; try apply errQ_ret.
  all: apply errQ_do; [intros _ e He; left; discriminate |].
  all: destruct (is_err _); apply errQ_ret.
Qed.

Theorem resize_fault_atomic : forall g w m sz,
  fixed g = true -> InvS g (mkst w (Some m)) -> fault_ok g (lift (resize g m sz)) w.
Proof.
  intros g w m sz Hfx Hinv. destruct (InvS_ctx g w m Hinv) as [v Hctx].
  apply (fault_ok_ospec g w v m _ Hctx (resize_spec g w v m sz Hctx)).
  unfold resize. destruct (mchain g m) as [ch |]; [| apply errQ_ret]. destruct (N.ltb sz _); [apply errQ_ret |].
  eapply errQ_bind with (Q := fun b => b = false); [apply errQ_truncate_all | intros b ->; discriminate |].
  intros okf _. destruct (negb okf); [apply errQ_ret |].
  apply errQ_pair, errQ_enc, Hfx.
Qed.

Theorem checkpoint_fault_atomic : forall g w m c,
  fixed g = true -> InvS g (mkst w (Some m)) -> fault_ok g (lift (set_checkpoint g m c)) w.
Proof.
  intros g w m c Hfx Hinv. destruct (InvS_ctx g w m Hinv) as [v Hctx].
  apply (fault_ok_ospec g w v m _ Hctx (set_checkpoint_spec g w v m c Hctx)).
  apply errQ_pair, errQ_enc, Hfx.
Qed.

Theorem close_fault_atomic : forall g w m,
  fixed g = true -> InvS g (mkst w (Some m)) -> fault_ok g (op_prog g (Some m) OClose) w.
Proof.
  intros g w m Hfx Hinv. destruct (InvS_ctx g w m Hinv) as [v Hctx].
  apply (fault_ok_sspec _ (fun a => snd a = Ok) g w v _ _ _ (cx_rec _ _ _ _ Hctx) (close_sspec g w v m Hctx)).
  - apply errQ_pair, errQ_enc, Hfx.
  - intros [m1 e]. destruct e; eexists; (split; [reflexivity |]); intros H; [reflexivity | discriminate H ..].
Qed.

Theorem rebuilding_fault_atomic : forall g w m b,
  fixed g = true -> InvS g (mkst w (Some m)) -> fault_ok g (lift (set_rebuilding g m b)) w.
Proof.
  intros g w m b Hfx Hinv. destruct (InvS_ctx g w m Hinv) as [v Hctx].
  apply (fault_ok_ospec g w v m _ Hctx (set_rebuilding_spec g w v m b Hctx)).
  apply errQ_encode_ret; [exact Hfx |].
  intros e. destruct e; eexists; (split; [reflexivity |]); intros He; [exfalso; apply He; reflexivity | |]; discriminate.
Qed.

Theorem prepare_fault_atomic : forall g w m arg,
  fixed g = true -> InvS g (mkst w (Some m)) -> fault_ok g (op_prog g (Some m) (OPrep arg)) w.
Proof.
  intros g w m arg Hfx Hinv. destruct (InvS_ctx g w m Hinv) as [v Hctx].
  apply (fault_ok_sspec _ (fun a : mem * res * nat => snd (fst a) = Ok) g w v _ _ _ (cx_rec _ _ _ _ Hctx) (prepare_remove_disk_spec g w v m arg Hctx));
    [| intros [[m1 e0] n0]; eexists; split; [reflexivity | intros H; exact H]].
  unfold prepare_remove_disk.
  destruct (negb (mode_eqb (m_mode m) RW)); [apply errQ_ret |].
  destruct (match m_disks m arg with Some x => Some (arg, x) | None => _ end) as [[d data] |]; [| apply errQ_ret].
  destruct (odname_eqb (Some d) (i_head (m_info m))); [apply errQ_ret |].
  destruct (odname_eqb (i_parent (m_info m)) (Some d)); [apply errQ_ret |].
  destruct (d_parent data) as [par |]; [| apply errQ_ret].
  apply errQ_untraced; [reflexivity |]. destruct (is_err _); [apply errQ_ret |].
  apply errQ_untraced; [reflexivity |]. destruct (is_err _); [apply errQ_ret |].
  apply errQ_encode_ret; [exact Hfx |].
  intros e. destruct e; cbn [is_ok res_eqb negb]; [destruct (m_disks _ par) |..]; eexists; (split; [reflexivity |]); intros He;
    try (exfalso; apply He; reflexivity); cbn; discriminate.
Qed.

(** RemoveDiffDisk: a failed rewrite of a neighbour's metadata file ends the process (logrus.Fatalf),
    which the outcome accepts; the files of the removed disk are unlinked last *)
Lemma errQ_remove_disk_node : forall g m d w, fixed g = true -> errQ notOkR (remove_disk_node g m d) w.
Proof.
  intros g m d w Hfx. unfold remove_disk_node.
  destruct (m_disks m d) as [dd |]; [| apply errQ_ret].
  destruct (m_children m (Some d)) as [| child [| ? ?]]; try apply errQ_ret.
  destruct (m_disks _ child) as [cd |]; [| apply errQ_abort].
  eapply errQ_bind with (Q := notOk); [apply errQ_enc; exact Hfx | |].
  { intros b Hb. rewrite (notOk_negb b Hb). exact I. }
  intros e1 _. destruct (negb (is_ok e1)); [apply errQ_abort |].
  eapply errQ_bind with (Q := notOkR).
  - unfold rdn_parent_rev. destruct (d_parent dd) as [p |]; [| apply errQ_ret]. destruct (m_disks _ p) as [pd |]; [| apply errQ_abort].
    apply errQ_pair, errQ_enc, Hfx.
  - intros [m3 e2] Hb. rewrite (notOk_negb e2 Hb). exact I.
  - intros [m3 e2] _. destruct (negb (is_ok e2)); [apply errQ_abort | apply errQ_ret].
Qed.

Lemma errQ_remove_diff_disk : forall g m d w, fixed g = true -> errQ notOkR (remove_diff_disk g m d) w.
Proof.
  intros g m d w Hfx. destruct (remove_diff_disk_cases g m d) as [-> | [_ [_ ->]]]; [apply errQ_ret |].
  eapply errQ_bind with (Q := notOkR); [apply errQ_remove_disk_node; exact Hfx | |].
  - intros [m1 e1] Hb. rewrite (notOk_negb e1 Hb). exact Hb.
  - intros [m1 e1] _. destruct (negb (is_ok e1)); [apply errQ_ret |].
    apply errQ_pair, errQ_rm_disk.
Qed.

Theorem remove_FA : forall g w v m d,
  fixed g = true -> cfg_ok g -> ctx g w v m ->
  exists vpost, recover g (fst (ff (remove_diff_disk g m d) w)) = Some vpost
    /\ FOut g v vpost (ff (remove_diff_disk g m d) w)
    /\ FA g v vpost (fun _ => False) (remove_diff_disk g m d) w.
Proof.
  intros g w v m d Hfx _ Hctx.
  destruct (remove_diff_disk_spec g w v m d Hctx) as [wF [mF [rF [vpost [HffF [HctxF [HstF _]]]]]]].
  assert (HFO : FOut g v vpost (ff (remove_diff_disk g m d) w)) by (apply FOutP_R, FOutP_post; rewrite HffF; apply HctxF).
  exists vpost. split; [rewrite HffF; apply HctxF | split; [exact HFO |]].
  apply FA_of_errQ; [apply errQ_remove_diff_disk; exact Hfx | exact HstF | exact HFO].
Qed.

Theorem remove_fault_atomic : forall g w m d,
  fixed g = true -> cfg_ok g -> InvS g (mkst w (Some m)) -> fault_ok g (op_prog g (Some m) (ORemove d)) w.
Proof.
  intros g w m d Hfx Hcfg Hinv. destruct (InvS_ctx g w m Hinv) as [v Hctx].
  destruct (remove_FA g w v m d Hfx Hcfg Hctx) as [vpost [H1 [_ H3]]].
  cbn [op_prog]. apply fault_okx_lift with (v := v) (vpost := vpost); [apply Hctx | exact H1 | exact H3].
Qed.

(** ReplaceDisk, refused (wrong mode, the target is the head, no source file): no call that can fail *)
Theorem replace_refused_fault_atomic : forall g w m t src,
  InvS g (mkst w (Some m)) -> ok_op g (mkst w (Some m)) (OReplace t src) ->
  fault_ok g (op_prog g (Some m) (OReplace t src)) w.
Proof.
  intros g w m t src Hinv Hok. destruct (InvS_ctx g w m Hinv) as [v Hctx].
  unfold ok_op in Hok. cbn [s_fs s_mem] in Hok. rewrite (cx_rec _ _ _ _ Hctx) in Hok.
  cbn [op_prog]. apply (fault_ok_ospec g w v m _ Hctx (replace_refused_spec g w v m t src Hctx Hok)).
  unfold replace_disk.
  destruct (negb (mode_eqb (m_mode m) RW)) eqn:Em; [apply errQ_ret |].
  destruct (odname_eqb (Some t) (i_head (m_info m))) eqn:Eh; [apply errQ_ret |].
  destruct Hok as [H | [H | H]].
  - exfalso. apply H. destruct (m_mode m); cbn in Em; congruence.
  - exfalso. rewrite H, odname_eqb_refl in Eh. discriminate.
  - unfold hardlink_disk. cbn [bind]. apply errQ_untraced; [reflexivity |].
    cbn [apply_call]. rewrite H. cbn [snd is_err bind is_ok res_eqb negb]. apply errQ_ret.
Qed.

(** Create on a directory that already holds a volume: [create_volume] reads volume.meta once and returns *)
Theorem create_existing_fault_atomic : forall g w size now,
  InvS g (mkst w None) -> fault_ok g (op_prog g None (OCreate size now)) w.
Proof.
  intros g w size now [v [Hrec _]]. cbn [s_fs s_mem] in *. cbn [op_prog].
  destruct (recover_elim g w v Hrec) as [Hvol _].
  assert (Hff : ff (create_volume g size now) w = (w, Done (None, Ok, O))).
  { unfold create_volume. cbn [ff apply_call]. rewrite Hvol. reflexivity. }
  apply fault_okx_intro with (v := v) (vpost := v); [exact Hrec | rewrite Hff; exact Hrec |].
  unfold create_volume. apply (FAP_do _ (FOutO g v v)).
  - intros _ e He. apply FOutP_O, FOutP_post. destruct He as [-> | ->]; exact Hrec.
  - cbn [apply_call]. rewrite Hvol. intros j c kont wk e Hs. discriminate.
Qed.

(** ** Open *)

Lemma errQ_init_rev : forall w, errQ (fun o : option Z => o = None) init_revision_counter w.
Proof.
  intros w. unfold init_revision_counter. apply errQ_untraced; [reflexivity |].
  assert (Hread : forall w0, errQ (fun o : option Z => o = None)
            (Do CPreadCounter (fun r => match r with RIno (ICounter v) => Ret (Some v) | _ => Ret None end)) w0).
  { intros w0. apply errQ_untraced; [reflexivity |]. destruct (snd (apply_call w0 CPreadCounter)) as [| | | [] |]; apply errQ_ret. }
  destruct (is_err (snd (apply_call w (CStat Counter)))).
  - eapply errQ_bind with (Q := fun b => b = false); [apply errQ_open_file; reflexivity | intros b ->; reflexivity |].
    intros okf _. destruct (negb okf); [apply errQ_ret |].
    apply errQ_do; [intros _ e He; left; cbn; reflexivity |].
    destruct (is_err _); [apply errQ_ret | apply Hread].
  - apply errQ_do; [intros _ e He; left; cbn; reflexivity |].
    destruct (is_err _); [apply errQ_ret | apply Hread].
Qed.

Lemma errQ_read_chain : forall g fuel present m x w, fixed g = true -> errQ notOkR (read_chain g fuel present m x) w.
Proof.
  intros g fuel. induction fuel as [| fuel IH]; intros present m x w Hfx; cbn [read_chain]; [apply errQ_abort |].
  destruct (negb (present (Meta x))); [apply errQ_ret |].
  apply errQ_do; [intros _ e He; left; discriminate |].
  destruct (snd (apply_call w (CReadFile (Meta x)))) as [| | | [i | d | | |] |]; try apply errQ_ret.
  eapply errQ_bind with (Q := fun t : disk * res => snd t <> Ok).
  - destruct (Z.leb (d_rev d) 1); [| apply errQ_ret].
    eapply errQ_bind with (Q := fun _ : Z => False); [apply errQ_get_rev | intros b [] |].
    intros rv _. apply errQ_pair, errQ_enc, Hfx.
  - intros [d1 e1] Hb. cbn in Hb. cbn. destruct e1; try congruence; discriminate.
  - intros [d1 e1] _. destruct (negb (is_ok e1)); [apply errQ_ret |].
    destruct (d_parent d1); [apply IH; exact Hfx | apply errQ_ret].
Qed.

Definition notOk3 (t : mem * bool * res) : Prop := snd t <> Ok.

Lemma errQ_read_metadata : forall g m w, fixed g = true -> errQ notOk3 (read_metadata g m) w.
Proof.
  intros g m w Hfx. unfold read_metadata.
  apply errQ_do; [intros _ e He; left; discriminate |].
  destruct (snd (apply_call w CReadDir)) as [| | | | present]; try apply errQ_ret.
  destruct (negb (present Vol)); [apply errQ_ret |].
  apply errQ_do; [intros _ e He; left; discriminate |].
  destruct (snd (apply_call _ (CReadFile Vol))) as [| | | [i | d | | |] |]; try apply errQ_ret.
  destruct (i_head i) as [h |]; [| apply errQ_ret].
  eapply errQ_bind_ret; [apply errQ_read_chain; exact Hfx |].
  intros [m2 e2]. destruct e2; eexists; (split; [reflexivity |]); intros Hb;
    [exfalso; apply Hb; reflexivity | |]; discriminate.
Qed.

Lemma errQ_open_all : forall l w, errQ (fun b => b = false) (open_all l) w.
Proof.
  induction l as [| x t IH]; intros w; cbn [open_all]; [apply errQ_ret |].
  eapply errQ_bind with (Q := fun b => b = false); [apply errQ_open_file; reflexivity | intros b ->; reflexivity |].
  intros okf _. destruct okf; [apply IH | apply errQ_ret].
Qed.

Lemma errQ_open_live_chain : forall g m w, errQ notOkR (open_live_chain g m) w.
Proof.
  intros g m w. unfold open_live_chain. destruct (mchain g m) as [ch |]; [| apply errQ_ret].
  destruct (Nat.ltb (maxlen g) (length ch)); [apply errQ_ret |].
  eapply errQ_bind_ret; [apply errQ_open_all |].
  intros okf. destruct okf; eexists; (split; [reflexivity |]); intros Hb; [discriminate Hb |]. discriminate.
Qed.

Definition notOkC (a : option mem * res) : Prop := snd a <> Ok.

(** New (construct) on a directory in which readMetadata finds the volume: nothing is created *)
Lemma errQ_construct : forall g size now w c w2 m2, fixed g = true ->
  files w Counter = Some (ICounter c) ->
  ff (read_metadata g (mkmem (empty_info size) no_disks no_children [] INIT c)) w = (w2, Done (m2, true, Ok)) ->
  errQ notOkC (construct g size now) w.
Proof.
  intros g size now w c w2 m2 Hfx Hc Hffrm. unfold construct.
  apply errQ_do; [intros _ e [He | He]; subst e; left; discriminate |].
  cbn [apply_call fst snd].
  destruct (init_rev_spec w c Hc) as [Hir _].
  eapply errQ_bind with (Q := fun o : option Z => o = None); [apply errQ_init_rev | intros b Hb; subst b; discriminate |].
  intros oc Hoc. rewrite Hir in *. cbn [fst snd] in *. injection Hoc as <-.
  eapply errQ_bind with (Q := notOk3); [apply errQ_read_metadata; exact Hfx | |].
  { intros [[m1 ex] e1] Hb. unfold notOk3 in Hb. cbn in Hb. destruct e1; try congruence; discriminate. }
  intros a Ha. rewrite Hffrm in *. cbn [fst snd] in *. injection Ha as <-. cbn [is_ok res_eqb negb].
  eapply errQ_bind with (Q := notOkR); [apply errQ_open_live_chain | |].
  { intros [m3 e2] Hb. unfold notOkR in Hb. cbn in Hb. destruct e2; try congruence; discriminate. }
  intros [m3 e2] _. destruct (negb (is_ok e2)); [apply errQ_ret |].
  destruct (i_head (m_info m3)) as [h |]; [| apply errQ_abort].
  destruct (m_disks m3 h) as [hd |]; [| apply errQ_abort].
  apply errQ_encode_ret; [exact Hfx |].
  intros e3. destruct e3; eexists; (split; [reflexivity |]); intros Hb;
    [exfalso; apply Hb; reflexivity | |]; discriminate.
Qed.

Theorem open_fault_atomic : forall g w,
  cfg_ok g -> fixed g = true -> InvS g (mkst w None) -> fault_ok g (op_prog g None OOpen) w.
Proof.
  intros g w _ Hfx [v [Hrec [Hwf [Hfr _]]]]. cbn [s_fs s_mem] in *. cbn [op_prog].
  destruct (recover_elim g w v Hrec) as [Hvol _].
  set (vF c := mkview (set_dirty_rebuilding (cv_info v) true (i_rebuilding (cv_info v))) (norm_chain c (cv_chain v))).
  set (K := fun t_ : option mem * res => let '(om, e0) := t_ in Ret (om, e0, O)).
  (* whatever size it is given, New ends in the same view *)
  assert (Hcs : forall size, exists c,
            files w Counter = Some (ICounter c)
            /\ recover g (fst (ff (bind (construct g size 0) K) w)) = Some (vF c)
            /\ FAO g v (vF c) (fun _ => False) (bind (construct g size 0) K) w).
  { intros size. destruct (construct_spec g w v size 0 Hrec Hwf Hfr) as [wF [mF [c [Hc HF]]]].
    cbn zeta in HF. destruct HF as [HffF [HctxF [HstF [_ [w2 [m2 Hrm]]]]]].
    assert (HrF : recover g (fst (ff (bind (construct g size 0) K) w)) = Some (vF c)) by (rewrite (ff_bind_done HffF); apply HctxF).
    exists c. split; [exact Hc | split; [exact HrF |]].
    apply FAO_bind_ret with (okp := fun a => snd a = Ok); [exact HrF | | eapply errQ_construct; eassumption
      | intros [om e0]; eexists; split; [reflexivity | intros H; exact H]].
    eapply Atomic_bind; [exact HffF | exact HstF | apply Atomic_ret, Good_post, HctxF]. }
  destruct (Hcs (i_size (cv_info v))) as [c [Hc [HrF HFA]]].
  apply fault_okx_intro with (v := v) (vpost := vF c); [exact Hrec | | ].
  { unfold open_volume. cbn [ff apply_call]. rewrite Hvol. exact HrF. }
  unfold open_volume. apply (FAP_do _ (FOutO g v (vF c))).
  - (* ReadInfo fails: the size argument is 0, which the metadata read overrides *)
    intros _ e He. destruct (Hcs 0%N) as [c' [Hc' [HrF' _]]].
    assert (c' = c) by congruence. subst c'. apply FOutP_O, FOutP_post. exact HrF'.
  - cbn [apply_call]. rewrite Hvol. exact HFA.
Qed.

(** ** Snapshot *)

Lemma wq_cleanup_sn : forall nh sn (m' : mem) e, e <> Ok ->
  withinQ (snap_S1 nh sn) notOkR (_ <- rm_disk (Some sn) ;; Ret (m', e)).
Proof.
  intros nh sn m' e He. eapply withinQ_bind; [apply wq_rm_disk; intros x; apply snap_S1_disk; auto | intros _ _; exact He].
Qed.

Lemma wq_cleanup : forall nh sn (m' : mem) e, e <> Ok -> withinQ (snap_S1 nh sn) notOkR (cd_cleanup nh (Some sn) m' e).
Proof.
  intros nh sn m' e He. unfold cd_cleanup.
  eapply withinQ_bind; [apply wq_rm_disk; intros x; apply snap_S1_disk; auto | intros _ _; apply wq_cleanup_sn; exact He].
Qed.

(** a failing call inside the clean-up: the rest of the clean-up still runs *)
Lemma errB_cleanup : forall nh sn (m' : mem) e w, e <> Ok -> errB (snap_S1 nh sn) notOkR (cd_cleanup nh (Some sn) m' e) w.
Proof.
  intros nh sn m' e w He.
  assert (Hin : forall d, d = nh \/ d = sn -> snap_S1 nh sn (Img d) /\ snap_S1 nh sn (Meta d)).
  { intros d Hd. exact (snap_S1_disk nh sn d d Hd eq_refl). }
  assert (Hoo : forall d w0, d = nh \/ d = sn -> only_on (snap_S1 nh sn) w0 (fst (ff (rm_disk (Some d)) w0))).
  { intros d w0 Hd. apply within_ff. eapply withinQ_within, wq_rm_disk. intros x; apply snap_S1_disk; exact Hd. }
  unfold cd_cleanup.
  eapply errB_bind with (Q := notOk); [apply errB_rm_disk; apply Hin; auto | intros b _; apply wq_cleanup_sn; exact He |].
  intros a _. split; [apply Hoo; auto |].
  eapply errB_bind with (Q := notOk); [apply errB_rm_disk; apply Hin; auto | intros b _; exact He |].
  intros a2 _. split; [apply Hoo; auto | apply errB_ret].
Qed.

Lemma FA_cleanup : forall g v vpost ex nh sn (m' : mem) e w,
  recover g w = Some v -> (forall x, snap_S1 nh sn x -> ~ footprint (cv_chain v) x) -> e <> Ok ->
  FA g v vpost ex (cd_cleanup nh (Some sn) m' e) w.
Proof.
  intros g v vpost ex nh sn m' e w Hrec Hdis He.
  apply FA_errB with (S := snap_S1 nh sn) (w0 := w); [exact Hrec | exact Hdis | apply only_on_refl | apply errB_cleanup; exact He |].
  eapply FOut_pre_within; [exact Hrec | exact Hdis | apply wq_cleanup; exact He].
Qed.

(** the commit stage of createDisk ([fix_commit g = false]: the code as it is); local index 4, the directory sync
    that follows the rename of volume.meta, is excluded.  Before the rename the error exit and the clean-up touch
    only the new names; after it only the old head's two files can still change, which the new view does not
    mention. *)
Lemma FA_cd_commit_gen : forall g w3 v vpost ma oh sn nh nd (ex : nat -> Prop),
  fixed g = true -> fix_commit g = false ->
  recover g w3 = Some v -> (forall x, snap_S1 nh sn x -> ~ footprint (cv_chain v) x) ->
  recover g (fst (ff (cd_commit g ma (Some oh) (Some sn) nh nd) w3)) = Some vpost ->
  ex 4 ->
  FA g v vpost ex (cd_commit g ma (Some oh) (Some sn) nh nd) w3.
Proof.
  intros g w3 v vpost ma oh sn nh nd ex Hfx Hfc Hrec3 Hdis HrecF Hex4. unfold cd_commit in *. rewrite Hfc in *.
  set (mc := cd_memc ma (Some oh) nh) in *. set (info' := set_head_info (m_info mc) (Some nh) true (Some sn) (d_rev nd)) in *.
  rewrite ff_bind, ff_encode_vol in HrecF. cbn [fst is_ok res_eqb negb] in HrecF.
  apply (FAP_enc_bind _ (FOut g v vpost)); [exact Hfx | left; reflexivity | exact I | | left; exact Hex4 | cbn [is_ok res_eqb negb]].
  - intros wk Hoo. apply FOut_pre_within with (S := snap_S1 nh sn); [| exact Hdis | apply wq_cleanup; discriminate].
    eapply recover_only_on; [exact Hrec3 | | exact Hdis].
    intros x Hx. apply Hoo. intros <-. apply Hx. unfold snap_S1; cbn; auto 10.
  - intros j c kont wk e Hs' Ht He _.
    (* the old head's image is gone at the end, so the view recovered there does not hold it *)
    assert (Hoh : ~ In oh (names_of_chain (cv_chain vpost))).
    { destruct (rm_disk_ff (enc_fs w3 Vol (IVol info')) oh) as [w5 [Hff5 [Hnone _]]]. rewrite ff_bind, Hff5 in HrecF.
      intros H. exact (recover_img g w5 vpost oh HrecF H Hnone). }
    match type of Hs' with step_at ?P ?w _ = _ => set (TAIL := P) in *; set (w4 := w) in * end.
    assert (Hw : within (own oh) TAIL) by (apply within_bind; [apply rm_disk_within | intros; exact I]).
    assert (Hq : errQ (fun _ => True) TAIL w4).
    { eapply errQ_bind_ret; [apply errQ_rm_disk |]. intros a. eexists. split; [reflexivity | auto]. }
    apply FOutP_R, FOutP_post. destruct (Hq _ c kont wk e Hs' Ht He) as [Hk | Hk]; [| rewrite Hk; exact HrecF].
    eapply recover_only_on with (S := own oh); [exact HrecF | | intros x; apply own_off_chain; exact Hoh].
    intros x Hx. rewrite (within_ff _ _ _ w4 Hw x Hx).
    rewrite (within_ff _ NoN _ wk (withinQ_within _ _ _ _ Hk) x) by (intros []).
    exact (step_at_only_on _ (own oh) TAIL w4 _ _ _ _ Hw Hs' x Hx).
Qed.

(** the same over the files createDisk has written when it reaches the commit *)
Lemma FA_cd_commit : forall g w0 w3 v ma n s nd rec idn id0 d0 tl gn (ex : nat -> Prop),
  let nh := Head (S n) in let sn := Snap s in let oh := Head n in
  fixed g = true -> fix_commit g = false ->
  recover g w0 = Some v -> only_on (snap_S1 nh sn) w0 w3 ->
  cv_chain v = mkmember oh id0 d0 :: tl ->
  Forall (fun mb => is_snap (mb_name mb)) tl ->
  NoDup (names_of_chain (cv_chain v)) ->
  ~ In sn (names_of_chain (cv_chain v)) ->
  S (length (cv_chain v)) <= maxlen g ->
  files w3 (Meta nh) = Some (IDisk nd) -> files w3 (Img nh) = Some (IImg idn 0) ->
  files w3 (Meta sn) = Some (IDisk rec) -> files w3 (Img sn) = Some (IImg id0 gn) ->
  d_parent nd = Some sn -> d_parent rec = d_parent d0 ->
  ex 4 ->
  let mc := cd_memc ma (Some oh) nh in
  let info' := set_head_info (m_info mc) (Some nh) true (Some sn) (d_rev nd) in
  let vpost := mkview info' (mkmember nh idn nd :: mkmember sn id0 rec :: tl) in
  FA g v vpost ex (cd_commit g ma (Some oh) (Some sn) nh nd) w3.
Proof.
  intros g w0 w3 v ma n s nd rec idn id0 d0 tl gn ex nh sn oh Hfx Hfc Hrec0 Hoo3 Hchain Hsnaps Hnd Hsn Hlen
         Hmnh Hinh Hmsn Hisn Hpnd Hprec Hex4 mc info' vpost.
  assert (Hnh : ~ In nh (names_of_chain (cv_chain v))) by (rewrite Hchain; apply next_head_fresh; exact Hsnaps).
  assert (Hdis : forall x, snap_S1 nh sn x -> ~ footprint (cv_chain v) x) by (intros x; exact (snap_S1_disjoint _ nh sn x Hnh Hsn)).
  pose proof (recover_only_on g _ w0 w3 v Hrec0 Hoo3 Hdis) as Hrec3.
  destruct (cd_commit_spec g w3 v ma nh sn oh nd rec idn id0 d0 tl gn Hrec3 Hchain Hnd Hnh Hsn Hlen Hmnh Hinh Hmsn Hisn Hpnd Hprec)
    as [w5 [[Hff5 _] Hrec5]].
  apply FA_cd_commit_gen; [exact Hfx | exact Hfc | exact Hrec3 | exact Hdis | rewrite Hff5; exact Hrec5 | exact Hex4].
Qed.

Lemma f11_cd_commit : forall g ma old snap nh nd w, fixed g = true -> f11_at (cd_commit g ma old snap nh nd) w 4.
Proof.
  intros g ma old snap nh nd w Hfx. unfold cd_commit.
  destruct (encode_calls_3_4 g (IVol (set_head_info (m_info (cd_memc ma old nh)) (Some nh) true snap (d_rev nd))) Vol w Hfx (or_introl eq_refl) I) as [E3 [E4 _]].
  split; [apply call_at_bind_lt; exact E4 | exists 3; split; [reflexivity | apply call_at_bind_lt; exact E3]].
Qed.

Theorem create_disk_fault : forall g w v m s user cr,
  ctx g w v m -> cfg_ok g -> fixed g = true -> fix_commit g = false ->
  (fix_dup g = true \/ ~ In (Snap s) (names_of_chain (cv_chain v))) ->
  (~ In (Snap s) (names_of_chain (cv_chain v)) -> m_children m (Some (Snap s)) = []) ->
  exists vpost,
    recover g (fst (ff (create_disk g m s user cr) w)) = Some vpost
    /\ FOut g v vpost (ff (create_disk g m s user cr) w)
    /\ FA g v vpost (f11_at (create_disk g m s user cr) w) (create_disk g m s user cr) w.
Proof.
  intros g w v m s user cr Hctx _ Hfx Hfc Hdup Hch.
  destruct (create_disk_spec g w v m s user cr Hctx Hdup Hch) as [wF [mF [rF [vpost [HffF [HctxF _]]]]]].
  exists vpost. split; [rewrite HffF; apply HctxF |].
  assert (HFO : FOut g v vpost (ff (create_disk g m s user cr) w)) by (apply FOutP_R, FOutP_post; rewrite HffF; apply HctxF).
  split; [exact HFO |].
  destruct (ctx_shape g w v m Hctx) as [n [id0 [d0 [tl [c [Hchain [_ [Hmh [Hsnaps [_ [_ [_ [Hcnt _]]]]]]]]]]]]].
  pose proof (cx_rec _ _ _ _ Hctx) as Hrec.
  assert (Hnh : ~ In (Head (S n)) (names_of_chain (cv_chain v))) by (rewrite Hchain; apply next_head_fresh; exact Hsnaps).
  revert HFO HffF. unfold create_disk. rewrite Hmh. intros HFO HffF.
  eapply FA11_bind_within with (S := NoN) (Q := notOk);
    [exact Hrec | intros x [] | exact (withinQ_within _ _ _ _ (wq_sync_dir NoN)) | apply errQ_sync_dir | | exact HFO |].
  { intros b Hb. rewrite (notOk_negb b Hb). discriminate. }
  intros a w' Ha _. rewrite ff_sync_dir in Ha. injection Ha as <- <-.
  rewrite ff_bind, ff_sync_dir in HFO, HffF. cbn [is_ok res_eqb negb] in *.
  destruct (Nat.ltb (maxlen g) (S (S (length (m_active m))))); [apply FA_ret |].
  destruct (fix_dup g && match m_disks m (Snap s) with Some _ => true | None => false end) eqn:Hfd; [apply FA_ret |].
  assert (Hsn : ~ In (Snap s) (names_of_chain (cv_chain v))).
  { destruct Hdup as [Hdup | Hdup]; [| exact Hdup]. rewrite Hdup in Hfd. cbn [andb] in Hfd.
    destruct (m_disks m (Snap s)) eqn:Hms; [discriminate | exact (fun H => proj2 (agree_disk_dom g v m _ (cx_ag _ _ _ _ Hctx)) H Hms)]. }
  assert (Hdis : forall x, snap_S1 (Head (S n)) (Snap s) x -> ~ footprint (cv_chain v) x).
  { intros x Hx. exact (snap_S1_disjoint _ _ _ x Hnh Hsn Hx). }
  eapply FA11_bind_within with (S := snap_S1 (Head (S n)) (Snap s)) (Q := Qcnh (Head (S n)));
    [exact Hrec | exact Hdis | | apply errQ_create_new_head; exact Hfx | | exact HFO |].
  { apply withinQ_within with (Q := cnh_post (Head (S n))). apply wq_create_new_head; unfold snap_S1; cbn; auto 10. }
  { intros [[nhn nd] e1] [Hq1 Hq2]. cbn [fst snd] in *. rewrite (notOk_negb e1 Hq1).
    eapply withinQ_bind; [apply wq_rm_disk | intros _ _; discriminate].
    intros x Hx. destruct Hq2 as [E | E]; rewrite E in Hx; [discriminate | apply (snap_S1_disk _ _ (Head (S n))); auto]. }
  intros a1 w1 Hff1 Hrec1. rewrite ff_bind, Hff1 in HFO, HffF.
  destruct (cnh_ff g m n (Some (Snap s)) cr w c Hcnt) as [Hff1' | [w1' [Hff1' _]]]; rewrite Hff1' in Hff1; injection Hff1 as <- <-;
    cbn [is_ok res_eqb negb] in *; [cbn [rm_disk bind]; apply FA_ret |].
  unfold cd_link in *.
  eapply FA11_bind_within with (S := snap_S1 (Head (S n)) (Snap s)) (Q := notOk);
    [exact Hrec1 | exact Hdis | | apply errQ_link_disk | | exact HFO |].
  { eapply withinQ_within, wq_link_disk. intros x; apply snap_S1_disk; auto. }
  { intros b Hb. rewrite (notOk_negb b Hb). apply wq_cleanup. exact Hb. }
  intros e2 w2 Hff2 Hrec2. rewrite ff_bind, Hff2 in HFO, HffF.
  destruct e2; cbn [is_ok res_eqb negb] in *; try (apply FA_cleanup; [exact Hrec2 | exact Hdis | discriminate]).
  eapply FA11_bind_within with (S := snap_S1 (Head (S n)) (Snap s)) (Q := notOkR);
    [exact Hrec2 | exact Hdis | apply within_cd_snapmeta | apply errQ_cd_snapmeta; exact Hfx | | exact HFO |].
  { intros [ma e4] Hb. rewrite (notOk_negb e4 Hb). apply wq_cleanup. exact Hb. }
  intros [ma e4] w3 Hff3 Hrec3. rewrite ff_bind, Hff3 in HFO, HffF.
  destruct e4; cbn [is_ok res_eqb negb] in *; try (apply FA_cleanup; [exact Hrec3 | exact Hdis | discriminate]).
  apply FA_cd_commit_gen; [exact Hfx | exact Hfc | exact Hrec3 | exact Hdis | rewrite HffF; apply HctxF | apply f11_cd_commit; exact Hfx].
Qed.

Theorem snapshot_fault_ok : forall g w m s user cr,
  cfg_ok g -> fixed g = true -> fix_commit g = false ->
  InvS g (mkst w (Some m)) -> ok_op g (mkst w (Some m)) (OSnap s user cr) ->
  fault_ok11 g (lift (create_disk g m s user cr)) w.
Proof.
  intros g w m s user cr Hcfg Hfx Hfc Hinv Hok.
  destruct (InvS_ctx g w m Hinv) as [v Hctx]. unfold ok_op in Hok. cbn [s_fs s_mem] in Hok.
  rewrite (cx_rec _ _ _ _ Hctx) in Hok. destruct Hok as [Hdup Hch].
  destruct (create_disk_fault g w v m s user cr Hctx Hcfg Hfx Hfc Hdup Hch) as [vpost [Hrp [_ HFA]]].
  eapply fault_okx_mono; [| apply fault_okx_lift with (v := v) (vpost := vpost); [apply Hctx | exact Hrp | exact HFA]].
  intros j [H1 [j' [Hj H2]]]. rewrite <- call_at_lift in H1, H2. split; [exact H1 | exists j'; split; [exact Hj | exact H2]].
Qed.

Theorem snapshot_fault_atomic : forall g w m s user cr k e,
  cfg_ok g -> fixed g = true -> fix_commit g = false ->
  InvS g (mkst w (Some m)) -> ok_op g (mkst w (Some m)) (OSnap s user cr) -> EE e ->
  let p := lift (create_disk g m s user cr) in
  (forall c, call_at p w k = Some c -> traced c = true /\ ~ f11_at p w k) ->
  exists vpre vpost,
    recover g w = Some vpre /\ recover g (fst (ff p w)) = Some vpost
    /\ FOutO g vpre vpost (dir_of_run (fexec p w 0 k e), out_of_run (fexec p w 0 k e)).
Proof. intros g w m s user cr k e H1 H2 H3 H4 H5 He p. exact (snapshot_fault_ok g w m s user cr H1 H2 H3 H4 H5 k e He). Qed.

(** ** Revert *)

Lemma enc_fs_same : forall w w' n b x,
  only_on (fun y => y = tmp_of n \/ y = n) w w' -> files (enc_fs w' n b) x = files (enc_fs w n b) x.
Proof.
  intros w w' n b x H. unfold enc_fs. cbn [files]. unfold updf.
  destruct (name_eqb (tmp_of n) x) eqn:E1; [reflexivity |]. destruct (name_eqb n x) eqn:E2; [reflexivity |].
  apply H. intros [-> | ->]; rewrite name_eqb_refl in *; discriminate.
Qed.

Lemma enc_fs_twice : forall w n a b x, files (enc_fs (enc_fs w n a) n b) x = files (enc_fs w n b) x.
Proof. intros w n a b x. apply enc_fs_same. intros y Hy. apply enc_fs_other; intro; apply Hy; auto. Qed.

(** revertDisk in three phases.  Up to createNewHead only the new head's files are written and a failure is
    reported at once ([FA_bind_within]).  A failed rewrite of volume.meta is answered by writing the old volume.meta
    again, which overwrites both names the failed rewrite touched (the assertion [Hroll] of the proof, at the two
    places [FAP_enc_bind] asks for).  After the commit the old head is removed and the replica reloaded, every
    failure reported at once ([FA_of_errQ]). *)
Theorem revert_FA : forall g w v m parent cr,
  fixed g = true -> cfg_ok g -> ctx g w v m ->
  (fix_rev g = true
   \/ (In parent (names_of_chain (cv_chain v)) /\ Some parent <> i_head (cv_info v))
   \/ files w (Img parent) = None) ->
  exists vpost, recover g (fst (ff (revert_disk g m parent cr) w)) = Some vpost
    /\ FOut g v vpost (ff (revert_disk g m parent cr) w)
    /\ FA g v vpost (fun _ => False) (revert_disk g m parent cr) w.
Proof.
  intros g w v m parent cr Hfx _ Hctx Harg.
  destruct (revert_disk_spec g w v m parent cr Hctx Harg) as [wF [mF [rF [vpost [HffF [HctxF [HstF _]]]]]]].
  exists vpost. split; [rewrite HffF; apply HctxF |].
  assert (HFO : FOut g v vpost (ff (revert_disk g m parent cr) w)) by (apply FOutP_R, FOutP_post; rewrite HffF; apply HctxF).
  split; [exact HFO |]. clear HffF.
  destruct (ctx_shape g w v m Hctx) as [n [id0 [d0 [tl0 [c [Hchain [_ [Hmh [Hsnaps _]]]]]]]]].
  pose proof (cx_rec _ _ _ _ Hctx) as Hrec. pose proof (cx_fresh _ _ _ _ Hctx) as Hfr.
  destruct (cx_ag _ _ _ _ Hctx) as [Hinfo _]. destruct (agree_head g v m (cx_ag _ _ _ _ Hctx)) as [Hhd _].
  revert HFO HstF. unfold revert_disk. rewrite Hmh.
  destruct (fix_rev g && _); [intros; apply FA_ret |]. intros HFO HstF.
  apply (FAP_do _ (FOut g v vpost)); [intros Hx; discriminate Hx | rewrite stat_same].
  cbn [ff] in HFO. unfold Atomic in HstF. rewrite states_Do in HstF.
  rewrite (surjective_pairing (apply_call w (CStat (Img parent)))), stat_same in HFO, HstF.
  apply Forall_inv_tail in HstF. destruct (is_err _); [apply FA_ret |].
  set (nh := Head (S n)) in *.
  eapply FA_bind_within with (S := own nh) (Q := Qcnh nh); [exact Hrec | | | apply errQ_create_new_head; exact Hfx | | exact HFO |].
  { intros x. apply own_off_chain. rewrite Hchain. apply next_head_fresh. exact Hsnaps. }
  { apply withinQ_within with (Q := cnh_post nh). apply wq_create_new_head; unfold own; auto. }
  { intros [[nhn nd] e1] [Hq1 _]. rewrite (notOk_negb e1 Hq1). discriminate. }
  intros [[nhn nd] e1] w1 Hff1 Hrec1.
  pose proof (ff_fresh_eq _ _ _ _ _ Hfr Hff1) as Hfr1. rewrite ff_bind, Hff1 in HFO.
  apply (Forall_states_rest _ _ _ _ _ _ _ _ Hff1) in HstF. destruct e1; cbn [is_ok res_eqb negb] in *; try apply FA_ret.
  set (info' := mkinfo (i_size (m_info m)) nhn true (i_rebuilding (m_info m)) (d_parent nd) (i_checkpoint (m_info m)) (i_rev (m_info m))) in *.
  set (w2 := enc_fs w1 Vol (IVol info')).
  assert (Hffe : ff (encode_to_file g (IVol info') Vol) w1 = (w2, Done Ok)) by apply ff_encode_vol.
  set (S12 := fun y => y = tmp_of Vol \/ y = Vol).
  assert (Hroll : forall wk, only_on S12 w1 wk ->
            FOut g v vpost (ff (_ <- encode_to_file g (IVol (m_info m)) Vol;; Ret (m, Failed)) wk)).
  { intros wk Hwk. rewrite ff_bind, ff_encode_vol. cbn [ff].
    eapply FOutP_R, FOutP_pre with (vk := mkview (m_info m) (cv_chain v));
      [| split; [exact Hinfo | apply Forall2_refl; apply member_sim_refl] | intros a [= <-]; discriminate].
    eapply recover_only_on with (S := NoN) (w := enc_fs w1 Vol (IVol (m_info m)));
      [apply recover_vol_rewrite; assumption | intros x _; apply enc_fs_same; exact Hwk | intros x []]. }
  rewrite ff_bind, Hffe in HFO. apply (Forall_states_rest _ _ _ _ _ _ _ _ Hffe) in HstF. cbn [is_ok res_eqb negb] in HFO, HstF.
  apply (FAP_enc_bind _ (FOut g v vpost)); [exact Hfx | left; reflexivity | exact I | | right | fold w2; cbn [is_ok res_eqb negb]].
  - intros wk Hoo. apply Hroll. intros x Hx. apply Hoo. intros <-. apply Hx. left. reflexivity.
  - apply Hroll. intros x Hx. apply enc_fs_other; intros ->; apply Hx; [right | left]; reflexivity.
  - apply FA_of_errQ; [| exact HstF | exact HFO].
    destruct (rm_disk_ff w2 (Head n)) as [w3 [Hff3 _]]. apply (Forall_states_rest _ _ _ _ _ _ _ _ Hff3) in HstF.
    eapply errQ_bind with (Q := notOk); [apply errQ_rm_disk | |].
    { intros b Hb. rewrite (notOk_negb b Hb). discriminate. }
    intros e3 He3. rewrite Hff3 in He3 |- *. injection He3 as <-. cbn [fst is_ok res_eqb negb] in HstF |- *.
    destruct (Good_InvS g v vpost w3 (Atomic_head _ _ _ _ _ _ HstF) (cx_wf _ _ _ _ Hctx) (cx_wf _ _ _ _ HctxF)) as [v3 [Hrec3 [Hwf3 [Hfr3 _]]]].
    { exact (ff_fresh_eq _ _ _ _ _ (ff_fresh_eq _ _ _ _ _ Hfr1 Hffe) Hff3). }
    cbn [s_fs] in Hrec3, Hfr3.
    destruct (construct_spec g w3 v3 (i_size (m_info m)) 0 Hrec3 Hwf3 Hfr3) as [wC [mC [c' [HcC HC]]]].
    cbn zeta in HC. destruct HC as [_ [_ [_ [_ [w4 [m4 Hffrm]]]]]].
    eapply errQ_bind_ret; [eapply errQ_construct; eassumption |].
    intros [om e4]. destruct om as [mn |]; [destruct e4 |]; eexists; (split; [reflexivity |]); intros Hb;
      try (exfalso; apply Hb; reflexivity); discriminate.
Qed.

Theorem revert_fault_atomic : forall g w m parent cr,
  fixed g = true -> cfg_ok g -> InvS g (mkst w (Some m)) -> ok_op g (mkst w (Some m)) (ORevert parent cr) ->
  fault_ok g (op_prog g (Some m) (ORevert parent cr)) w.
Proof.
  intros g w m parent cr Hfx Hcfg Hinv Hok. destruct (InvS_ctx g w m Hinv) as [v Hctx].
  unfold ok_op in Hok. cbn [s_fs s_mem] in Hok. rewrite (cx_rec _ _ _ _ Hctx) in Hok.
  destruct (revert_FA g w v m parent cr Hfx Hcfg Hctx Hok) as [vpost [H1 [_ H3]]].
  cbn [op_prog]. apply fault_okx_lift with (v := v) (vpost := vpost); [apply Hctx | exact H1 | exact H3].
Qed.

(** ** C08, one failing call: every operation of the model, from every state of the invariant *)

(** The only exclusion: in Snapshot (createDisk), the directory sync that follows the rename of volume.meta
    (finding createdisk-sync-after-commit). *)
Definition excluded (o : op) (p : prog (option mem * res * nat)) (w : fs) (k : nat) : Prop :=
  match o with OSnap _ _ _ => f11_at p w k | _ => False end.

Theorem fault_atomic_all : forall g s o,
  cfg_ok g -> fixed g = true -> fix_commit g = false ->
  InvS g s -> ok_op g s o ->
  fault_okx (excluded o (op_prog g (s_mem s) o) (s_fs s)) g (op_prog g (s_mem s) o) (s_fs s).
Proof.
  intros g [w om] o Hcfg Hfx Hfc Hinv Hok. cbn [s_fs s_mem].
  pose proof Hinv as [v [Hrec _]]. cbn [s_fs] in Hrec.
  assert (Hmono : forall p, fault_ok g p w -> fault_okx (excluded o p w) g p w).
  { intros p. apply fault_okx_mono. intros j []. }
  destruct om as [m |].
  - destruct o; try (apply Hmono; cbn [op_prog]; eapply fault_ok_ret; exact Hrec).
    + (* OClose *) apply Hmono. apply close_fault_atomic; assumption.
    + (* OSetMode *) apply Hmono. cbn [op_prog]. destruct mo as [[| | |] |]; eapply fault_ok_ret; exact Hrec.
    + (* OWrite *) apply Hmono. apply write_fault_atomic; assumption.
    + (* OSnap *) cbn [op_prog]. eapply fault_okx_keepold; [| apply snapshot_fault_ok; assumption].
      intros k [H1 [j' [Hj H2]]]. cbn [excluded]. split; [rewrite call_at_keepold; exact H1 | exists j'; split; [exact Hj | rewrite call_at_keepold; exact H2]].
    + (* ORemove *) apply Hmono. apply remove_fault_atomic; assumption.
    + (* OPrep *) apply Hmono. apply prepare_fault_atomic; assumption.
    + (* ORevert *) apply Hmono. apply revert_fault_atomic; assumption.
    + (* OResize *) apply Hmono. cbn [op_prog]. eapply fault_okx_keepold; [| apply resize_fault_atomic; assumption]. auto.
    + (* OCheckpoint *) apply Hmono. cbn [op_prog]. eapply fault_okx_keepold; [| apply checkpoint_fault_atomic; assumption]. auto.
    + (* ORebuilding *) apply Hmono. cbn [op_prog]. destruct b; destruct (mstate m); try (eapply fault_ok_ret; exact Hrec); apply rebuilding_fault_atomic; assumption.
    + (* OReplace *) apply Hmono. apply replace_refused_fault_atomic; assumption.
  - destruct o; try (apply Hmono; cbn [op_prog]; eapply fault_ok_ret; exact Hrec).
    + (* OCreate *) apply Hmono. apply create_existing_fault_atomic; assumption.
    + (* OOpen *) apply Hmono. apply open_fault_atomic; assumption.
Qed.
