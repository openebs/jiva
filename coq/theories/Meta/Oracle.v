(** * The observation of every model state is a well-formed path ([wf_obs]): the structural half of
    the C12 oracle of Corr.v, proved for every state of the invariant, hence for every observation
    of every model trace. *)
From Coq Require Import List ZArith NArith Bool Arith Lia.
From Jiva Require Import Meta.Model Meta.Corr Meta.Proofs.
Import ListNotations.

Definition dir_entry (u : list dname) (w : fs) (n : name) : list (name * fkind) :=
  match files w n with Some c => [(n, kind_of u (files w) n c)] | None => [] end.

Lemma dir_of_eq : forall u w, dir_of u w = flat_map (dir_entry u w) (names_of u).
Proof. reflexivity. Qed.

Lemma lookup_file_app : forall l1 l2 n,
  lookup_file (l1 ++ l2) n = match lookup_file l1 n with Some k => Some k | None => lookup_file l2 n end.
Proof.
  induction l1 as [| [m k] t IH]; intros l2 n; [reflexivity |]. cbn [app lookup_file].
  destruct (name_eqb m n); [reflexivity | apply IH].
Qed.

Lemma lookup_entries_none : forall u w L n, files w n = None -> lookup_file (flat_map (dir_entry u w) L) n = None.
Proof.
  intros u w L n Hn. induction L as [| x t IH]; [reflexivity |]. cbn [flat_map]. rewrite lookup_file_app, IH.
  unfold dir_entry. destruct (files w x) as [c |] eqn:Hx; [| reflexivity]. cbn [lookup_file].
  destruct (name_eqb x n) eqn:E; [| reflexivity]. apply name_eqb_eq in E. subst x. congruence.
Qed.

Lemma lookup_entries : forall u w L n, In n L ->
  lookup_file (flat_map (dir_entry u w) L) n = option_map (kind_of u (files w) n) (files w n).
Proof.
  intros u w L n Hin. destruct (files w n) as [c |] eqn:Hn; [| apply lookup_entries_none; exact Hn]. cbn [option_map].
  induction L as [| x t IH]; [contradiction |]. cbn [flat_map]. rewrite lookup_file_app.
  destruct (name_eqb x n) eqn:E.
  - apply name_eqb_eq in E. subst x. unfold dir_entry at 1. rewrite Hn. cbn [lookup_file]. rewrite name_eqb_refl. reflexivity.
  - assert (Hne : x <> n) by (intro; subst; rewrite name_eqb_refl in E; discriminate).
    destruct Hin as [Hin | Hin]; [contradiction |].
    unfold dir_entry at 1. destruct (files w x) as [cx |]; cbn [lookup_file]; [rewrite E |]; apply IH; exact Hin.
Qed.

Lemma names_of_img : forall u d, In d u -> In (Img d) (names_of u) /\ In (Meta d) (names_of u).
Proof.
  intros u d Hin. unfold names_of. split; apply in_or_app; left; apply in_flat_map; exists d; (split; [exact Hin | cbn; auto]).
Qed.

Lemma names_of_vol : forall u, In Vol (names_of u).
Proof. intros u. unfold names_of. apply in_or_app. right. left. reflexivity. Qed.

Lemma lookup_dir : forall u w n, In n (names_of u) ->
  lookup_file (dir_of u w) n = option_map (kind_of u (files w) n) (files w n).
Proof. intros. rewrite dir_of_eq. apply lookup_entries. assumption. Qed.

Definition disk_entry (u : list dname) (m : mem) (d : dname) : list (dname * disk * list dname) :=
  match m_disks m d with
  | Some x => [(d, x, filter (fun c => memd c (m_children m (Some d))) u)]
  | None => [] end.

Lemma disks_of_eq : forall u m, disks_of u m = flat_map (disk_entry u m) u.
Proof. reflexivity. Qed.

Lemma lookup_disk_app : forall l1 l2 d,
  lookup_disk (l1 ++ l2) d = match lookup_disk l1 d with Some k => Some k | None => lookup_disk l2 d end.
Proof.
  induction l1 as [| [[n x] c] t IH]; intros l2 d; [reflexivity |]. cbn [app lookup_disk].
  destruct (dname_eqb n d); [reflexivity | apply IH].
Qed.

Lemma lookup_disk_entries : forall u m L d x, In d L -> m_disks m d = Some x ->
  lookup_disk (flat_map (disk_entry u m) L) d = Some (x, filter (fun c => memd c (m_children m (Some d))) u).
Proof.
  intros u m L d x Hin Hd. induction L as [| y t IH]; [contradiction |]. cbn [flat_map]. rewrite lookup_disk_app.
  destruct (dname_eqb y d) eqn:E.
  - apply dname_eqb_eq in E. subst y. unfold disk_entry at 1. rewrite Hd. cbn [lookup_disk]. rewrite dname_eqb_refl. reflexivity.
  - assert (Hne : y <> d) by (intro; subst; rewrite dname_eqb_refl in E; discriminate).
    destruct Hin as [Hin | Hin]; [contradiction |].
    unfold disk_entry at 1. destruct (m_disks m y) as [cy |]; cbn [lookup_disk]; [rewrite E |]; apply IH; exact Hin.
Qed.

Lemma memd_in : forall x l, memd x l = true -> In x l.
Proof. intros x l. apply memd_iff. Qed.

Lemma disks_of_length : forall u m l,
  NoDup u -> NoDup l -> (forall d, In d l -> In d u) ->
  (forall d, m_disks m d <> None <-> In d l) ->
  length (disks_of u m) = length l.
Proof.
  intros u m l Hu Hl Hsub Hdom. rewrite disks_of_eq.
  assert (Hlen : forall L, length (flat_map (disk_entry u m) L) = length (filter (fun d => memd d l) L)).
  { induction L as [| y t IH]; [reflexivity |]. cbn [flat_map filter]. rewrite app_length, IH.
    unfold disk_entry at 1. destruct (m_disks m y) as [x |] eqn:Hy.
    - rewrite (proj2 (memd_iff _ _)) by (apply Hdom; congruence). reflexivity.
    - rewrite memd_false; [reflexivity |]. intro Hin. apply Hdom in Hin. contradiction. }
  rewrite Hlen. apply Nat.le_antisymm.
  - apply NoDup_incl_length; [apply NoDup_filter; exact Hu |]. intros d Hd. apply filter_In in Hd. destruct Hd as [_ Hd].
    apply memd_in. exact Hd.
  - apply NoDup_incl_length; [exact Hl |]. intros d Hd. apply filter_In. split; [apply Hsub; exact Hd | apply memd_iff; exact Hd].
Qed.

Lemma disk_eqb_refl : forall d, disk_eqb d d = true.
Proof.
  intros d. unfold disk_eqb. rewrite odname_eqb_refl, !Bool.eqb_reflx, N.eqb_refl, Z.eqb_refl. reflexivity.
Qed.

Lemma list_eqb_refl : forall A (e : A -> A -> bool), (forall x, e x x = true) -> forall l, list_eqb e l l = true.
Proof. intros A e He l. induction l as [| x t IH]; [reflexivity |]. cbn. rewrite He, IH. reflexivity. Qed.

Fixpoint olast (l : list dname) : option dname :=
  match l with [] => None | [a] => Some a | _ :: t => olast t end.

Lemma olast_snoc : forall l x, olast (l ++ [x]) = Some x.
Proof.
  induction l as [| a t IH]; intros x; [reflexivity |]. cbn [app]. specialize (IH x).
  destruct (t ++ [x]) as [| b t'] eqn:E; [destruct t; discriminate |]. cbn [olast]. exact IH.
Qed.

Lemma olast_in : forall l c, olast l = Some c -> In c l.
Proof.
  induction l as [| a l IH]; intros c E; [discriminate |]. destruct l as [| b l']; [inversion E; left; reflexivity |].
  right. apply IH. exact E.
Qed.

Lemma child_of_mid : forall pre x t, NoDup (pre ++ x :: t) ->
  child_of x (pre ++ x :: t) = match olast pre with Some c => [c] | None => [] end.
Proof.
  intros pre x t Hnd. induction pre as [| c p _] using rev_ind.
  - cbn [app olast]. apply child_of_notin. cbn [tl]. inversion Hnd; assumption.
  - rewrite olast_snoc. rewrite <- app_assoc in *. apply child_of_split. exact Hnd.
Qed.

Lemma filter_memd_nil : forall u, filter (fun c => memd c []) u = [].
Proof. induction u as [| x t IH]; [reflexivity | cbn; exact IH]. Qed.

Lemma filter_memd_single : forall u c, NoDup u -> In c u -> filter (fun x => memd x [c]) u = [c].
Proof.
  induction u as [| y t IH]; intros c Hnd Hin; [contradiction |]. inversion Hnd as [| ? ? Hy Ht]; subst.
  cbn [filter memd]. rewrite Bool.orb_false_r. destruct (dname_eqb y c) eqn:E.
  - apply dname_eqb_eq in E. subst y. f_equal.
    assert (Hnone : forall l, ~ In c l -> filter (fun x => memd x [c]) l = []).
    { induction l as [| z l' IHl]; intros Hn; [reflexivity |]. cbn [filter memd]. rewrite Bool.orb_false_r.
      rewrite dname_eqb_neq by (intro E; apply Hn; left; exact E). apply IHl. intro H. apply Hn. right. exact H. }
    apply Hnone. exact Hy.
  - destruct Hin as [Hin | Hin]; [subst y; rewrite dname_eqb_refl in E; discriminate |]. apply IH; assumption.
Qed.

(** the children entry of a member with at most one child, seen through the universe [u] *)
Lemma filter_memd_opt : forall u (o : option dname), NoDup u -> (forall c, o = Some c -> In c u) ->
  filter (fun x => memd x (match o with Some c => [c] | None => [] end)) u = match o with Some c => [c] | None => [] end.
Proof. intros u [c |] Hu Hin; [apply filter_memd_single; auto | apply filter_memd_nil]. Qed.

Lemma names_app : forall a b, names_of_chain (a ++ b) = names_of_chain a ++ names_of_chain b.
Proof. exact names_of_chain_app. Qed.

(** for any split [chain = pre ++ suf]: [suf] is a path whose first member has the last of [pre] as its only child *)
Lemma path_ok_suffix : forall u w m chain (o : obs),
  o_disks o = disks_of u m -> o_dir o = dir_of u w ->
  NoDup u -> NoDup (names_of_chain chain) -> (forall d, In d (names_of_chain chain) -> In d u) ->
  linked (files w) chain ->
  (forall d, m_disks m d = option_map mb_disk (find_mb d chain)) ->
  (forall d, In d (names_of_chain chain) -> m_children m (Some d) = child_in d chain) ->
  forall suf pre, chain = pre ++ suf ->
    path_ok o (olast (names_of_chain pre)) (names_of_chain suf) = true.
Proof.
  intros u w m chain o Hod Hof Hu Hnd Hsub Hlink Hdisks Hchild.
  induction suf as [| x t IH]; intros pre Heq; [reflexivity |].
  cbn [names_of_chain map path_ok]. fold (names_of_chain t).
  assert (Hin : In x chain) by (rewrite Heq; apply in_or_app; right; left; reflexivity).
  assert (Hinn : In (mb_name x) (names_of_chain chain)) by (apply in_map; exact Hin).
  assert (Hxu : In (mb_name x) u) by (apply Hsub; exact Hinn).
  assert (Hmd : m_disks m (mb_name x) = Some (mb_disk x)) by (rewrite Hdisks, (find_mb_in _ _ Hnd Hin); reflexivity).
  rewrite Hod, disks_of_eq, (lookup_disk_entries u m u (mb_name x) (mb_disk x) Hxu Hmd).
  assert (Hlx : linked (files w) (x :: t)) by (apply (linked_suffix (files w) pre); rewrite <- Heq; exact Hlink).
  cbn [linked] in Hlx. destruct Hlx as [Hmeta [[gn Himg] [Hpar _]]].
  change (match names_of_chain t with y :: _ => Some y | [] => None end) with (hd_error (names_of_chain t)).
  rewrite Hpar, hd_names, odname_eqb_refl. cbn [andb].
  rewrite (Hchild _ Hinn), child_in_names.
  assert (Hnames : names_of_chain chain = names_of_chain pre ++ mb_name x :: names_of_chain t).
  { rewrite Heq, names_app. reflexivity. }
  rewrite Hnames, child_of_mid by (rewrite <- Hnames; exact Hnd).
  rewrite filter_memd_opt, (list_eqb_refl _ _ dname_eqb_refl);
    [| exact Hu | intros c0 El; apply Hsub; rewrite Hnames; apply in_or_app; left; exact (olast_in _ _ El)].
  cbn [andb].
  destruct (names_of_img u (mb_name x) Hxu) as [Hni Hnm].
  rewrite Hof, (lookup_dir u w _ Hni), (lookup_dir u w _ Hnm), Himg, Hmeta. cbn [option_map kind_of].
  rewrite disk_eqb_refl. cbn [andb].
  specialize (IH (pre ++ [x])). rewrite names_app in IH. cbn [names_of_chain map] in IH. rewrite olast_snoc in IH.
  apply IH. rewrite <- app_assoc. exact Heq.
Qed.

Lemma nodupb_true : forall l, NoDup l -> nodupb l = true.
Proof.
  induction l as [| x t IH]; intros H; [reflexivity |]. inversion H; subst. cbn [nodupb].
  rewrite memd_false by assumption. cbn. apply IH. assumption.
Qed.

Lemma canon_same : forall u f id d, In d u -> same_inode f id d = true -> same_inode f id (canon_of u f id d) = true.
Proof.
  intros u f id d Hin Hs. unfold canon_of.
  destruct (filter (same_inode f id) u) as [| x t] eqn:E.
  - exfalso. assert (In d (filter (same_inode f id) u)) by (apply filter_In; split; assumption). rewrite E in H. contradiction.
  - assert (Hx : In x (filter (same_inode f id) u)) by (rewrite E; left; reflexivity). apply filter_In in Hx. apply Hx.
Qed.

Lemma canons_nodup : forall u w chain (o : obs),
  o_dir o = dir_of u w ->
  (forall d, In d (names_of_chain chain) -> In d u) ->
  linked (files w) chain -> NoDup (map mb_id chain) ->
  nodupb (flat_map (fun d => match lookup_file (o_dir o) (Img d) with Some (KImg c _ _) => [c] | _ => [] end)
                   (names_of_chain chain)) = true.
Proof.
  intros u w chain o Hof Hsub Hlink Hids. apply nodupb_true. rewrite Hof.
  set (F := fun mb : member => canon_of u (files w) (mb_id mb) (mb_name mb)).
  assert (Hmap : flat_map (fun d => match lookup_file (dir_of u w) (Img d) with Some (KImg c _ _) => [c] | _ => [] end)
                          (names_of_chain chain) = map F chain).
  { clear Hids. induction chain as [| a t IH]; [reflexivity |]. cbn [names_of_chain map flat_map]. fold (names_of_chain t).
    cbn [linked] in Hlink. destruct Hlink as [_ [[gn Hi] [_ Ht]]].
    rewrite (lookup_dir u w _ (proj1 (names_of_img u _ (Hsub _ (or_introl eq_refl))))), Hi. cbn [option_map kind_of app].
    rewrite IH; [reflexivity | intros d Hd; apply Hsub; right; exact Hd | exact Ht]. }
  rewrite Hmap.
  set (ino_id := fun c : dname => match files w (Img c) with Some (IImg id _) => id | _ => 0%N end).
  apply (NoDup_map_inv ino_id). rewrite map_map.
  assert (Heq : map (fun x => ino_id (F x)) chain = map mb_id chain).
  { apply map_ext_in. intros mb Hmb. destruct (linked_member _ _ _ Hlink Hmb) as [_ [gn Hi]].
    assert (Hs : same_inode (files w) (mb_id mb) (mb_name mb) = true) by (unfold same_inode; rewrite Hi; apply N.eqb_refl).
    pose proof (canon_same u (files w) (mb_id mb) (mb_name mb) (Hsub _ (in_map mb_name _ _ Hmb)) Hs) as Hc.
    unfold same_inode in Hc. unfold ino_id, F. destruct (files w (Img (canon_of u (files w) (mb_id mb) (mb_name mb)))) as [[| | id' g' | |] |]; try discriminate.
    apply N.eqb_eq in Hc. symmetry. exact Hc. }
  rewrite Heq. exact Hids.
Qed.

Theorem wf_obs_observe : forall g u s r n,
  InvS g s -> NoDup u ->
  (forall v, recover g (s_fs s) = Some v -> forall d, In d (names_of_chain (cv_chain v)) -> In d u) ->
  wf_obs (observe g u s r n) = true.
Proof.
  intros g u [w om] r n Hinv Hu Hcov. destruct om as [m |]; [| reflexivity].
  destruct (InvS_ctx g w m Hinv) as [v Hctx].
  destruct (ctx_shape g w v m Hctx) as [hn [id0 [d0 [tl0 [c [Hchain [Hvh [Hmh [Hsnaps [Hnd [Hndi [Hvol [Hcnt [Hlink [Hlen [Hd0 Hpar]]]]]]]]]]]]]]]].
  pose proof (cx_rec _ _ _ _ Hctx) as Hrec. pose proof (cx_ag _ _ _ _ Hctx) as Hag.
  pose proof Hag as [Hinfo [Hdisks [Hchild _]]].
  specialize (Hcov v Hrec). cbn [s_fs] in Hcov.
  unfold observe. cbn [s_mem s_fs]. rewrite (mchain_of_ctx g w v m Hctx).
  set (o := mkobs (class_of r) n (Some (m_mode m)) (Some (names_of_chain (cv_chain v))) (disks_of u m) (Some (m_info m))
                  (dir_of u w) (live_of g w m)).
  unfold wf_obs. cbn [o o_mode o_chain o_info].
  rewrite (nodupb_true _ Hnd).
  rewrite (canons_nodup u w (cv_chain v) o eq_refl Hcov Hlink Hndi).
  assert (Hhd : match names_of_chain (cv_chain v) with h :: _ => odname_eqb (i_head (m_info m)) (Some h) | [] => false end = true).
  { rewrite Hchain. cbn [names_of_chain map mb_name]. rewrite Hmh. apply odname_eqb_refl. }
  rewrite Hhd.
  assert (Hlen' : Nat.eqb (length (o_disks o)) (length (names_of_chain (cv_chain v))) = true).
  { apply Nat.eqb_eq, (disks_of_length u m _ Hu Hnd Hcov). intros d. apply (agree_disk_dom g v m d Hag). }
  rewrite Hlen'.
  pose proof (path_ok_suffix u w m (cv_chain v) o eq_refl eq_refl Hu Hnd Hcov Hlink Hdisks Hchild (cv_chain v) [] eq_refl) as Hp.
  cbn [names_of_chain map olast] in Hp. fold (names_of_chain (cv_chain v)) in Hp. rewrite Hp.
  change (o_dir o) with (dir_of u w). rewrite (lookup_dir u w Vol (names_of_vol u)), Hvol. cbn [option_map kind_of].
  destruct Hinfo as [Hs [Hh _]]. rewrite Hh, Hs, odname_eqb_refl, N.eqb_refl. reflexivity.
Qed.

(** the universe names every member of every chain of the run *)
Fixpoint covered (g : cfg) (u : list dname) (s : st) (os : list op) : Prop :=
  match os with
  | [] => True
  | o :: t =>
      let s1 := fst (fst (step g s o)) in
      (forall v, recover g (s_fs s1) = Some v -> forall d, In d (names_of_chain (cv_chain v)) -> In d u)
      /\ covered g u s1 t
  end.

Theorem wf_obs_trace : forall g u os s,
  cfg_ok g -> InvS g s -> ok_hist g s os -> NoDup u -> covered g u s os ->
  Forall (fun o => wf_obs o = true) (trace_ops g u s os).
Proof.
  intros g u os. induction os as [| o t IH]; intros s Hcfg Hinv Hok Hu Hcov; [constructor |].
  cbn [ok_hist] in Hok. destruct Hok as [Hstep Hrest]. cbn [covered] in Hcov. destruct Hcov as [Hc1 Hc2].
  pose proof (step_inv g s o Hinv Hstep) as Hinv1.
  cbn [trace_ops]. destruct (step g s o) as [[s1 r] n] eqn:Es. cbn [fst] in *.
  constructor; [apply wf_obs_observe; assumption | apply IH; assumption].
Qed.

(** from the creation of the volume, as the checks run it: [OCreate size now :: os] from the empty directory *)
Corollary wf_obs_history : forall g u size now os,
  cfg_ok g -> size <> 0%N -> NoDup u ->
  ok_hist g (created g size now) os -> covered g u (created g size now) os ->
  (forall v, recover g (s_fs (created g size now)) = Some v -> forall d, In d (names_of_chain (cv_chain v)) -> In d u) ->
  Forall (fun o => wf_obs o = true) (trace_ops g u init (OCreate size now :: os)).
Proof.
  intros g u size now os Hcfg Hsz Hu Hok Hcov Hc0.
  pose proof (created_inv g size now Hcfg Hsz) as Hinv.
  cbn [trace_ops]. unfold created in *. destruct (step g init (OCreate size now)) as [[s1 r] n] eqn:Es. cbn [fst] in *.
  constructor; [apply wf_obs_observe; assumption | apply wf_obs_trace; assumption].
Qed.
