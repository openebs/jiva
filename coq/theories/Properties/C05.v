(** C05 — a failing minority of replicas is isolated.   Model: Ctl. *)
From Coq Require Import List ZArith Bool Arith.
From Jiva Require Import Ctl.Model Ctl.Proofs Ctl.Props.
Import ListNotations.
Open Scope Z_scope.

(** every replica that errors or times out on a write is out of the replica list when the operation
    returns (same lock, before any further I/O) *)
Theorem C05_failed_replicas_isolated : forall s wid off len fs a,
  struct_ok s -> ro s = false -> avail s = true -> 0 <= off -> off + len <= csize s ->
  In a (writers s) -> (flt fs a KWrite || flt fs a KWriteAp) = true ->
  ~ In a (keys (replicas (fst (do_write s wid off len fs)))).
Proof. exact write_failed_detached. Qed.

(** removal through any of the detectors really removes, whatever else is pending *)
Theorem C05_removed_is_gone : forall s fs a, struct_ok s ->
  ~ In a (keys (replicas (remove_replica_nolock s fs a))).
Proof. exact remove_replica_gone. Qed.

(** a detached replica comes back only through add-commit (or a start on an empty list) *)
Theorem C05_comes_back_only_by_add : forall s e x,
  In x (keys (replicas (fst (fst (step s e))))) -> ~ In x (keys (replicas s)) ->
  match e with AddCommit a _ => x = a | Start _ _ => replicas s = [] | _ => False end.
Proof. exact enter_only_by_add_or_start. Qed.

(** the failure of a minority does not surface: if the writers that do not fail are a strict majority
    and one RW replica is among them, the write in flight is acknowledged *)
Theorem C05_minority_failure_not_surfaced : forall s wid off len fs x,
  struct_ok s -> ro s = false -> avail s = true -> 0 <= off -> off + len <= csize s ->
  majority_ok (length (writers s)) (length (io_errs (writers s) fs KWrite KWriteAp)) = true ->
  aget (replicas s) x = Some RW -> ~ In x (io_errs (writers s) fs KWrite KWriteAp) ->
  snd (do_write s wid off len fs) = ROk.
Proof.
  intros s wid off len fs x H Hro Hav Ho Hl Hmaj Hrw Hnx.
  rewrite <- fst_step_write, (io_step s (Write wid off len fs) eq_refl) by (repeat split; assumption). cbn [snd].
  apply (io_res_ok _ _ _ x); [rewrite (proj1 (proj2 (io_fan_fields s _ H))); exact Hrw|exact Hnx|apply majority_ok_iff; exact Hmaj].
Qed.

Print Assumptions C05_failed_replicas_isolated.
Print Assumptions C05_minority_failure_not_surfaced.
Print Assumptions C05_removed_is_gone.
Print Assumptions C05_comes_back_only_by_add.

(** the executable trace oracle that the check evaluates on the real controller's observations accepts
    every trace of the model (single-request histories, any fault scripts, any n observed replicas) *)
From Jiva Require Import Ctl.Corr Ctl.Oracles Ctl.OracleProofs2 Ctl.OracleProofsX2.

Theorem C05_oracle_accepts_model_traces : forall es rf0 n w0, (1 <= rf0)%nat -> forallb ev_wf es = true ->
  walk (lift (c05_step rf0) nopair) 0 (obs0 rf0 n w0) (map One es) (trace n (init rf0 w0) (map One es)) = None.
Proof. exact c05_oracle_model. Qed.

Print Assumptions C05_oracle_accepts_model_traces.

(** the same for histories with concurrent pairs *)
From Jiva Require Import Ctl.Model Ctl.Corr Ctl.Oracles Ctl.Proofs Ctl.OracleProofs2 Ctl.OracleProofsX Ctl.OracleProofsX2.

Theorem C05_oracle_accepts_model_traces_with_pairs : forall xs rf0 n w0, (1 <= rf0)%nat -> forallb xev_wf xs = true ->
  walk (lift (c05_step rf0) nopair) 0 (obs0 rf0 n w0) xs (trace n (init rf0 w0) xs) = None.
Proof. exact c05_oracle_model_x. Qed.

Print Assumptions C05_oracle_accepts_model_traces_with_pairs.
