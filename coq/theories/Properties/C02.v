(** C02 — a write is acknowledged only after a strict majority of the attached replicas applied it;
    replicas that failed it are detached within the same operation.
    Model: Ctl.
    "Attached at that moment" = the replicas in service: present in the backend map and not marked ERR
    (these are exactly the ones the write is sent to). *)
From Coq Require Import List ZArith Bool Arith.
From Jiva Require Import Ctl.Model Ctl.Proofs Ctl.Props.
Import ListNotations.
Open Scope Z_scope.

Theorem C02_ack_needs_strict_majority : forall s wid off len fs s',
  struct_ok s -> do_write s wid off len fs = (s', ROk) ->
  (length (writers s) < 2 * length (appliers s fs))%nat.
Proof. exact write_ack_majority. Qed.

Theorem C02_no_majority_is_reported_failed : forall s wid off len fs,
  (2 * length (filter (fun a => negb (flt fs a KWrite || flt fs a KWriteAp)) (writers s)) <= length (writers s))%nat ->
  (0 < length (writers s))%nat -> snd (do_write s wid off len fs) <> ROk.
Proof. exact write_no_majority_fails. Qed.

Theorem C02_failed_replicas_detached : forall s wid off len fs a,
  struct_ok s -> ro s = false -> avail s = true -> 0 <= off -> off + len <= csize s ->
  In a (writers s) -> (flt fs a KWrite || flt fs a KWriteAp) = true ->
  ~ In a (keys (replicas (fst (do_write s wid off len fs)))).
Proof. exact write_failed_detached. Qed.

(** every writer that did not fail before applying holds the write afterwards (whatever was detached
    in the same operation), and whoever is listed afterwards was listed before: together with the
    detachment of failed writers, every replica in service after an acknowledged write holds it *)
Theorem C02_survivors_hold_the_write : forall s wid off len fs x,
  struct_ok s -> ro s = false -> avail s = true -> 0 <= off -> off + len <= csize s ->
  In x (writers s) -> flt fs x KWrite = false ->
  In wid (f_applied (wget (w (fst (do_write s wid off len fs))) x)).
Proof. exact write_survivors_hold_it. Qed.

Theorem C02_nobody_joins_during_a_write : forall s wid off len fs x m,
  struct_ok s ->
  aget (replicas (fst (do_write s wid off len fs))) x = Some m -> m <> ERR ->
  In x (keys (replicas s)).
Proof.
  intros s wid off len fs x m H Hg Hm. pose proof (in_keys _ _ _ (aget_in _ _ _ Hg)) as Hin.
  rewrite <- fst_step_write in Hin. destruct (keys_step s (Write wid off len fs) x Hin) as [G|[]]. exact G.
Qed.

Print Assumptions C02_ack_needs_strict_majority.
Print Assumptions C02_survivors_hold_the_write.
Print Assumptions C02_nobody_joins_during_a_write.
Print Assumptions C02_no_majority_is_reported_failed.
Print Assumptions C02_failed_replicas_detached.

(** the executable trace oracle that the correspondence run evaluates on the real controller's
    observations accepts every trace of the model (single-request histories; [n] observed replicas,
    every address that is added or started is below [n]) *)
From Jiva Require Import Ctl.Corr Ctl.Oracles Ctl.OracleProofs2 Ctl.OracleProofsX2.

Theorem C02_oracle_accepts_model_traces : forall es rf0 n w0, (1 <= rf0)%nat -> forallb ev_wf es = true ->
  forallb (ev_addrs_lt n) es = true ->
  walk (lift (c02_step rf0) nopair) 0 (obs0 rf0 n w0) (map One es) (trace n (init rf0 w0) (map One es)) = None.
Proof. exact c02_oracle_model. Qed.

Print Assumptions C02_oracle_accepts_model_traces.

(** the same for histories with concurrent pairs ([Two e1 e2]: e2 issued while e1 is in flight) *)
From Jiva Require Import Ctl.Model Ctl.Corr Ctl.Oracles Ctl.Proofs Ctl.OracleProofs2 Ctl.OracleProofsX Ctl.OracleProofsX2.

Theorem C02_oracle_accepts_model_traces_with_pairs : forall xs rf0 n w0, (1 <= rf0)%nat -> forallb xev_wf xs = true ->
  forallb (xev_addrs_lt n) xs = true ->
  walk (lift (c02_step rf0) nopair) 0 (obs0 rf0 n w0) xs (trace n (init rf0 w0) xs) = None.
Proof. exact c02_oracle_model_x. Qed.

Print Assumptions C02_oracle_accepts_model_traces_with_pairs.
