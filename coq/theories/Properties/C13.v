(** C13 — volume snapshots only with all RF replicas RW; checkpoint recorded only when all agree,
    withdrawn as soon as a replica leaves.   Model: Ctl. *)
From Coq Require Import List ZArith Bool Arith.
From Jiva Require Import Ctl.Model Ctl.Proofs Ctl.Props.
Import ListNotations.

Theorem C13_snapshot_gate : forall s n fs, status_ok s -> count_rw (replicas s) <> rf s ->
  do_snapshot s n fs = (s, RErr).
Proof. exact snapshot_gate. Qed.

(** a checkpoint is recorded only if exactly RF replicas are RW, every attached backend is RW, all of
    them report the same latest snapshot (which becomes the checkpoint), and every one stored it *)
Theorem C13_checkpoint_recorded_only_when_agreed : forall s fs n,
  checkpoint (update_checkpoint s fs) = Some n ->
  count_rw (replicas s) = rf s
  /\ all_rw_backends s = true
  /\ (forall p, In p (backends s) -> exists t, f_chain (wget (w s) (fst p)) = n :: t)
  /\ (forall p, In p (backends s) -> flt fs (fst p) KSetCp = false /\ flt fs (fst p) KChain = false).
Proof. exact checkpoint_recorded_sound. Qed.

Theorem C13_checkpoint_withdrawn_when_a_replica_leaves : forall s fs a, struct_ok s -> has_replica s a = true ->
  checkpoint (remove_replica_nolock s fs a) = None.
Proof. exact checkpoint_withdrawn_on_removal. Qed.

Print Assumptions C13_snapshot_gate.
Print Assumptions C13_checkpoint_recorded_only_when_agreed.
Print Assumptions C13_checkpoint_withdrawn_when_a_replica_leaves.

(** *** checkpoint soundness over all reachable states (Ctl/CheckpointInv.v) *)
From Jiva Require Import Ctl.CheckpointInv.

(** In every state reachable by any history (any fault scripts, duplicates, unknown addresses; start
    requests naming at most one replica), from any initial world: if the controller holds checkpoint [n]
    and no monitor notification is undelivered, then exactly RF replicas are listed and all are RW, every
    one of them has snapshot [n] in its chain, and every one whose persisted checkpoint is predicted has
    persisted exactly [n]. *)
Theorem C13_checkpoint_sound_reachable : forall (es : list event) (rf0 : nat) (w0 : world) (n : nat),
  (1 <= rf0)%nat -> forallb ev_wf es = true ->
  let s := run (init rf0 w0) es in
  checkpoint s = Some n -> pend_mon s = [] ->
  count_rw (replicas s) = rf s /\ length (replicas s) = rf s
  /\ forall a, In a (keys (replicas s)) ->
       In n (f_chain (wget (w s) a)) /\ (f_cpk (wget (w s) a) = true -> f_cp (wget (w s) a) = Some n).
Proof.
  intros es rf0 w0 n H Hwf s Hn Hp. destruct (ck_inv_reachable es rf0 w0 H Hwf) as [_ [C M]].
  exact (sound_of_inv _ C M n Hn Hp).
Qed.

(** the invariant behind it is preserved by every event *)
Theorem C13_checkpoint_sound_step : forall s e, ck_inv s -> ev_wf e = true ->
  ck_inv (fst (fst (step s e))) /\ checkpoint_sound (fst (fst (step s e))).
Proof.
  intros s e Hi Hwf. pose proof (ck_inv_step s e Hi Hwf) as K. split; [exact K|].
  exact (sound_of_inv _ (proj1 (proj2 K)) (proj2 (proj2 K))).
Qed.

(** without the quiescence condition: while a checkpoint is held exactly RF replicas are listed, none is
    rebuilding, every one has the snapshot and has persisted the checkpoint; a listed replica that is not
    RW is marked ERR and its removal (which withdraws the checkpoint) is queued *)
Theorem C13_checkpoint_holders_reachable : forall (es : list event) (rf0 : nat) (w0 : world) (n : nat),
  (1 <= rf0)%nat -> forallb ev_wf es = true ->
  let s := run (init rf0 w0) es in
  checkpoint s = Some n ->
  length (replicas s) = rf s
  /\ (forall a m, In (a, m) (replicas s) -> m = RW \/ (m = ERR /\ exists i, In (i, a) (pend_mon s)))
  /\ forall a, In a (keys (replicas s)) ->
       In n (f_chain (wget (w s) a)) /\ f_cp (wget (w s) a) = Some n /\ f_cpk (wget (w s) a) = true.
Proof. exact checkpoint_holders_reachable. Qed.

(** the quiescence condition is necessary: after a mode change to ERR the checkpoint is held, with no RW
    replica, until the monitor delivers the removal *)
Theorem C13_checkpoint_held_until_monitor_fires :
  let s := run (init 1 ex_world) (ex_boot ++ [SetMode 0%nat ERR]) in
  checkpoint s = Some 5%nat /\ count_rw (replicas s) = 0%nat /\ rf s = 1%nat /\ pend_mon s = [(0%nat, 0%nat)]
  /\ checkpoint (run s [MonFire 0%nat []]) = None.
Proof. exact checkpoint_held_until_monitor_fires. Qed.

Print Assumptions C13_checkpoint_sound_reachable.
Print Assumptions C13_checkpoint_sound_step.
Print Assumptions C13_checkpoint_holders_reachable.
Print Assumptions C13_checkpoint_held_until_monitor_fires.

(** *** the trace oracle of C13 accepts every trace of the model (rules in Ctl/OracleProofs18.v, traces in Ctl/OracleProofsX18.v): for histories
    whose add / start requests name observed replicas and quiescence flags that are true only where no
    monitor notification is undelivered *)
From Jiva Require Import Ctl.Corr Ctl.Oracles Ctl.OracleProofs2 Ctl.OracleProofs18 Ctl.OracleProofsX18.

Theorem C13_oracle_holds_on_model : forall es rf0 n w0 qs, (1 <= rf0)%nat ->
  forallb ev_wf es = true -> forallb (ev_addrs_lt n) es = true -> qs_sound (init rf0 w0) es qs ->
  walk_q (fun q => lift (c13_step rf0 q) (c13_pair rf0))
         0 (obs0 rf0 n w0) (map One es) (trace n (init rf0 w0) (map One es)) qs = None.
Proof. exact c13_oracle_model_init. Qed.

(** a checkpoint that an event newly records is the latest snapshot of every listed replica *)
Theorem C13_recorded_checkpoint_is_latest_snapshot : forall s e c, struct_ok s -> ev_wf e = true ->
  checkpoint (fst (fst (step s e))) = Some c ->
  checkpoint s = Some c
  \/ forall a, In a (keys (replicas (fst (fst (step s e))))) ->
       exists tl, f_chain (wget (w (fst (fst (step s e)))) a) = c :: tl.
Proof.
  intros s e c H Hwf Hc. destruct (checkpoint_fresh_step s e H Hwf c Hc) as [P|[_ P]]; [left; exact P|right; exact P].
Qed.

(** ... and at that moment exactly RF replicas are listed, all RW (no request records a checkpoint and
    marks a replica failed afterwards), and every one has persisted it *)
Theorem C13_recorded_checkpoint_all_rw : forall s e c, ck_inv s -> ev_wf e = true ->
  checkpoint (fst (fst (step s e))) = Some c -> checkpoint s <> Some c ->
  count_rw (replicas (fst (fst (step s e)))) = rf (fst (fst (step s e)))
  /\ length (replicas (fst (fst (step s e)))) = rf (fst (fst (step s e)))
  /\ forall a, In a (keys (replicas (fst (fst (step s e))))) ->
       (exists tl, f_chain (wget (w (fst (fst (step s e)))) a) = c :: tl)
       /\ f_cp (wget (w (fst (fst (step s e)))) a) = Some c /\ f_cpk (wget (w (fst (fst (step s e)))) a) = true.
Proof. exact recorded_checkpoint_all_rw. Qed.

Print Assumptions C13_oracle_holds_on_model.
Print Assumptions C13_recorded_checkpoint_is_latest_snapshot.
Print Assumptions C13_recorded_checkpoint_all_rw.

(** *** ... histories with concurrent pairs included (Ctl/OracleProofsX18.v): both requests of a pair are
    well-formed and name observed replicas; a quiescence flag is true only where no monitor notification
    is undelivered after the whole request (pair) *)
From Jiva Require Import Ctl.OracleProofsX18.

Theorem C13_oracle_holds_on_model_with_pairs : forall xs rf0 n w0 qs, (1 <= rf0)%nat ->
  forallb (x_all ev_wf) xs = true -> forallb (x_all (ev_addrs_lt n)) xs = true ->
  xqs_sound (init rf0 w0) xs qs ->
  walk_q (fun q => lift (c13_step rf0 q) (c13_pair rf0))
         0 (obs0 rf0 n w0) xs (trace n (init rf0 w0) xs) qs = None.
Proof. exact c13_oracle_model_x_init. Qed.

(** a snapshot accepted while all RF replicas were listed RW is on every one of them that did not fail it,
    also after the request that was waiting behind it *)
Theorem C13_snapshot_survives_queued_request : forall s nm fs b x,
  struct_ok s -> count_rw (replicas s) = length (replicas s) ->
  snd (do_snapshot s nm fs) = ROk -> In x (keys (replicas s)) -> flt fs x KSnap = false ->
  In nm (f_chain (wget (w (fst (fst (step (fst (do_snapshot s nm fs)) b)))) x)).
Proof. exact snapshot_survives_second. Qed.

Print Assumptions C13_oracle_holds_on_model_with_pairs.
Print Assumptions C13_snapshot_survives_queued_request.

(** *** the snapshot fan-out: with the gate open and the request fanned out (the name lookup on the last RW
    replica succeeds and the name is new: the oracle's guard [snap_called]), every listed replica whose call
    fails is marked ERR.  When the lookup refuses the request nobody is called and nobody is marked
    ([c13_accepts_refused_existing_name], [c13_accepts_refused_failed_lookup] in Ctl/OracleProofs18.v) *)
Theorem C13_failed_snapshot_call_leaves_service : forall s n fs r0 a,
  struct_ok s -> status_ok s -> count_rw (replicas s) = rf s -> length (replicas s) = rf s ->
  last_rw s = Some r0 -> flt fs r0 KHttp = false -> existsb (Nat.eqb n) (f_chain (wget (w s) r0)) = false ->
  In a (keys (replicas s)) -> flt fs a KSnap = true ->
  ~ In a (in_service (replicas (fst (do_snapshot s n fs)))).
Proof. intros s n fs r0 a Hst Hss Hc _. apply snapshot_failed_not_in_service; assumption. Qed.

Print Assumptions C13_failed_snapshot_call_leaves_service.
