(** C19 — a clone replica serves only when done.
    Control half (model Ctl, first, and its oracle at the end): a replica is made RW at Start only if its
    clone status was read and is not "error".  Data half (model Block.Rebuild): after the copy of S's chain,
    UpdateCloneInfo and Reload the clone's image is the image of S and its counter the one handed to
    UpdateCloneInfo.  The whole system is exercised by the T3 scenario, see DESIGN.md §3 C19. *)
From Coq Require Import List ZArith Bool Arith.
From Jiva Require Import Ctl.Model Ctl.Proofs Ctl.Props.
Import ListNotations.
Open Scope Z_scope.

(** the part of addReplicaDuringStartNoLock after the replica was attached as WO is [start_tail] *)
Theorem C19_start_tail_is_the_code_path : forall s fs a s1 i s3,
  create_backend s fs a = Some (s1, i) -> flt fs a KSize = false ->
  let s2 := if csize s1 =? maxint then upd_csize s1 (f_size (wget (w s1) a)) else s1 in
  negb (csize s2 =? f_size (wget (w s1) a)) = false ->
  add_replica_nolock s2 fs a i false = (s3, ROk) ->
  add_during_start s fs a = start_tail s3 fs a.
Proof. exact add_during_start_tail. Qed.

(** the replica is made RW (and with it the volume readable and writable) only if its clone status
    could be read and is not "error" *)
Theorem C19_promoted_only_when_done : forall s3 fs a, snd (start_tail s3 fs a) = ROk ->
  flt fs a KClone = false /\ f_clone (wget (w s3) a) <> CErr.
Proof.
  intros s3 fs a H. unfold start_tail in H.
  destruct (flt fs a KClone); [cbn in H; discriminate|]. split; [reflexivity|].
  destruct (f_clone (wget (w s3) a)); [discriminate|discriminate|cbn in H; discriminate].
Qed.

(** a failed clone (or an unreadable status) is reported as an error and the replica is removed *)
Theorem C19_failed_clone_not_served : forall s3 fs a, struct_ok s3 ->
  (flt fs a KClone = true \/ f_clone (wget (w s3) a) = CErr) ->
  snd (start_tail s3 fs a) = RErr /\ has_replica (fst (start_tail s3 fs a)) a = false.
Proof. exact clone_error_not_served. Qed.

Print Assumptions C19_start_tail_is_the_code_path.
Print Assumptions C19_promoted_only_when_done.
Print Assumptions C19_failed_clone_not_served.

(** * data half (model: Block.Rebuild; proofs: Block.RebuildLemmas, Block.RebuildProofs) *)
From Jiva Require Import Block.Model Block.Lemmas Block.ProofsWrite Block.ProofsOps Block.Corr
     Block.Rebuild Block.RebuildLemmas Block.RebuildCorr Block.RebuildProofs.

(** CloneReplica of S = member [sx] of the source, a retained user-created snapshot ([clone_start_ok]), onto a
    fresh replica.  For every schedule
      (SrcWrite | SrcHole | Copy)*  CloneInfo rev  (SrcWrite | SrcHole | Copy)*
      with every block of members 1 .. sx copied at least once;
      DstReload;
      (SrcWrite | SrcHole | DstHole | UlmBegin | UlmPre | UlmMerge)*
    -- the source volume stays in service (writes of any alignment, asynchronous reclamation) --
      the clone's live image is the image of S (as the source held it at the start, and still holds it),
      its block map is well-formed and a full read through it returns that image,
      and its revision counter is the one handed to UpdateCloneInfo (sync.CloneReplica passes the counter
      recorded for S). *)
Theorem C19_clone_image : forall K sx s0 es1 es1' es2 rev, (0 < K)%nat ->
  clone_start_ok K sx s0 ->
  Forall clone_pre_ev es1 -> Forall clone_pre_ev es1' ->
  (forall i b, (1 <= i <= sx)%nat -> (b < nblk (src s0))%nat -> copied_in (es1 ++ es1') i b) ->
  Forall clone_post_ev es2 ->
  let s := run true K s0 (es1 ++ CloneInfo rev :: es1' ++ DstReload :: es2) in
  nf (dst s) = S sx /\
  image K (dst s) (S sx) = image K (src s0) sx /\
  image K (src s) sx = image K (src s0) sx /\
  wf K (dst s) /\ fst (read_all K (dst s)) = image K (src s0) sx /\
  drev s = rev.
Proof.
  intros K sx s0 es1 es1' es2 rev HK Hs H1 H1' Hc H2.
  exact (cinv2_sound K sx _ rev _ HK (cinv2_reached K sx s0 es1 es1' es2 rev HK Hs (Forall_impl _ clone_pre_try H1) H1' Hc H2)).
Qed.

(** The same with failed steps.  An UpdateCloneInfo whose write of volume.meta ([CloneInfoFail 0 _]) or of the
    head's metadata ([CloneInfoFail 1 _], the counter is already set then) fails returns its error and does not
    rewire the head; a Server.Reload that fails changes nothing (no event).  sync.CloneReplica returns the error
    (then there is no Reload, the clone is never declared completed and nothing is claimed) or the step is tried
    again: whenever the flow reaches its end -- a successful CloneInfo after any number of failed attempts, then
    the Reload -- the conclusions of [C19_clone_image] hold, in particular the counter is the one of the
    SUCCESSFUL attempt.  (What the check adds on the implementation: a step that swallows its error makes a flow
    "complete" that the model stops, and the oracle -- image of S, recorded counter -- is evaluated on it.) *)
Theorem C19_clone_image_after_failed_steps : forall K sx s0 es1 es1' es2 rev, (0 < K)%nat ->
  clone_start_ok K sx s0 ->
  Forall clone_try_ev es1 -> Forall clone_pre_ev es1' ->
  (forall i b, (1 <= i <= sx)%nat -> (b < nblk (src s0))%nat -> copied_in (es1 ++ es1') i b) ->
  Forall clone_post_ev es2 ->
  let s := run true K s0 (es1 ++ CloneInfo rev :: es1' ++ DstReload :: es2) in
  nf (dst s) = S sx /\
  image K (dst s) (S sx) = image K (src s0) sx /\
  image K (src s) sx = image K (src s0) sx /\
  wf K (dst s) /\ fst (read_all K (dst s)) = image K (src s0) sx /\
  drev s = rev.
Proof.
  intros K sx s0 es1 es1' es2 rev HK Hs H1 H1' Hc H2.
  exact (cinv2_sound K sx _ rev _ HK (cinv2_reached K sx s0 es1 es1' es2 rev HK Hs H1 H1' Hc H2)).
Qed.

(** a flow that stops at a failed UpdateCloneInfo leaves the clone unwired: nothing but the counter changed *)
Theorem C19_failed_cloneinfo_changes_no_data : forall K s stage rev,
  let s' := step true K s (CloneInfoFail stage rev) in
  src s' = src s /\ dst s' = dst s /\ wired s' = wired s /\ reloaded s' = reloaded s /\ uph s' = uph s.
Proof. intros K s stage rev. cbn [step]. destruct (reloaded s || (stage =? 0)%nat); cbn; auto. Qed.

Print Assumptions C19_clone_image.
Print Assumptions C19_clone_image_after_failed_steps.
Print Assumptions C19_failed_cloneinfo_changes_no_data.

(** controller half (model Ctl): the executable trace oracle [c19_step w0] (a replica that enters the list
    as RW at a start request has a scripted clone status other than "error") accepts every trace of the
    controller model, histories with concurrent pairs included.  The clone status is a constant of the
    scripted world: no request changes it ([entries_step]) *)
From Jiva Require Import Ctl.Model Ctl.Corr Ctl.Oracles Ctl.Proofs Ctl.OracleProofsX Ctl.OracleProofs19.

Theorem C19_controller_oracle_accepts_model_traces_with_pairs : forall xs rf0 n w0, (1 <= rf0)%nat ->
  forallb xev_wf xs = true ->
  Ctl.Oracles.walk (Ctl.Oracles.lift (c19_step w0) nopair) 0 (Ctl.Oracles.obs0 rf0 n w0) xs
                   (Ctl.Corr.trace n (Ctl.Model.init rf0 w0) xs) = None.
Proof. exact c19_oracle_model_x. Qed.

Print Assumptions C19_controller_oracle_accepts_model_traces_with_pairs.
