(** C07 — a rebuilt replica is identical to its source before it serves reads.
    Control half (model Ctl, first): promotion only after the chains were compared, one rebuilder, a
    rebuilding replica is never read; the control-half oracle on every model trace (below the data half).
    Data half (model Block.Rebuild): the file copy, Reload and UpdateLUNMap under every schedule give equal
    images.  The whole system (ssync itself, timing) is exercised by the T3 scenarios, see DESIGN.md §3 C07. *)
From Coq Require Import List ZArith Bool Arith.
From Jiva Require Import Ctl.Model Ctl.Proofs Ctl.Props.
Import ListNotations.
Open Scope Z_scope.

(** promotion WO -> RW by VerifyRebuildReplica happens only after the snapshot chains were compared
    from the checkpoint upward (the whole chain when the rebuilt replica has no checkpoint), and it
    equalises the revision counter with the source's *)
Theorem C07_promotion_verified : forall s a fs s',
  aget (replicas s) a = Some WO -> do_verify s a fs = (s', ROk) ->
  exists r0 m0 k,
    find (fun p => is_rw (snd p)) (replicas s) = Some (r0, m0)
    /\ (k <= length (f_chain (wget (w s) a)))%nat
    /\ firstn k (f_chain (wget (w s) r0)) = firstn k (f_chain (wget (w s) a))
    /\ (match f_cp (wget (w s) a) with
        | None => k = length (f_chain (wget (w s) r0))
        | Some c => exists i, index_of (f_chain (wget (w s) r0)) c 0 = Some i /\ k = S i
        end)
    /\ f_rev (wget (w s') a) = f_rev (wget (w s) r0)
    /\ f_mode (wget (w s') a) = RRW.
Proof. exact verify_promotes_after_check. Qed.

(** at most one replica is rebuilding, in every reachable state *)
Theorem C07_one_rebuilder : forall (es : list event) (rf0 : nat) (w0 : world),
  (1 <= rf0)%nat -> forallb ev_wf es = true ->
  (count_wo (replicas (run (init rf0 w0) es)) <= 1)%nat.
Proof. intros es rf0 w0 H Hw. exact (st_wo _ (struct_reachable es rf0 w0 H Hw)). Qed.

(** a rebuilding (or interrupted) replica is never in the read path: whoever serves a read is RW *)
Theorem C07_rebuilding_not_read : forall s off len order fs s' ef,
  struct_ok s -> do_read s off len order fs = (s', ROk, ef) ->
  exists a, e_served ef = Some a /\ aget (replicas s) a = Some RW.
Proof. exact read_served_by_rw. Qed.

Print Assumptions C07_promotion_verified.
Print Assumptions C07_one_rebuilder.
Print Assumptions C07_rebuilding_not_read.

(** * data half (model: Block.Rebuild -- two replicas on top of Block.Model; proofs: Block.RebuildLemmas,
    Block.RebuildProofs).  [rb] holds the source [src], the destination [dst] (its files indexed by the
    source's member positions), the holes queued on either side, the progress of UpdateLUNMap. *)
From Jiva Require Import Block.Model Block.Lemmas Block.ProofsWrite Block.ProofsOps Block.Corr
     Block.Rebuild Block.RebuildLemmas Block.RebuildCorr Block.RebuildProofs Block.RebuildAtomic.

(** For every schedule
      (BothWrite aligned to the 4 KiB block | Copy of blocks of a closed file above the sync point | SrcHole)*
      with every block of every such file copied at least once;
      DstReload;
      (BothWrite of any alignment | SrcHole | DstHole | UlmBegin | UlmPre | UlmMerge)*
    -- reclamation holes applied or dropped at any time after they were queued, the preload of UpdateLUNMap
    advancing one block at a time between foreground writes, the merge loop literal -- starting from a state
    in which the two chains agree at the sync point [c] ([start_ok]: equal images of the prefix ending at
    member [c]; [c] = 0 for a new replica):
      the live images are equal;
      every retained user-created snapshot from the sync point upward has equal images;
      an automatic snapshot has equal content at every block at which no newer member of the source has an
      extent (CAVEAT, precise: at a block that a newer layer shadows the source may have reclaimed the
      snapshot's extent -- it punches under its head -- while the destination, which copied the file earlier
      or reclaims on its own, may still hold it or may have punched a different one; such a block is never
      visible in the live volume nor in any user-created snapshot);
      the destination's block map is well-formed and a full read through it returns the source's image. *)
Theorem C07_rebuild_converges : forall K c s0 es1 es2, (0 < K)%nat ->
  start_ok K c s0 ->
  Forall (pre_ev K c) es1 -> all_copied c s0 es1 ->
  Forall post_ev es2 ->
  let s := run true K s0 (es1 ++ DstReload :: es2) in
  let n := nf (src s) in
  nf (dst s) = n /\ nblk (dst s) = nblk (src s) /\
  image K (dst s) n = image K (src s) n /\
  (forall J, (c <= J < n)%nat -> usr (src s) J = true -> rmd (src s) J = false ->
             image K (dst s) J = image K (src s) J) /\
  (forall J b, (c <= J < n)%nat -> (forall i, (J < i <= n)%nat -> fl (src s) i b = None) ->
               img K (fl (dst s)) J b = img K (fl (src s)) J b) /\
  wf K (dst s) /\ fst (read_all K (dst s)) = image K (src s) n.
Proof.
  intros K c s0 es1 es2 HK Hs H1 Hcp H2. exact (inv2_sound K c _ HK (inv2_reached K c s0 es1 es2 HK Hs H1 Hcp H2)).
Qed.

(** The hypothesis on the alignment of the writes that arrive before the Reload cannot be dropped: the model
    -- and the code: replay patches/f13-wo-rmw-stale.replay.json, finding wo-rmw-stale -- completes a partial block on the
    rebuilding replica from that replica's own stale chain. *)
Theorem C07_rebuild_unaligned_refuted :
  let s := fst (exec true 8 (init_case true rmw_case) (rc_ev rmw_case)) in
  reloaded s = true /\ uph s = UDone /\
  block_of 8 (image 8 (src s) (nf (src s))) 2 = [1; 3; 3; 1; 1; 1; 1; 1]%N /\
  block_of 8 (image 8 (dst s) (nf (dst s))) 2 = [0; 3; 3; 0; 0; 0; 0; 0]%N /\
  model_oracle true rmw_case = false.
Proof. vm_compute. repeat split; reflexivity. Qed.

(** Nor can "the chains agree at the sync point": a destination that wrote on its own after the sync point
    has punched below it (finding diverged-hole-below-syncpoint): before the rebuild the destination's sync-point
    image already lacks the block, and after it so does its live image. *)
Theorem C07_rebuild_diverged_refuted :
  let s0 := init_case true diverged_case in
  let s := fst (exec true 8 s0 (rc_ev diverged_case)) in
  block_of 8 (image 8 (src s0) 1) 1 = repeat 2%N 8 /\ block_of 8 (image 8 (dst s0) 1) 1 = repeat 0%N 8 /\
  block_of 8 (image 8 (src s) (nf (src s))) 1 = repeat 2%N 8 /\
  block_of 8 (image 8 (dst s) (nf (dst s))) 1 = repeat 0%N 8 /\
  model_oracle true diverged_case = false.
Proof. vm_compute. repeat split; reflexivity. Qed.

(** The three phases, run with nothing in between, are the transcription of Server.UpdateLUNMap used by the
    single-replica properties (Block.Model.update_lun_map): same table, same holes in the same order. *)
Theorem C07_ulm_phases_are_update_lun_map : forall fx K s,
  reloaded s = true -> uph s = UIdle -> (1 <= nf (dst s))%nat ->
  run fx K s (ulm_all (dst s)) =
  mkrb (src s) (spend s) (fst (update_lun_map (dst s))) (dpend s ++ snd (update_lun_map (dst s)))
       (lowc s) (wired s) (reloaded s) UDone (drev s).
Proof. exact Jiva.Block.RebuildAtomic.ulm_all_is_update_lun_map. Qed.

(** An UpdateLUNMap whose preload fails (the extent query of one chain file returns an error) reports the error,
    having run the scan up to that file: the files and the live block map are what they were (only reclamation
    holes of the scanned files are queued, and those keep every image by [C07_rebuild_converges]'s invariant);
    sync.reloadAndVerify returns the error, the replica is not promoted.  If the step is tried again: once the
    queued holes are applied or dropped the state satisfies the same invariant with UpdateLUNMap not started,
    so every schedule of [C07_rebuild_converges] -- in particular a complete UpdateLUNMap -- goes on from it. *)
Theorem C07_failed_updatelunmap_recoverable : forall K c s,
  inv2 K c s -> dpend s = [] ->
  inv2 K c (ulm_abort s) /\ src (ulm_abort s) = src s /\ dst (ulm_abort s) = dst s /\ uph (ulm_abort s) = UIdle.
Proof.
  intros K c s I Hp. split; [now apply inv2_abort|]. cbn. auto.
Qed.

Print Assumptions C07_rebuild_converges.
Print Assumptions C07_failed_updatelunmap_recoverable.
Print Assumptions C07_ulm_phases_are_update_lun_map.
Print Assumptions C07_rebuild_unaligned_refuted.
Print Assumptions C07_rebuild_diverged_refuted.

(** the executable trace oracle of the control half (the one the correspondence run evaluates on the
    real controller's observations) accepts every trace of the controller model (single-request
    histories; no condition on the number of observed replicas: outside the observed range the oracle
    gives no verdict) *)
From Jiva Require Import Ctl.Model Ctl.Corr Ctl.Oracles Ctl.Proofs Ctl.OracleProofsX2.

Theorem C07_oracle_accepts_model_traces : forall es rf0 n w0, (1 <= rf0)%nat -> forallb Ctl.Proofs.ev_wf es = true ->
  walk (lift (c07_step rf0) nopair) 0 (obs0 rf0 n w0) (map One es) (trace n (Ctl.Model.init rf0 w0) (map One es)) = None.
Proof. exact c07_oracle_model. Qed.

(** a replica listed as WO becomes RW only in VerifyRebuildReplica of that replica or by a
    SetReplicaMode(RW) request naming it; no other request of the controller promotes it *)
Theorem C07_promotion_only_by_verify : forall s e a, Ctl.Proofs.struct_ok s ->
  In (a, WO) (replicas s) -> In (a, RW) (replicas (fst (fst (Ctl.Model.step s e)))) ->
  match e with
  | Verify a' _ => a' = a
  | SetMode a' RW => a' = a
  | _ => False
  end.
Proof. exact promotion_only_by_verify. Qed.

(** the oracle extended with that clause also accepts every trace of the model *)
Theorem C07_extended_oracle_accepts_model_traces : forall es rf0 n w0, (1 <= rf0)%nat -> forallb Ctl.Proofs.ev_wf es = true ->
  walk (lift (fun prev e cur => c07_step rf0 prev e cur && c07_only_verify prev e cur) nopair) 0
       (obs0 rf0 n w0) (map One es) (trace n (Ctl.Model.init rf0 w0) (map One es)) = None.
Proof. exact c07_only_verify_oracle_model. Qed.

Print Assumptions C07_oracle_accepts_model_traces.
Print Assumptions C07_promotion_only_by_verify.
Print Assumptions C07_extended_oracle_accepts_model_traces.

(** the same for histories with concurrent pairs (the oracle that [check_case] runs: with the
    promotion-only-by-verify clause) *)
From Jiva Require Import Ctl.OracleProofsX Ctl.OracleProofsX2.

Theorem C07_oracle_accepts_model_traces_with_pairs : forall xs rf0 n w0, (1 <= rf0)%nat -> forallb xev_wf xs = true ->
  walk (lift (fun prev e cur => c07_step rf0 prev e cur && c07_only_verify prev e cur) nopair) 0
       (obs0 rf0 n w0) xs (trace n (Ctl.Model.init rf0 w0) xs) = None.
Proof. exact c07_oracle_model_x. Qed.

Print Assumptions C07_oracle_accepts_model_traces_with_pairs.
