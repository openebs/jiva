(** C17 — replica operations are gated by its mode and open/closed state.
    Model: Srv.  Statements here; each is a lemma of Srv/Proofs.v or follows from it in a few lines. *)
From Coq Require Import List ZArith Bool.
From Jiva Require Import Srv.Model Srv.Corr Srv.Proofs.
Import ListNotations.
Open Scope Z_scope.

(** a write changes the data only if the replica is open and RW or WO; otherwise it is refused and
    nothing at all changes *)
Theorem C17_write_gate : forall s id, serving_st s = false -> step s (OWrite id) = (s, RErr).
Proof. exact write_gate. Qed.

Theorem C17_write_applies_only_when_serving : forall s id,
  applied (fst (step s (OWrite id))) <> applied s ->
  serving_st s = true /\ snd (step s (OWrite id)) = ROk.
Proof.
  intros s id H. destruct (serving_st s) eqn:E.
  - split; [reflexivity|exact (mode_pass s (OWrite id) E)].
  - rewrite write_gate in H by exact E. contradiction H. reflexivity.
Qed.

(** a closed replica serves no I/O and no management operation that needs the volume *)
Theorem C17_closed_no_io : forall s o, r s = None ->
  match o with OWrite _ | ORead | OSnapshot | ORemove | OPrepRemove | OSetMode _ | OSetRev _
             | OSetRebuilding _ | OReload | ORevert | OSetCheckpoint => True | _ => False end ->
  step s o = (s, RErr).
Proof. exact closed_no_io. Qed.

Theorem C17_remove_needs_rw : forall s, is_rw s = false ->
  step s ORemove = (s, RErr) /\ step s OPrepRemove = (s, RErr).
Proof. intros s H. split; [exact (mode_gate s ORemove H)|exact (mode_gate s OPrepRemove H)]. Qed.

Theorem C17_setrev_needs_rw : forall s v, is_rw s = false -> step s (OSetRev v) = (s, RErr).
Proof. exact setrev_needs_rw. Qed.

(** a REST action outside the current state's set is answered 404 with no side effect: for every (state, action)
    pair at once ([state] takes five of the six values: the model has no failing read of volume.meta) *)
Theorem C17_rest_gate : forall s a m v b, allowed (state s) a = false ->
  tstep s (Rest a m v b) = (s, R404).
Proof. exact rest_gate. Qed.

(** attach (remote.Factory.Create) succeeds only from closed and leaves the replica open; hence the attach that
    follows it directly fails (C17_attach_once), and a later one needs [r s = None] again, that is an operation in
    between that closed the replica (by the first theorem; not stated as one) *)
Theorem C17_attach_only_closed : forall s, snd (tstep s Attach) = ROk ->
  state s = SClosed /\ r (fst (tstep s Attach)) <> None.
Proof. exact attach_only_closed. Qed.

Theorem C17_attach_once : forall s, snd (tstep s Attach) = ROk ->
  snd (tstep (fst (tstep s Attach)) Attach) = RErr.
Proof. exact attach_once. Qed.

Theorem C17_oracle_holds_on_model : forall ts, c17_oracle obs0 ts (trace init ts) = true.
Proof. intro ts. exact (c17_oracle_model ts init ROk). Qed.

Print Assumptions C17_write_gate.
Print Assumptions C17_write_applies_only_when_serving.
Print Assumptions C17_closed_no_io.
Print Assumptions C17_remove_needs_rw.
Print Assumptions C17_setrev_needs_rw.
Print Assumptions C17_rest_gate.
Print Assumptions C17_attach_only_closed.
Print Assumptions C17_attach_once.
Print Assumptions C17_oracle_holds_on_model.
