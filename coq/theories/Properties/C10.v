(** C10 — the revision counter counts applied RW writes exactly and never goes back.
    Model: Srv (replica.Server / Replica.WriteAt / revision_counter.go).  Statements here; each is a
    lemma of Srv/Proofs.v or follows from it in a few lines. *)
From Coq Require Import List ZArith Bool.
From Jiva Require Import Srv.Model Srv.Corr Srv.Proofs.
Import ListNotations.
Open Scope Z_scope.

(** Over every history of server operations, REST actions, attaches, crashes (also in the middle of a
    write) and reopen events that contains no explicit set-revision-counter / create:
    persisted counter = initial + number of writes acknowledged while RW. *)
Theorem C10_counts_exactly : forall (ts : list top) (s : st), inv s -> no_setrev ts = true ->
  dcount (fst (run s ts)) = dcount s + rw_acks s ts.
Proof. exact counts_exact. Qed.

Theorem C10_never_decreases : forall (ts : list top) (s : st), inv s -> no_setrev ts = true ->
  dcount s <= dcount (fst (run s ts)).
Proof.
  intros ts s H Hn. rewrite counts_exact by assumption.
  rewrite <- (Z.add_0_r (dcount s)) at 1. apply Z.add_le_mono_l. apply rw_acks_nonneg.
Qed.

Theorem C10_rw_write_adds_one : forall s id, inv s -> is_rw s = true ->
  dcount (fst (step s (OWrite id))) = dcount s + 1 /\ snd (step s (OWrite id)) = ROk.
Proof.
  intros s id H Hrw. split; [rewrite step_count by exact H; unfold next_count; rewrite Hrw; reflexivity | exact (mode_pass s (OWrite id) (is_rw_serving s Hrw))].
Qed.

Theorem C10_rebuilding_or_refused_write_keeps : forall s id, inv s -> is_rw s = false ->
  dcount (fst (step s (OWrite id))) = dcount s.
Proof. intros s id H Hrw. rewrite step_count by exact H. unfold next_count. rewrite Hrw. reflexivity. Qed.

Theorem C10_close_reopen_crash_keep : forall s o, inv s ->
  match o with OCrash | OClose | OOpen | OWriteCrash _ | OReload => True | _ => False end ->
  dcount (fst (step s o)) = dcount s.
Proof. intros s o H Ho. rewrite step_count by exact H. destruct o; try contradiction; reflexivity. Qed.

Theorem C10_set_needs_rw : forall s v, is_rw s = false -> step s (OSetRev v) = (s, RErr).
Proof. exact setrev_needs_rw. Qed.

(** The executable statement of C10 on observed traces (the oracle the correspondence run evaluates
    on the implementation's observations) holds on every trace of the model. *)
Theorem C10_oracle_holds_on_model : forall ts, c10_oracle obs0 ts (trace init ts) = true.
Proof. intro ts. exact (c10_oracle_model ts init ROk inv_init). Qed.

Print Assumptions C10_counts_exactly.
Print Assumptions C10_never_decreases.
Print Assumptions C10_rw_write_adds_one.
Print Assumptions C10_rebuilding_or_refused_write_keeps.
Print Assumptions C10_close_reopen_crash_keep.
Print Assumptions C10_set_needs_rw.
Print Assumptions C10_oracle_holds_on_model.
