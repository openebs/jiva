(** C11 -- deleting a snapshot (merge into the parent, unlink) never changes what the live volume reads
    nor any other retained user-created snapshot; head, latest and base are never accepted; the cleaner
    never selects the checkpoint or anything newer, a retained user-created snapshot, or a snapshot whose
    merge target is one.  Model: Block.  Statements here; each is a lemma of the Block files or follows
    from them in a few lines.
    (The controller's gate for user requests is not modelled, DESIGN.md §3 C11.) *)
From Coq Require Import List Arith Bool NArith Lia.
From Jiva Require Import Block.Model Block.Corr Block.Lemmas Block.ProofsWrite Block.ProofsUnit Block.ProofsRead
     Block.ProofsOps Block.ProofsPreload Block.Refine Block.Proofs Block.OracleProofs.
Import ListNotations.

Theorem C11_delete_preserves : forall K d name, inv K d ->
  let i := find_name d name (nf d) in
  2 <= i -> S i < nf d -> (usr d (i - 1) = true -> rmd d (i - 1) = true) ->
  exists d1, delete d name = (d1, ROk) /\ inv K d1 /\ nf d1 = nf d - 1 /\ nblk d1 = nblk d /\
    image K d1 (nf d1) = image K d (nf d) /\
    (forall k, 1 <= k < i - 1 -> image K d1 k = image K d k /\ nm d1 k = nm d k) /\
    (forall k, i <= k -> image K d1 k = image K d (S k) /\ nm d1 k = nm d (S k)) /\
    nm d1 (i - 1) = nm d (i - 1).
Proof. exact delete_preserves. Qed.

(** In terms of the specification: a deletion keeps the live image and drops exactly one entry of the
    snapshot table; every other retained entry keeps its recorded image (this is the Delete case of the
    refinement step, so it composes with every other operation). *)
Theorem C11_delete_refines : forall K d s name ch d1 x s1 r data,
  0 < K -> inv K d -> Rel K d s ->
  step true K d (Delete name) ch = (d1, x) ->
  spec_step K s (Delete name) (ores x, image K d1 (nf d1)) = Some (s1, r, data) ->
  inv K d1 /\ Rel K d1 s1 /\ ores x = r /\ live s1 = live s.
Proof. exact delete_refines. Qed.

Theorem C11_protected_refused : forall d name,
  let i := find_name d name (nf d) in
  i <> 0 -> (i = nf d \/ S i = nf d \/ i = 1) ->
  prep_remove d name = (d, RErr) /\ delete d name = (d, RErr).
Proof. exact protected_refused. Qed.

Theorem C11_raw_remove_refuses_head_and_latest : forall d name,
  let i := find_name d name (nf d) in
  i <> 0 -> (i = nf d \/ S i = nf d) -> remove d name = (d, RErr).
Proof. exact raw_remove_refuses_head_and_latest. Qed.

Theorem C11_cleaner_filter : forall d cp name, In name (candidates d cp) ->
  exists c k, cp = Some c /\ find_name d c (nf d) <> 0 /\
    2 <= k < find_name d c (nf d) /\ nm d k = name /\
    retained_user d k = false /\ retained_user d (k - 1) = false /\
    (find_name d c (nf d) < nf d -> S k < nf d).
Proof. exact cleaner_filter. Qed.

Theorem C11_cleaner_needs_checkpoint : forall d, candidates d None = [].
Proof. reflexivity. Qed.

Theorem C11_cleaner_low_checkpoint : forall d c, find_name d c (nf d) <= 2 -> candidates d (Some c) = [].
Proof.
  intros d c H. unfold candidates. destruct (nf d <=? 3); [reflexivity|].
  destruct (Nat.leb_spec (find_name d c (nf d)) 2); [reflexivity|lia].
Qed.

(** S7: a raw RemoveDiffDisk (REST action removedisk) WITHOUT the test for the base snapshot
    ([remove_g false]; /repo has the test, replica.go RemoveDiffDisk "Can't delete base snapshot") accepts the
    base and the live image changes: PrepareRemoveDisk's refusal alone does not cover the raw action. *)
Theorem C11_raw_remove_accepts_base_refuted :
  let d := fst (run true 1 (init 8 false) s7_history) in
  find_name d 1%N (nf d) = 1 /\ snd (remove_g false d 1%N) = ROk /\
  image 1 (fst (remove_g false d 1%N)) (nf (fst (remove_g false d 1%N))) <> image 1 d (nf d).
Proof. vm_compute. repeat split; discriminate. Qed.

(** With the test ([remove_g true], which is [remove]: [Model.s7_guard] = true) the base is refused. *)
Theorem C11_raw_remove_guarded_refuses_base : forall d name,
  find_name d name (nf d) = 1 -> remove_g true d name = (d, RErr).
Proof.
  intros d name H. unfold remove_g. rewrite H.
  destruct (Nat.eqb_spec 1 0); [lia|]. destruct (1 =? nf d); [reflexivity|]. destruct (2 =? nf d); reflexivity.
Qed.

(** One pass of the background cleaner's loop body (sync.InternalSnapshotCleaner: candidate list, first
    candidate, PrepareRemoveDisk, merge by the sync agent, RemoveDiffDisk), whatever the sync agent answers to
    the merge request: the live image is unchanged; every retained user-created snapshot is still a retained
    member with the same name and image; when the merge failed the chain and all files are exactly as before
    (the snapshot is still a member, only marked Removed), and a failure is only ever reported in that case. *)
Theorem C11_cleaner_pass_preserves : forall K d c victim fail, inv K d -> c <> 0%N ->
  let '(d1, r) := clean d (Some c) victim fail in
  inv K d1 /\ nblk d1 = nblk d /\ image K d1 (nf d1) = image K d (nf d) /\
  (forall k, 1 <= k < nf d -> usr d k = true -> rmd d k = false ->
     exists k', 1 <= k' < nf d1 /\ nm d1 k' = nm d k /\ usr d1 k' = true /\ rmd d1 k' = false /\
                image K d1 k' = image K d k) /\
  (fail = true -> nf d1 = nf d /\ nm d1 = nm d /\ fl d1 = fl d) /\
  (r = RErr -> fail = true /\ In victim (candidates d (Some c))).
Proof. exact clean_preserves. Qed.

(** The executable statement of C11 on observed traces (the oracle evaluated on the implementation's
    observations: around every PrepareRemoveDisk / deletion / raw remove / candidate query / pass of the
    background cleaner (merge performed or failed by the sync agent) the live image,
    the chain and every other retained user-created snapshot are as the property says) holds on every
    trace of the model whose operations stay inside the specification's domain: no raw fold, no raw
    remove of a base or middle member, no deletion that merges into a retained user-created snapshot,
    fresh snapshot names, the checkpoint is not the head, no discard (the specification does not speak
    about Unmap). *)
Theorem C11_oracle_holds_on_model : forall K nb p rv (h : list (op * list bool)), 0 < K ->
  in_dom K (spec0 (mkcfg K nb p rv)) (map fst h) (trace true K rv (init nb p) h) = true ->
  c11_oracle (mkcfg K nb p rv) (map fst h) (trace true K rv (init nb p) h) = true.
Proof. exact c11_oracle_model. Qed.

Print Assumptions C11_oracle_holds_on_model.
Print Assumptions C11_cleaner_pass_preserves.
Print Assumptions C11_delete_preserves.
Print Assumptions C11_delete_refines.
Print Assumptions C11_protected_refused.
Print Assumptions C11_raw_remove_refuses_head_and_latest.
Print Assumptions C11_cleaner_filter.
Print Assumptions C11_cleaner_needs_checkpoint.
Print Assumptions C11_cleaner_low_checkpoint.
Print Assumptions C11_raw_remove_accepts_base_refuted.
Print Assumptions C11_raw_remove_guarded_refuses_base.
