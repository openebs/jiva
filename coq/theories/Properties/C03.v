(** C03 — writes are accepted only while a quorum of replicas is RW; otherwise read-only.
    Model: Ctl. *)
From Coq Require Import List ZArith Bool Arith.
From Jiva Require Import Ctl.Model Ctl.Corr Ctl.Oracles Ctl.Proofs Ctl.OracleProofs Ctl.OracleProofsX2.
Import ListNotations.

(** After every sequence of register / start / add / verify / remove / set-mode / monitor / I/O /
    snapshot / resize events with any fault script, for every replication factor >= 1: the read-only
    flag and the RW count are exactly what the replica list implies (re-evaluated at every change). *)
Theorem C03_status_always_reevaluated : forall (es : list event) (rf0 : nat) (w0 : world),
  (1 <= rf0)%nat -> status_ok (run (init rf0 w0) es).
Proof. intros es rf0 w0 _. apply status_reachable. Qed.

Theorem C03_status_preserved_by_every_event : forall s e, status_ok s -> status_ok (fst (fst (step s e))).
Proof. exact status_step. Qed.

(** Below floor(RF/2)+1 RW replicas a write, flush or unmap is refused and nothing at all changes
    (no replica is called: the state, which contains every replica's log, is identical). *)
Theorem C03_gate_refuses_without_quorum : forall s e, status_ok s -> is_mut_io e = true ->
  (count_rw (replicas s) < quorum (rf s))%nat -> step s e = (s, RRefused, noeff).
Proof. exact gate_refuses. Qed.

(** Once a quorum exists (after whatever changes) the gate lets mutating I/O through again. *)
Theorem C03_gate_opens_with_quorum : forall s e, status_ok s -> is_mut_io e = true ->
  (quorum (rf s) <= count_rw (replicas s))%nat -> snd (fst (step s e)) <> RRefused.
Proof. exact gate_opens. Qed.

(** the configured replication factor is never changed by any event *)
Theorem C03_rf_constant : forall s e, rf (fst (fst (step s e))) = rf s.
Proof. exact rf_step. Qed.

(** the executable statement of C03 that the correspondence run evaluates on the implementation's
    observations accepts every trace of the model (histories of single requests) *)
Theorem C03_oracle_holds_on_model : forall es rf0 n w0, (1 <= rf0)%nat ->
  walk (lift (c03_step rf0) (c03_pair rf0)) 0 (obs0 rf0 n w0) (map One es) (trace n (init rf0 w0) (map One es)) = None.
Proof. intros es rf0 n w0 _. apply c03_oracle_model_init. Qed.

Print Assumptions C03_status_always_reevaluated.
Print Assumptions C03_rf_constant.
Print Assumptions C03_oracle_holds_on_model.
Print Assumptions C03_status_preserved_by_every_event.
Print Assumptions C03_gate_refuses_without_quorum.
Print Assumptions C03_gate_opens_with_quorum.

(** histories with concurrent pairs ([Two a b]: b issued while a is in flight).  The pair rule applies its
    refusal clause only when the first write lies inside the volume; "nobody holds wid2" presupposes write
    ids that are fresh when issued ([fresh_wid]; [c03_pair_needs_fresh_write_ids] shows it is needed) *)
From Jiva Require Import Ctl.Model Ctl.Corr Ctl.Oracles Ctl.Proofs Ctl.OracleProofs2 Ctl.OracleProofsX Ctl.OracleProofsX2.

Theorem C03_oracle_accepts_model_traces_with_pairs : forall xs rf0 n w0, (1 <= rf0)%nat -> forallb xev_wf xs = true ->
  hist_ok fresh_wid (init rf0 w0) (flatten xs) ->
  walk (lift (c03_step rf0) (c03_pair rf0)) 0 (obs0 rf0 n w0) xs (trace n (init rf0 w0) xs) = None.
Proof. exact c03_oracle_model_x. Qed.

Print Assumptions C03_oracle_accepts_model_traces_with_pairs.
