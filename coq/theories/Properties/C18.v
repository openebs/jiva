(** C18 — controller membership bookkeeping is internally consistent.   Model: Ctl. *)
From Coq Require Import List ZArith Bool Arith.
From Jiva Require Import Ctl.Model Ctl.Proofs Ctl.Props.
Import ListNotations.

(** In every state reachable by any history of register / start / add-check / add-commit / verify /
    remove / set-mode / monitor / I/O / snapshot / resize events (duplicates and unknown addresses
    included, any fault script; start requests naming at most one replica, as jiva replicas send them):
    no address twice; the backend map the I/O goes to has exactly the entries and modes of the replica
    list; never more replicas than the replication factor; at most one rebuilding (WO) replica; the
    readers-available flag agrees with the backend map; the registration map has no duplicate. *)
Theorem C18_structure_invariant : forall (es : list event) (rf0 : nat) (w0 : world),
  (1 <= rf0)%nat -> forallb ev_wf es = true -> struct_ok (run (init rf0 w0) es).
Proof. exact struct_reachable. Qed.

Theorem C18_structure_preserved_by_every_event : forall s e, struct_ok s -> ev_wf e = true ->
  struct_ok (fst (fst (step s e))).
Proof. exact struct_step. Qed.

(** the reported RW count equals the number of RW entries, after every event *)
Theorem C18_rw_count_exact : forall (es : list event) (rf0 : nat) (w0 : world),
  (1 <= rf0)%nat -> rwc (run (init rf0 w0) es) = count_rw (replicas (run (init rf0 w0) es)).
Proof. intros es rf0 w0 _. exact (proj1 (status_reachable es rf0 w0)). Qed.

(** a replica enters the list only through add-commit (itself) or a start on an empty list; every
    other event can only remove entries or change modes *)
Theorem C18_enter_only_by_add_or_start : forall s e x,
  In x (keys (replicas (fst (fst (step s e))))) -> ~ In x (keys (replicas s)) ->
  match e with AddCommit a _ => x = a | Start _ _ => replicas s = [] | _ => False end.
Proof. exact enter_only_by_add_or_start. Qed.

Print Assumptions C18_structure_invariant.
Print Assumptions C18_structure_preserved_by_every_event.
Print Assumptions C18_rw_count_exact.
Print Assumptions C18_enter_only_by_add_or_start.

(** *** the trace oracle of C18 accepts every trace of the model (rules in Ctl/OracleProofs18.v, traces in Ctl/OracleProofsX18.v) *)
From Jiva Require Import Ctl.Corr Ctl.Oracles Ctl.OracleProofs Ctl.OracleProofs2 Ctl.OracleProofs18 Ctl.OracleProofsX18.

(** only replicas in service (attached and not marked failed) receive the calls of I/O, snapshot and
    resize requests: the scripted replica of every other address is unchanged *)
Theorem C18_calls_only_in_service : forall s e x, is_call e = true -> ~ In x (writers s) ->
  wget (w (fst (fst (step s e)))) x = wget (w s) x.
Proof. intros s e x He. apply call_frame. apply is_call_calls. exact He. Qed.

Theorem C18_oracle_holds_on_model : forall es rf0 n w0 qs, (1 <= rf0)%nat -> forallb ev_wf es = true ->
  forallb (ev_addrs_lt n) es = true ->
  walk_q (fun q => lift (c18_step rf0 q) (fun prev a b cur => c18_step rf0 q prev (SetMode 0%nat WO) cur))
         0 (obs0 rf0 n w0) (map One es) (trace n (init rf0 w0) (map One es)) qs = None.
Proof. exact c18_oracle_model_init. Qed.

Print Assumptions C18_calls_only_in_service.
Print Assumptions C18_oracle_holds_on_model.

(** *** ... histories with concurrent pairs included (Ctl/OracleProofsX18.v) *)
From Jiva Require Import Ctl.OracleProofsX18.

Theorem C18_oracle_holds_on_model_with_pairs : forall xs rf0 n w0 qs, (1 <= rf0)%nat ->
  forallb (x_all ev_wf) xs = true -> forallb (x_all (ev_addrs_lt n)) xs = true ->
  walk_q (fun q => lift (c18_step rf0 q) (fun prev a b cur => c18_step rf0 q prev (SetMode 0%nat WO) cur))
         0 (obs0 rf0 n w0) xs (trace n (init rf0 w0) xs) qs = None.
Proof. exact c18_oracle_model_x_init. Qed.

Print Assumptions C18_oracle_holds_on_model_with_pairs.
