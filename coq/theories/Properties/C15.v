(** C15 — data-path RPC matches replies to requests, round-trips frames, never hangs.
    Model: Rpc (rpc/wire.go codec over byte lists; rpc/client.go loop + the caller side of
    operation as a sequential state machine; rpc/server.go readWrite as a loop over decoded requests;
    the two composed over FIFO pipes).  Statements here, each a lemma of the Rpc files or
    a few lines from them; [seq_mod] = 2^32.

    Proved: the codec half, the state-machine half, the server half and their composition below, for every
    message / byte stream / event sequence / schedule.  Not a theorem (measured by the harness on the real
    client): goroutine scheduling and the wall-clock bound of "promptly".  The event [ReqRaced] is a request
    that passed operation's c.err test before the failure and reached c.requests after the loop returned: the
    model leaves it to its own timer (C15_raced_request_waits_for_its_timer), the code, which also selects on
    c.end, fails it at once. *)
From Coq Require Import List ZArith NArith Bool.
From Jiva Require Import Rpc.Model Rpc.CodecProofs Rpc.LoopProofs Rpc.Corr Rpc.Proofs Rpc.Server Rpc.ServerProofs.
Import ListNotations.
Open Scope N_scope.

(** ** frames *)

(** every message within the Go field ranges survives Wire.Write ; Wire.Read unchanged, whatever follows it *)
Theorem C15_roundtrip : forall m rest, wf m -> decode (encode m ++ rest) = Some (m, rest).
Proof. exact roundtrip. Qed.

(** a concatenation of frames is read back as the same messages in the same order, ending cleanly *)
Theorem C15_stream : forall ms, Forall wf ms -> decode_stream (flat_map encode ms) = (ms, EndClean).
Proof. exact stream. Qed.

(** ... and whatever follows the frames is decoded from exactly where they end *)
Theorem C15_stream_then : forall ms fuel tail, Forall wf ms ->
  decode_many (length ms + fuel) (flat_map encode ms ++ tail) =
  (let '(ms', e) := decode_many fuel tail in (ms ++ ms', e)).
Proof. exact decode_many_app. Qed.

(** the generic little-endian lemma behind the header fields, any width *)
Theorem C15_little_endian : forall w n, n < 256 ^ N.of_nat w -> le_decode (le_encode w n) = n.
Proof. exact le_roundtrip. Qed.

(** a stream whose first two bytes are not 03 1b is rejected, nothing is delivered *)
Theorem C15_bad_magic_rejected : forall bs mg r, get 2 bs = Some (mg, r) -> mg <> magic_version ->
  decode_r bs = DBadMagic mg /\ decode bs = None.
Proof. exact bad_magic_r. Qed.

Theorem C15_bad_magic_frame_rejected : forall m rest, mmagic m < 2 ^ 16 -> mmagic m <> magic_version ->
  decode_r (encode m ++ rest) = DBadMagic (mmagic m) /\ decode (encode m ++ rest) = None.
Proof. exact bad_magic_frame. Qed.

(** a frame cut anywhere is an error, never a (shorter) message *)
Theorem C15_truncated_rejected : forall m k, wf m -> (k < length (encode m))%nat ->
  decode (firstn k (encode m)) = None.
Proof. exact truncated_rejected. Qed.

(** whatever the reader accepts is within the field ranges and re-encodes to exactly the bytes consumed *)
Theorem C15_decode_encode : forall bs m rest, bytes bs -> decode_r bs = DOk m rest ->
  wf m /\ bs = encode m ++ rest /\ bytes rest.
Proof. exact decode_r_inv. Qed.

(** ** matching *)

(** each call returns at most once, over every event sequence with distinct call ids *)
Theorem C15_at_most_once : forall es, NoDup (req_ids es) ->
  NoDup (map fst (dones (outs (exec seq_mod init es)))).
Proof. intros es H. exact (proj2 (at_most_once seq_mod es H)). Qed.

(** a call that returns something other than the connection's error returns exactly what [operation]
    makes of a response frame whose sequence number is the one its own frame was sent with
    (any number of outstanding calls, any reply order, duplicates, unknown numbers) *)
Theorem C15_matching : forall es pre e o post id r,
  exec seq_mod init es = pre ++ (e, o) :: post -> In (Done id r) o -> is_local r = false ->
  exists sq ty sz d rq,
    e = Resp sq ty sz d /\ rid rq = id /\ r = op_result rq ty sz d /\
    exists e0 o0, In (e0, o0) pre /\ is_req e0 = Some rq /\ In (Sent (req_msg sq rq)) o0.
Proof.
  intros es pre e o post id r H Hin Hl.
  destruct (matching seq_mod es pre (e, o) post H id r Hin Hl) as (sq & ty & sz & d & rq & H1 & H2 & H3 & H4).
  exists sq, ty, sz, d, rq. repeat split; auto.
Qed.

(** under the guard (no number is reused while a request carrying it is pending) the number identifies the
    caller: one pending entry per number and every blocked caller owns one, so the frame a peer sends in
    answer to a caller's frame can only be delivered to that caller *)
Theorem C15_matching_unique : forall es, guard seq_mod init es = true ->
  let s := run seq_mod init es in
  failed s = None ->
  NoDup (map fst (pending s)) /\ forall rq, In rq (waiting s) -> exists sq, In (sq, rq) (pending s).
Proof. intros es H. exact (no_orphan seq_mod es H). Qed.

(** the guard holds whenever fewer than 2^32 requests are issued on the connection *)
Theorem C15_guard_of_count : forall es, N.of_nat (count_reqs es) < seq_mod -> guard seq_mod init es = true.
Proof. exact (guard_of_count seq_mod). Qed.

(** the guard is needed: with the counter wrapping (shown on a 2-bit counter; the code delivers astray in the same way
    after 2^32 requests with one request outstanding) a response is delivered to the wrong call: call 1 and call 5 were
    both sent with number 1; call 1 is blocked but owns no entry any more; the response to call 1's frame completes
    call 5, whose buffer receives the data read for call 1; in the model a failure leaves call 1 hanging (the code
    releases it, because operation also selects on c.end) *)
Theorem C15_matching_without_guard_refuted :
  NoDup (req_ids wrap_trace) /\
  guard 4 init wrap_trace = false /\
  assigned_from 4 0 wrap_trace 1 = Some 1 /\ assigned_from 4 0 wrap_trace 5 = Some 1 /\
  (let s := run 4 init wrap_trace in
   In rqA (waiting s) /\ existsb (fun p => rid (snd p) =? 1) (pending s) = false) /\
  dones (snd (step 4 (run 4 init wrap_trace) (Resp 1 TypeResponse 4 [10; 11; 12; 13]))) = [(5, mkres 4 ENone [10; 11])] /\
  dones (snd (step 4 (run 4 init wrap_trace) (TransportErr CTransport))) = [(5, mkres 0 (ELocal CTransport) [0; 0])].
Proof.
  split; [|vm_compute; repeat split; auto].
  apply nodupb_NoDup. vm_compute. reflexivity.
Qed.

(** ** failure *)

(** when the loop takes a transport error (read / write error, SetError of a timed out caller or of
    monitorPing): every blocked caller returns the connection's error in that step, the failure is
    reported on closeChan, nothing stays pending *)
Theorem C15_fail_all : forall es c, guard seq_mod init es = true -> failed (run seq_mod init es) = None ->
  forall s1 o, step seq_mod (run seq_mod init es) (TransportErr c) = (s1, o) ->
  (forall rq, In rq (waiting (run seq_mod init es)) -> exists r, In (Done (rid rq) r) o /\ r_err r = ELocal c) /\
  (forall id r, In (Done id r) o -> r_err r = ELocal c) /\
  In Closed o /\ waiting s1 = [] /\ pending s1 = [] /\ failed s1 = Some c.
Proof.
  intros es c Hg F s1 o H. exact (fail_all_step seq_mod _ c (no_orphan seq_mod es Hg) F s1 o H).
Qed.

(** hence after the failure every call issued so far has returned *)
Theorem C15_fail_all_complete : forall es c, NoDup (req_ids es) -> guard seq_mod init es = true ->
  failed (run seq_mod init es) = None ->
  forall id, In id (req_ids es) -> In id (map fst (dones (outs (exec seq_mod init (es ++ [TransportErr c]))))).
Proof. exact (fail_all_complete seq_mod). Qed.

(** and every later call is refused immediately with the connection's error, for ever *)
Theorem C15_later_requests_fail : forall es s c rq, failed s = Some c ->
  step seq_mod (run seq_mod s es) (Req rq) = (run seq_mod s es, [Done (rid rq) (local_result rq c)]).
Proof. exact (later_requests_fail seq_mod). Qed.

(** a caller whose deadline passes returns the timeout error and has called SetError (errq + 1); the
    loop's next transport error event is C15_fail_all *)
Theorem C15_timeout : forall es rq, NoDup (req_ids es) -> In rq (waiting (run seq_mod init es)) ->
  let s := run seq_mod init es in
  step seq_mod s (Timeout (rid rq)) =
  (mkst (seq s) (pending s) (failed s) (rm_wait (rid rq) (waiting s)) (errq s + 1),
   [Done (rid rq) (local_result rq (timeout_err (rkind rq)))]).
Proof.
  intros es rq Hnd Hin s. apply timeout_step; [exact Hin|]. now apply at_most_once.
Qed.

(** nobody is forgotten: every issued call has returned or is still blocked with its own timer running *)
Theorem C15_accounted : forall es, NoDup (req_ids es) -> forall id, In id (req_ids es) ->
  In id (map rid (waiting (run seq_mod init es))) \/ In id (map fst (dones (outs (exec seq_mod init es)))).
Proof. exact (accounted seq_mod). Qed.

(** the one request the model's failure does not release: it passed operation's c.err test before the failure
    and reached c.requests after the loop had returned; in the model it waits for its own timer *)
Theorem C15_raced_request_waits_for_its_timer : forall s c rq, failed s = Some c -> ~ In (rid rq) (wids (waiting s)) ->
  let s1 := fst (step seq_mod s (ReqRaced rq)) in
  snd (step seq_mod s (ReqRaced rq)) = [] /\
  step seq_mod s1 (Timeout (rid rq)) =
    (mkst (seq s) (pending s) (failed s) (rm_wait (rid rq) (waiting s)) (errq s + 1),
     [Done (rid rq) (local_result rq (timeout_err (rkind rq)))]).
Proof. intros s c rq F _. exact (raced_released_by_timeout seq_mod s c rq F). Qed.

(** ** the executable statements evaluated on the implementation's observations hold on every model trace *)
Theorem C15_oracle_holds_on_model : forall es, trace_wf seq_mod es = true ->
  c15_oracle seq_mod es (dones (outs (exec seq_mod init es))) (count_closed (outs (exec seq_mod init es))) = true.
Proof. exact (c15_oracle_model seq_mod). Qed.

Theorem C15_write_oracle_holds_on_model : forall m,
  wcase_same (mkw m (encode m)) = true /\ c15_write_oracle (mkw m (encode m)) = true.
Proof.
  intro m. split; [apply listN_eqb_refl|].
  unfold c15_write_oracle. cbn [w_msg w_bytes]. destruct (wfb m) eqn:W; [|reflexivity].
  apply wfb_wf in W. rewrite <- (app_nil_r (encode m)), (roundtrip m [] W). apply msg_eqb_refl.
Qed.

Theorem C15_read_oracle_holds_on_model : forall input, bytes input ->
  rcase_same (mkr input (fst (decode_stream input)) (snd (decode_stream input))) = true /\
  c15_read_oracle (mkr input (fst (decode_stream input)) (snd (decode_stream input))) = true.
Proof. exact read_oracle_model. Qed.

Print Assumptions C15_roundtrip.
Print Assumptions C15_stream.
Print Assumptions C15_stream_then.
Print Assumptions C15_little_endian.
Print Assumptions C15_bad_magic_rejected.
Print Assumptions C15_bad_magic_frame_rejected.
Print Assumptions C15_truncated_rejected.
Print Assumptions C15_decode_encode.
Print Assumptions C15_at_most_once.
Print Assumptions C15_matching.
Print Assumptions C15_matching_unique.
Print Assumptions C15_guard_of_count.
Print Assumptions C15_matching_without_guard_refuted.
Print Assumptions C15_fail_all.
Print Assumptions C15_fail_all_complete.
Print Assumptions C15_later_requests_fail.
Print Assumptions C15_timeout.
Print Assumptions C15_accounted.
Print Assumptions C15_raced_request_waits_for_its_timer.
Print Assumptions C15_oracle_holds_on_model.
Print Assumptions C15_write_oracle_holds_on_model.
Print Assumptions C15_read_oracle_holds_on_model.

(** ** the replica side: rpc/server.go readWrite / handleX / createResponse (model Rpc/Server.v)

    Proved for every request list and every behaviour of the data processor.  Not a theorem: the runtime
    panics of the code as it is (a read frame with a negative Size, an EOF count beyond the buffer) end the
    model's run ([SPanic]) and are not driven on the implementation; logrus.Fatal on EIO; the accept loop of
    replica/rpc/server.go (one connection at a time) is exercised by the harness only through Handle(). *)

(** (a) the reply is written on the request's own message object: same Seq (whatever its value), same
    Offset, and the magic number *)
Theorem C15_server_reply_carries_request_seq : forall m o r, srv_step m o = Some r ->
  mseq r = mseq m /\ moff r = moff m /\ (mmagic m = magic_version -> mmagic r = magic_version).
Proof. exact srv_step_seq. Qed.

(** one reply per request, in request order; the i-th reply is computed from the i-th request and from what
    the processor did for the i-th request *)
Theorem C15_server_in_order : forall proc reqs k reps st, serve_from proc k reqs = (reps, st) ->
  (st = SEnd -> length reps = length reqs) /\ (length reps <= length reqs)%nat /\
  forall i r, nth_error reps i = Some r ->
    exists m, nth_error reqs i = Some m /\ srv_step m (proc (k + i)%nat m) = Some r /\
              mseq r = mseq m /\ moff r = moff m.
Proof. exact serve_in_order. Qed.

Theorem C15_server_seqs_in_request_order : forall proc reqs k reps, serve_from proc k reqs = (reps, SEnd) ->
  map mseq reps = map mseq reqs.
Proof. exact serve_seqs. Qed.

(** the loop ends early only where the Go runtime panics, and not at all otherwise *)
Theorem C15_server_stops_only_at_panic : forall proc reqs k reps, serve_from proc k reqs = (reps, SPanic) ->
  exists m, nth_error reqs (length reps) = Some m /\ panics m (proc (k + length reps)%nat m) = true.
Proof. exact serve_stops_at_panic. Qed.

Theorem C15_server_answers_every_request : forall proc reqs k,
  (forall i m, nth_error reqs i = Some m -> panics m (proc (k + i)%nat m) = false) ->
  snd (serve_from proc k reqs) = SEnd /\ length (fst (serve_from proc k reqs)) = length reqs.
Proof. exact serve_total. Qed.

(** (b) type / payload / Size of every reply, as createResponse makes them *)
Theorem C15_server_reply_mapping : forall m o r, srv_step m o = Some r ->
  mtype r = expect_type m o /\ mdata r = expect_data m o /\ size_ok m o r = true.
Proof. exact srv_step_spec. Qed.

Theorem C15_server_reply_type : forall m o r, handled (mtype m) = true -> srv_step m o = Some r ->
  mtype r = match o with OOk _ => TypeResponse | OEof _ _ => TypeEOF | OErr _ => TypeError end.
Proof.
  intros m o r Hh H. destruct (srv_step_spec m o r H) as [H1 _]. rewrite H1. unfold expect_type. now rewrite Hh.
Qed.

Theorem C15_server_unhandled_type_answered_unchanged : forall m o, handled (mtype m) = false -> srv_step m o = Some m.
Proof. exact unhandled_answered_unchanged. Qed.

Theorem C15_server_size_is_payload_length : forall m o r, srv_step m o = Some r -> handled (mtype m) = true ->
  (mtype m = TypeWrite -> mtype r <> TypeResponse) -> msize r = Z.of_nat (length (mdata r)).
Proof. exact size_is_payload_length. Qed.

Theorem C15_server_write_ack : forall m d r, mtype m = TypeWrite -> srv_step m (OOk d) = Some r ->
  mtype r = TypeResponse /\ mdata r = [] /\ msize r = Z.of_nat (length (mdata m)).
Proof.
  intros m d r Hty H. destruct (srv_step_spec m _ r H) as (T & D & S).
  unfold expect_type, expect_data, size_ok in *. rewrite Hty in *. cbn in T, D, S.
  apply Z.eqb_eq in S. auto.
Qed.

Theorem C15_server_read_reply : forall m d r, mtype m = TypeRead -> srv_step m (OOk d) = Some r ->
  mtype r = TypeResponse /\ mdata r = fill (Z.to_nat (msize m)) d /\ msize r = msize m.
Proof. exact read_reply. Qed.

Theorem C15_server_eof_reply_truncated : forall m c d r, mtype m = TypeRead -> srv_step m (OEof c d) = Some r ->
  mtype r = TypeEOF /\ mdata r = firstn (Z.to_nat c) (fill (Z.to_nat (msize m)) d) /\ msize r = c /\
  (0 <= c <= msize m)%Z.
Proof. exact eof_reply. Qed.

Theorem C15_server_error_reply : forall m t r, handled (mtype m) = true -> srv_step m (OErr t) = Some r ->
  mtype r = TypeError /\ mdata r = t /\ msize r = Z.of_nat (length t).
Proof.
  intros m t r Hh H. destruct (srv_step_spec m _ r H) as (T & D & S).
  unfold expect_type, expect_data, size_ok in *. rewrite Hh in *. cbn [negb] in *.
  apply Z.eqb_eq in S. rewrite S, D. auto.
Qed.

(** (c) bytes: what the server writes is read back by a Wire.Read loop as exactly the replies *)
Theorem C15_server_replies_roundtrip : forall proc reqs k reps st, Forall req_ok reqs -> (forall i m, outcome_ok (proc i m)) ->
  serve_from proc k reqs = (reps, st) -> decode_stream (flat_map encode reps) = (reps, EndClean).
Proof. exact replies_roundtrip. Qed.

(** a request stream ending in something that is not a frame (nothing, a cut frame, a wrong magic): the
    complete frames before it are answered, then the server stops *)
Theorem C15_server_stream_complete_frames : forall reqs tail script, Forall wf reqs ->
  (forall m r, decode_r tail <> DOk m r) ->
  serve_stream (flat_map encode reqs ++ tail) script =
  (flat_map encode (fst (serve reqs script)), snd (decode_stream tail), snd (serve reqs script)).
Proof. exact serve_stream_complete_frames. Qed.

Theorem C15_server_stream_truncated : forall reqs m0 k script, Forall wf reqs -> wf m0 -> (k < length (encode m0))%nat ->
  fst (fst (serve_stream (flat_map encode reqs ++ firstn k (encode m0)) script)) = flat_map encode (fst (serve reqs script)).
Proof.
  intros reqs m0 k script H W Hk.
  rewrite (serve_stream_complete_frames reqs _ script H (tail_rejected _ (truncated_rejected m0 k W Hk))). reflexivity.
Qed.

Theorem C15_server_stream_bad_magic : forall reqs m0 rest script, Forall wf reqs -> mmagic m0 < 2 ^ 16 -> mmagic m0 <> magic_version ->
  fst (fst (serve_stream (flat_map encode reqs ++ encode m0 ++ rest) script)) = flat_map encode (fst (serve reqs script)).
Proof.
  intros reqs m0 rest script H H1 H2.
  rewrite (serve_stream_complete_frames reqs _ script H (tail_rejected _ (proj2 (bad_magic_frame m0 rest H1 H2)))). reflexivity.
Qed.

Theorem C15_server_stream_roundtrip : forall reqs tail script, Forall req_ok reqs -> Forall outcome_ok script ->
  (forall m r, decode_r tail <> DOk m r) ->
  decode_stream (fst (fst (serve_stream (flat_map encode reqs ++ tail) script))) = (fst (serve reqs script), EndClean).
Proof. exact serve_stream_roundtrip. Qed.

(** the executable statement of (a)+(b) over observations holds on the model's own output *)
Theorem C15_server_oracle_holds_on_model : forall reqs script, Forall (fun m => mmagic m = magic_version) reqs ->
  c15_server_ok reqs script (fst (serve reqs script)) = true.
Proof. exact c15_server_ok_model. Qed.

Theorem C15_server_case_holds_on_model : forall input script, bytes input ->
  let reqs := fst (decode_stream input) in
  let c := mksv input reqs script (fst (serve reqs script)) in
  server_diff c = 0%nat /\ sv_oracle (check_scase c) = true.
Proof. exact server_case_model. Qed.

(** (d) END TO END: the client machine above served by this server over two FIFO pipes, every schedule
    ([list nev]: calls, server steps, deliveries, timers, a transport error, in any interleaving), every data
    processor, fewer than 2^32 requests on the connection.  A call that returns anything but the connection's
    error returns what [operation] makes of the reply the server computed for the k-th frame of the
    connection from what the processor did for the k-th request, and that k-th frame was put on the
    connection by this call's own request event ([sent_pairs], C15_sent_pairs_are_own_frames). *)
Theorem C15_end_to_end : forall proc sched,
  N.of_nat (count_reqs (ntrace proc seq_mod net0 sched)) < seq_mod ->
  forall pre e o post id r,
    exec seq_mod init (ntrace proc seq_mod net0 sched) = pre ++ (e, o) :: post ->
    In (Done id r) o -> is_local r = false ->
    exists k sq rq rep,
      rid rq = id /\ nth_error (sent_pairs pre) k = Some (sq, rq) /\
      srv_step (req_msg sq rq) (proc k (req_msg sq rq)) = Some rep /\
      e = Resp sq (mtype rep) (msize rep) (mdata rep) /\
      r = op_result rq (mtype rep) (msize rep) (mdata rep).
Proof.
  intros proc sched Hc pre e o post id r Hex.
  exact (end_to_end proc seq_mod sched (guard_of_count _ _ Hc) pre (e, o) post Hex id r).
Qed.

(** the same for every modulus of the counter under the guard (wrapped counters included) *)
Theorem C15_end_to_end_under_guard : forall proc M sched,
  guard M init (ntrace proc M net0 sched) = true ->
  forall pre e o post id r,
    exec M init (ntrace proc M net0 sched) = pre ++ (e, o) :: post ->
    In (Done id r) o -> is_local r = false ->
    exists k sq rq rep,
      rid rq = id /\ nth_error (sent_pairs pre) k = Some (sq, rq) /\
      srv_step (req_msg sq rq) (proc k (req_msg sq rq)) = Some rep /\
      e = Resp sq (mtype rep) (msize rep) (mdata rep) /\
      r = op_result rq (mtype rep) (msize rep) (mdata rep).
Proof. intros proc M sched Hg pre e o post id r Hex. exact (end_to_end proc M sched Hg pre (e, o) post Hex id r). Qed.

Theorem C15_sent_pairs_are_own_frames : forall M es s k sq rq, nth_error (sent_pairs (exec M s es)) k = Some (sq, rq) ->
  sent_in (exec M s es) sq rq.
Proof. exact sent_pairs_sent_in. Qed.

Theorem C15_own_frame_unique : forall M es s, NoDup (req_ids es) -> NoDup (map pid (sent_pairs (exec M s es))).
Proof. intros M es s. apply sent_ids_gen. Qed.

(** a reader whose request the processor served with [data] finds exactly that data in its buffer *)
Theorem C15_read_result_is_own_data : forall sq rq data rep, rkind rq = KRead ->
  srv_step (req_msg sq rq) (OOk data) = Some rep ->
  op_result rq (mtype rep) (msize rep) (mdata rep) =
  mkres (Z.of_N (rlen rq)) ENone (fill (N.to_nat (rlen rq)) data).
Proof. exact read_result_is_own_data. Qed.

Print Assumptions C15_server_reply_carries_request_seq.
Print Assumptions C15_server_in_order.
Print Assumptions C15_server_seqs_in_request_order.
Print Assumptions C15_server_stops_only_at_panic.
Print Assumptions C15_server_answers_every_request.
Print Assumptions C15_server_reply_mapping.
Print Assumptions C15_server_reply_type.
Print Assumptions C15_server_unhandled_type_answered_unchanged.
Print Assumptions C15_server_size_is_payload_length.
Print Assumptions C15_server_write_ack.
Print Assumptions C15_server_read_reply.
Print Assumptions C15_server_eof_reply_truncated.
Print Assumptions C15_server_error_reply.
Print Assumptions C15_server_replies_roundtrip.
Print Assumptions C15_server_stream_complete_frames.
Print Assumptions C15_server_stream_truncated.
Print Assumptions C15_server_stream_bad_magic.
Print Assumptions C15_server_stream_roundtrip.
Print Assumptions C15_server_oracle_holds_on_model.
Print Assumptions C15_server_case_holds_on_model.
Print Assumptions C15_end_to_end.
Print Assumptions C15_end_to_end_under_guard.
Print Assumptions C15_sent_pairs_are_own_frames.
Print Assumptions C15_own_frame_unique.
Print Assumptions C15_read_result_is_own_data.
