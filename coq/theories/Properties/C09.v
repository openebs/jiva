(** C09 — bootstrap elects the most up-to-date replica after a majority registered.   Model: Ctl. *)
From Coq Require Import List ZArith Bool Arith.
From Jiva Require Import Ctl.Model Ctl.Proofs Ctl.Props.
Import ListNotations.
Open Scope Z_scope.

(** a registration sends a start signal only when no replica is attached and floor(RF/2)+1 replicas
    are registered, sends at most one, and its target is a registered replica whose revision count is
    maximal among the registered replicas that are not rebuilding *)
Theorem C09_signal_rule : forall s a u r pick fs s' res ef m,
  struct_ok s ->
  do_register s a u r false pick fs = (s', res, ef) -> In (m, true) (e_signals ef) ->
  replicas s = []
  /\ exists s4, (quorum (rf s) <= length (registered s4))%nat
     /\ maxrev s4 = Some m
     /\ (forall q, In q (candidates s4) -> rg_rev (snd q) <= reg_rev s4 (Some m))
     /\ e_signals ef = [(m, true)].
Proof. exact register_signal_rule. Qed.

(** only the signalled replica can start the volume *)
Theorem C09_only_signalled_leader_starts : forall s addrs fs,
  replicas s = [] -> snd (fst (do_start s addrs fs)) = ROk -> addrs <> [] ->
  signalled s = true /\ exists a t, addrs = a :: t /\ maxrev s = Some a.
Proof. exact start_only_signalled_leader. Qed.

Theorem C09_other_start_refused_unchanged : forall s addrs fs,
  replicas s = [] -> (signalled s = false \/ match addrs with a :: _ => maxrev s <> Some a | [] => False end) ->
  addrs <> [] -> do_start s addrs fs = (s, RErr, noeff).
Proof. exact start_refused_keeps_state. Qed.

Print Assumptions C09_signal_rule.
Print Assumptions C09_only_signalled_leader_starts.
Print Assumptions C09_other_start_refused_unchanged.

(** the executable trace oracle (with its registration memory) accepts every trace of the model, for
    single-request histories in which every replica registers with one fixed (revision, rebuilding)
    pair and revision counters are not negative ([fixed_assign]), [n] observed replicas, every address
    that is added or started below [n] *)
From Jiva Require Import Ctl.Corr Ctl.Oracles Ctl.OracleProofs2 Ctl.OracleProofsX2.

Theorem C09_oracle_accepts_model_traces : forall es rf0 n w0, (1 <= rf0)%nat -> forallb ev_wf es = true ->
  forallb (ev_addrs_lt n) es = true -> fixed_assign [] es = true ->
  walk_g (fun g => lift (c09_step rf0 g) nopair) 0 [] (obs0 rf0 n w0) (map One es) (trace n (init rf0 w0) (map One es)) = None.
Proof. exact c09_oracle_model. Qed.

Print Assumptions C09_oracle_accepts_model_traces.

(** the same for histories with concurrent pairs; the fixed (revision, rebuilding) assignment is stated
    over the requests in the order the controller lock serialises them ([flatten]) *)
From Jiva Require Import Ctl.Model Ctl.Corr Ctl.Oracles Ctl.Proofs Ctl.OracleProofs2 Ctl.OracleProofsX Ctl.OracleProofsX2.

Theorem C09_oracle_accepts_model_traces_with_pairs : forall xs rf0 n w0, (1 <= rf0)%nat -> forallb xev_wf xs = true ->
  forallb (xev_addrs_lt n) xs = true -> fixed_assign [] (flatten xs) = true ->
  walk_g (fun g => lift (c09_step rf0 g) nopair) 0 [] (obs0 rf0 n w0) xs (trace n (init rf0 w0) xs) = None.
Proof. exact c09_oracle_model_x. Qed.

Print Assumptions C09_oracle_accepts_model_traces_with_pairs.

(** a replica that registers again under a new address (same UUID) replaces its older registration:
    the second trace oracle (with the UUID every address registered with last as its memory) accepts
    every trace of the model: after a registration with a UUID other than the empty one, no other
    registered address carries that UUID (one replica is never counted twice towards the majority) *)
From Jiva Require Import Ctl.OracleProofsU.

Theorem C09_one_registration_per_uuid : forall es rf0 n w0, (1 <= rf0)%nat -> forallb ev_wf es = true ->
  walk_u liftu 0 [] (obs0 rf0 n w0) (map One es) (trace n (init rf0 w0) (map One es)) = None.
Proof. exact c09u_oracle_model. Qed.

Print Assumptions C09_one_registration_per_uuid.

(** the same for histories with concurrent pairs (the UUID memory sees the two requests in the order
    the controller lock serialises them) *)
Theorem C09_one_registration_per_uuid_with_pairs : forall xs rf0 n w0, (1 <= rf0)%nat -> forallb xev_wf xs = true ->
  walk_u liftu 0 [] (obs0 rf0 n w0) xs (trace n (init rf0 w0) xs) = None.
Proof. exact c09u_oracle_model_x. Qed.

Print Assumptions C09_one_registration_per_uuid_with_pairs.
