(** C06 -- the content captured by a user-created snapshot is exactly the volume image at the moment it
    was taken and never changes afterwards (later writes, hole punching, reopen/preload, rebuild
    bookkeeping (UpdateLUNMap), deletion of other snapshots); reverting to it makes the volume read back
    exactly that image.  Nothing is promised for automatic snapshots (reclamation thins them).
    Model: Block.  The positive theorems are about variant fx = true (fullWriteAt sends the in-loop hole to
    the closed run's file, as /repo does); the variant fx = false (the hole goes to the current block's file,
    defect F1) is refuted.  Statements here; each is a lemma of the Block files or
    follows from them in a few lines. *)
From Coq Require Import List Arith Bool NArith.
From Jiva Require Import Block.Model Block.Corr Block.Lemmas Block.ProofsWrite Block.ProofsUnit Block.ProofsRead
     Block.ProofsOps Block.ProofsPreload Block.Refine Block.Proofs Block.OracleProofs.
Import ListNotations.

(** The executable statement of C06 on observed traces (after every operation, every retained
    user-created snapshot opened read-only on a copy, and reverted to on a copy, reads exactly the image
    the specification recorded when it was taken) holds on every trace of the model. *)
Theorem C06_oracle_holds_on_model : forall K nb p rv (h : list (op * list bool)), 0 < K ->
  c06_oracle (mkcfg K nb p rv) (map fst h) (trace true K rv (init nb p) h) = true.
Proof. intros K nb p rv h HK. exact (proj2 (block_refines_spec K nb p rv h HK)). Qed.

(** Directly: after any history inside the specification's domain, the chain prefix ending at a
    retained user-created snapshot has exactly the image recorded for it. *)
Theorem C06_user_snapshot_immutable : forall K nb p h s d i e, 0 < K ->
  spec_run K (mkspec (repeat 0%N (nb * K)) [] nb) (init nb p) h = Some (s, d) ->
  nth_error (snaps s) (i - 1) = Some e -> 1 <= i < nf d -> retained e = true ->
  image K d i = s_img e /\ nm d i = s_name e.
Proof. exact user_snapshot_immutable. Qed.

Theorem C06_revert_exact : forall K d s name ch e p, 0 < K -> inv K d -> Rel K d s ->
  spos (snaps s) name 1 = p -> p <> 0 -> nth_error (snaps s) (p - 1) = Some e -> retained e = true ->
  name <> 0%N ->
  let '(d1, x) := step true K d (Revert name) ch in
  ores x = ROk /\ inv K d1 /\ fst (read_all K d1) = s_img e.
Proof. exact revert_exact. Qed.

(** Punch safety for the extent scan (preload, also inside UpdateLUNMap): whatever subset of holes that are
    [holes_ok] is applied, every prefix that must be kept reads the same.  (That the scan sends only such holes is
    ProofsPreload.preload_from_zero.) *)
Theorem C06_punch_safety : forall d hs ch J b, holes_ok d hs -> keeps d J ->
  top (fl (punched d hs ch)) J b = top (fl d) J b.
Proof. exact punched_keeps. Qed.

(** A discard (Server.Unmap -> diffDisk.Unmap: every chain file above SnapIndx is punched over the range,
    partially covered blocks are zeroed there) from any state satisfying the invariant leaves chain, names,
    attributes and size as they are, every chain prefix ending at or below SnapIndx reads as before, and every
    retained user-created snapshot keeps its image.  (What the live volume reads after a discard is not promised: the specification
    does not speak about Unmap, so C06_oracle_holds_on_model claims nothing from an unmap onwards; around
    every unmap the correspondence run evaluates [c06u_step], next theorem.) *)
Theorem C06_unmap_keeps_user_snapshots : forall K d off len, inv K d ->
  let d1 := unmap K d off len in
  nf d1 = nf d /\ nm d1 = nm d /\ usr d1 = usr d /\ rmd d1 = rmd d /\ nblk d1 = nblk d /\ loc d1 = loc d /\
  (forall i b, i <= snapix d -> top (fl d1) i b = top (fl d) i b) /\
  (forall i, 1 <= i < nf d -> usr d i = true -> rmd d i = false -> image K d1 i = image K d i).
Proof.
  intros K d off len I. cbn zeta. repeat (split; [reflexivity|]). split; [intros i b; apply unmap_top|].
  intros i. apply kept_images, unmap_kept, I.
Qed.

(** The oracle clause for unmaps (chain and attributes equal, every retained user-created snapshot before is one
    after with the same image, and conversely) holds for the model's unmap from every state satisfying the
    invariant, for [prev] and [cur] satisfying [Obs] of the states before and after ([Obs] includes: the observed
    live image is the image of the files; a read through the location table after an unmap need not be, and the
    clause does not use it). *)
Theorem C06_unmap_oracle_step_holds_on_model : forall K d off len prev cur, inv K d ->
  Obs K d prev -> Obs K (unmap K d off len) cur -> c06u_step prev (Unmap off len) cur = true.
Proof. exact c06u_step_model. Qed.

(** F1: on the variant fx = false the oracle fails (8-block volume, punching on: write blocks 0-1; user
    snapshot; write block 0; automatic snapshot; write blocks 0-1). *)
Theorem C06_refuted :
  c06_oracle (mkcfg 1 8 true true) (map fst f1_history) (trace false 1 true (init 8 true) f1_history) = false.
Proof. vm_compute. reflexivity. Qed.

Print Assumptions C06_oracle_holds_on_model.
Print Assumptions C06_user_snapshot_immutable.
Print Assumptions C06_revert_exact.
Print Assumptions C06_punch_safety.
Print Assumptions C06_refuted.
Print Assumptions C06_unmap_keeps_user_snapshots.
Print Assumptions C06_unmap_oracle_step_holds_on_model.
