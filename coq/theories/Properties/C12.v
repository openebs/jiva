(** * C12 — the snapshot chain stays a well-formed path and survives reopen unchanged.

    Model: Meta (coq/theories/Meta/Model.v — replica/replica.go as a sequence of file-system calls plus
    the in-memory triple diskData / activeDiskData / diskChildrenMap).  Definitions used below:
    - [created g size now]: the state after Server.Create on an empty directory;
    - [run_ops g s os]: the history [os] from [s]; operations: create / open / close / process death
      between operations / set-mode / write / snapshot / remove / mark-removed / revert / resize /
      set-checkpoint / set-rebuilding / replace-disk, and [OCrashIn k o]: process death inside [o]
      after k calls; arguments are arbitrary (unknown names, head, latest, base, wrong mode, duplicate
      names);
    - [recover g w]: what a restarted process reads from directory [w] (None: cannot be opened);
    - [linked f l]: every member of [l] has its image and its metadata file in [f], the metadata holds
      the member's record, and Parent is the next member (the last has none).

    FULL STATEMENT (no theorem has it): for every g with 2 <= maxlen, every size <> 0 and EVERY history os,
    the conclusion of [C12_wf_partial] holds.  It is false for [cfg_asis], which lacks the tests of /repo
    67e4d78 and a2c8764 ([C12_wf_refuted_revert], [C12_wf_refuted_children]).  It is proved
    - for every g, for every history that satisfies [ok_hist]: the arguments avoid the shapes of those
      findings (which no longer exist once the cfg flags fix_dup, fix_rev, fix_children are set, as they
      are in [code_cfg]) and every ReplaceDisk in it is one the code refuses (wrong mode, the head as
      target, a source that is no file) — [C12_wf_partial];
    - for the code with the three argument repairs (the code as it is), for every history without
      ReplaceDisk ([norepl]) — [C12_wf_repaired].
    MISSING: a ReplaceDisk that is carried out (source = the target's child, the coalesce path) is
    modelled ([replace_disk]) and compared with the code by the correspondence runs of the check,
    but not covered by the invariant theorem.

    Under injected failures: [C12_failed_unchanged] — a snapshot / resize / set-checkpoint that does
    not return success, whichever of its calls failed, leaves the memory as it was (the code since
    /repo 0472ed5, 0c1a1af, a3198e0; refuted for the code before by [C12_failed_unchanged_refuted]).

    The oracle of the check ([Corr.c12_oracle_b]): its structural clause [wf_obs] — Chain() is a
    duplicate-free path, every member is listed with its record, its only child and its parent, has
    its image and a metadata file holding that record, the members are pairwise different inodes,
    volume.meta names the head — is PROVED true on every observation of every model trace
    ([C12_oracle_wf_model], Meta/Oracle.v).  Its two relational clauses (a refused operation leaves
    chain, records, data tokens and Info() as they were; close / process death then open gives the
    same) are proved at the level of recovered views ([C12_refused_unchanged],
    [C12_reopen_roundtrip]); in the oracle's own boolean form they additionally compare the
    per-image data-write count, whose invariance is not proved in general — there the oracle is
    evaluated on the model's own trace of every executed history ([model_oracle]) and on two
    representative histories by [vm_compute] (Proofs.c12_oracle_model_ex1/2). *)
From Coq Require Import List ZArith NArith Bool Arith.
From Jiva Require Import Meta.Model Meta.Corr Meta.Proofs Meta.Oracle.
Import ListNotations.

(** the conclusion: a single acyclic path from the head to the base in which every member has its
    data and metadata file, and a memory that agrees with the directory *)
Definition chain_wf (g : cfg) (s : st) : Prop :=
  exists v, recover g (s_fs s) = Some v
    /\ NoDup (names_of_chain (cv_chain v))
    /\ first_name (cv_chain v) = i_head (cv_info v)
    /\ linked (files (s_fs s)) (cv_chain v)
    /\ length (cv_chain v) <= maxlen g
    /\ match s_mem s with
       | Some m => mchain g m = Some (names_of_chain (cv_chain v))
                   /\ (forall d, m_disks m d = option_map mb_disk (find_mb d (cv_chain v)))
                   /\ (forall d, In d (names_of_chain (cv_chain v)) -> m_children m (Some d) = child_in d (cv_chain v))
                   /\ m_active m = rev (names_of_chain (cv_chain v))
                   /\ info_sim (m_info m) (cv_info v)
       | None => True
       end.

Lemma InvS_facts : forall g s, InvS g s -> chain_wf g s.
Proof.
  intros g [w om] [v [Hrec [Hwf [Hfr Hmem]]]]. cbn [s_fs s_mem] in *. exists v. split; [exact Hrec |].
  destruct (recover_elim g w v Hrec) as [Hvol [h [c [Hhd [Hc [Hl [_ Hlen]]]]]]].
  pose proof Hwf as [n [id0 [d0 [tl [H1 [H2 [H3 [H4 [H5 H6]]]]]]]]].
  split; [exact H4 |]. split; [rewrite H1, H2; reflexivity |]. split; [exact Hl |]. split; [exact Hlen |].
  destruct om as [m |]; [| exact I]. destruct Hmem as [Hag Hh].
  assert (Hctx : ctx g w v m) by (constructor; assumption).
  split; [apply (mchain_of_ctx g w v m Hctx) |]. destruct Hag as [A1 [A2 [A3 [A4 A5]]]]. auto.
Qed.

Theorem C12_wf_partial : forall g size now os,
  cfg_ok g -> size <> 0%N -> ok_hist g (created g size now) os ->
  chain_wf g (run_ops g (created g size now) os).
Proof. intros g size now os H1 H2 H3. apply InvS_facts. apply C12_wf_thm; assumption. Qed.
Print Assumptions C12_wf_partial.

Theorem C12_wf_repaired : forall g size now os,
  cfg_ok g -> size <> 0%N ->
  fix_dup g = true -> fix_rev g = true -> fix_children g = true ->
  Forall shape_ok os -> Forall norepl os ->
  chain_wf g (run_ops g (created g size now) os).
Proof.
  intros g size now os H1 H2 F1 F2 F3 Hs Hn. apply InvS_facts. apply C12_wf_thm; try assumption.
  apply ok_hist_repaired; try assumption. apply created_inv; assumption.
Qed.
Print Assumptions C12_wf_repaired.

Theorem C12_wf_refuted_revert :
  let g := cfg_asis 8 in
  let s := run_ops g wit_state [OSnap 1 false 1] in
  InvS g s /\ snd (fst (step g s (ORevert (Head 1) 5))) = ResFailed
  /\ recover g (s_fs (fst (fst (step g s (ORevert (Head 1) 5))))) = None.
Proof. exact wf_refuted_revert_target. Qed.
Print Assumptions C12_wf_refuted_revert.

(** [fix_children g = false] (/repo a2c8764 deletes the entry): a snapshot name reused after its removal keeps the
    stale child entry *)
Theorem C12_wf_refuted_children :
  let g := cfg_asis 8 in
  let s := run_ops g wit_state [OSnap 1 false 1; OSnap 2 false 2; OSnap 3 false 3; ORemove (Snap 2); OSnap 2 false 4] in
  match s_mem s with
  | Some m => mchain g m = Some [Head 4; Snap 2; Snap 3; Snap 1] /\ m_children m (Some (Snap 2)) = [Snap 3; Head 4]
  | None => False
  end.
Proof. vm_compute. split; reflexivity. Qed.
Print Assumptions C12_wf_refuted_children.

(** close (how = true) or process death between operations (how = false), then open: the same chain
    (names, inodes, Parent / Removed / UserCreated / Created per member — [veq]), the open succeeds
    and the new memory shows that chain.  From every invariant state, hence ([C12_reachable_invariant])
    from every reachable one. *)
Theorem C12_reopen_roundtrip : forall g w m (how : bool),
  cfg_ok g -> InvS g (mkst w (Some m)) ->
  let s1 := fst (fst (step g (mkst w (Some m)) (if how then OClose else OCrash))) in
  let s2 := fst (fst (step g s1 OOpen)) in
  exists v v2 m2,
    recover g w = Some v /\ recover g (s_fs s2) = Some v2 /\ veq v v2
    /\ snd (fst (step g s1 OOpen)) = ResOk
    /\ s_mem s2 = Some m2 /\ mchain g m2 = Some (names_of_chain (cv_chain v))
    /\ (forall d, m_disks m2 d = option_map mb_disk (find_mb d (cv_chain v2))).
Proof. exact reopen_roundtrip. Qed.
Print Assumptions C12_reopen_roundtrip.

(** an operation that does not return success leaves the recovered view and the memory as they were *)
Theorem C12_refused_unchanged : forall g s o,
  cfg_ok g -> InvS g s -> plain o -> ok_op g s o ->
  snd (fst (step g s o)) <> ResOk ->
  recover g (s_fs (fst (fst (step g s o)))) = recover g (s_fs s) /\ s_mem (fst (fst (step g s o))) = s_mem s.
Proof. exact refused_unchanged. Qed.
Print Assumptions C12_refused_unchanged.

(** the same under injected failures, for the three operations as /repo 0472ed5 (Resize), 0c1a1af
    (SetCheckpoint), a3198e0 (createDisk) have them: a snapshot / resize / set-checkpoint that does not
    return success — because it is refused, or because ANY of its calls fails with any errno
    ([fa]), from any directory and memory, also when the process dies later ([ca]) — leaves the memory
    as it was.  [fix_mem g = true] is what the code has ([code_cfg]).  In the model the three are their
    earlier bodies under [keepold] (Model.v), so the statement holds by the shape of [op_prog]; that /repo's
    functions behave so is what the correspondence runs compare. *)
Theorem C12_failed_unchanged : forall g w m o cnt ca fa om r n,
  fix_mem g = true -> mem_guarded o ->
  out_of_run (exec (op_prog g (Some m) o) w cnt ca fa) = Done (om, r, n) -> r <> Ok -> om = Some m.
Proof. exact failed_unchanged. Qed.
Print Assumptions C12_failed_unchanged.

Theorem C12_failed_unchanged_code : forall n w m o k e om r a,
  mem_guarded o ->
  out_of_run (exec (op_prog (code_cfg n) (Some m) o) w 0 None (Some (k, e))) = Done (om, r, a) -> r <> Ok -> om = Some m.
Proof. intros n w m o k e om r a Hg. apply failed_unchanged; [reflexivity | exact Hg]. Qed.
Print Assumptions C12_failed_unchanged_code.

(** with [fix_mem = false] it fails (findings createdisk-memory-on-failure, resize-size-on-failure,
    checkpoint-set-on-failure): with ENOSPC on the open of volume.meta.tmp a SetCheckpoint leaves the new
    checkpoint, a Resize the new size, and a Snapshot a memory whose Chain() fails *)
Theorem C12_failed_unchanged_refuted :
  let g := mkcfg 8 true true true false true false in
  let s := run_ops g (created g 16384 7) [OOpen; OSetMode (Some RW); OSnap 1 false 1] in
  let mem_after o k := match s_mem s with
                       | Some m => match out_of_run (exec (op_prog g (Some m) o) (s_fs s) 0 None (Some (k, ENOSPC))) with
                                   | Done (Some m', r, _) => Some (r, i_checkpoint (m_info m'), i_size (m_info m'), mchain g m')
                                   | _ => None end
                       | None => None end in
  mem_after (OCheckpoint (Some (Snap 1))) 0 = Some (Failed, Some (Snap 1), 16384%N, Some [Head 1; Snap 1])
  /\ mem_after (OResize 32768) 2 = Some (Failed, None, 32768%N, Some [Head 1; Snap 1])
  /\ mem_after (OSnap 2 false 2) 22 = Some (Failed, None, 16384%N, None).
Proof. vm_compute. repeat split. Qed.
Print Assumptions C12_failed_unchanged_refuted.

(** the invariant used above is the one every reachable state has *)
Theorem C12_reachable_invariant : forall g size now os,
  cfg_ok g -> size <> 0%N -> ok_hist g (created g size now) os -> InvS g (run_ops g (created g size now) os).
Proof. exact C12_wf_thm. Qed.
Print Assumptions C12_reachable_invariant.

(** the structural clause of the check's oracle on every observation of every model trace: for every
    history from the creation of the volume (as the check runs it: [OCreate size now :: os] from the
    empty directory) and every duplicate-free universe [u] of disk names that names the members of
    every chain of the run ([covered]) *)
Theorem C12_oracle_wf_model : forall g u size now os,
  cfg_ok g -> size <> 0%N -> NoDup u ->
  ok_hist g (created g size now) os -> covered g u (created g size now) os ->
  (forall v, recover g (s_fs (created g size now)) = Some v -> forall d, In d (names_of_chain (cv_chain v)) -> In d u) ->
  Forall (fun o => wf_obs o = true) (trace_ops g u init (OCreate size now :: os)).
Proof. exact wf_obs_history. Qed.
Print Assumptions C12_oracle_wf_model.

(** ... and of every state of the invariant *)
Theorem C12_oracle_wf_state : forall g u s r n,
  InvS g s -> NoDup u ->
  (forall v, recover g (s_fs s) = Some v -> forall d, In d (names_of_chain (cv_chain v)) -> In d u) ->
  wf_obs (observe g u s r n) = true.
Proof. exact wf_obs_observe. Qed.
Print Assumptions C12_oracle_wf_state.
