(** C04 — reads are served only by RW replicas, with fail-over.   Model: Ctl. *)
From Coq Require Import List ZArith Bool Arith.
From Jiva Require Import Ctl.Model Ctl.Proofs Ctl.Props Ctl.OracleProofs2.
Import ListNotations.

(** for every order in which the reader list may be tried (the order is an input validated by the
    model: distinct RW backends, everyone before the last failed) a successful read returns the data
    of a replica whose mode in the controller's list is RW *)
Theorem C04_reader_is_rw : forall s off len order fs s' ef,
  struct_ok s -> do_read s off len order fs = (s', ROk, ef) ->
  exists a, e_served ef = Some a /\ aget (replicas s) a = Some RW.
Proof. exact read_served_by_rw. Qed.

Theorem C04_no_rw_replica_read_fails : forall s off len order fs,
  struct_ok s -> count_rw (replicas s) = 0%nat -> snd (fst (do_read s off len order fs)) <> ROk.
Proof. exact read_without_rw_fails. Qed.

Print Assumptions C04_reader_is_rw.
Print Assumptions C04_no_rw_replica_read_fails.

(** the executable trace oracle that the correspondence run evaluates on the real controller's
    observations accepts every trace of the model (single-request histories).  [c04_step] as written
    needs the history to be a possible observation (the model validates the observed read order and
    answers RInvalid otherwise: witness [c04_false_on_invalid_order]); [c04_step'] = [c04_step] made
    vacuous on an RInvalid result holds on every history *)
From Jiva Require Import Ctl.Corr Ctl.Oracles Ctl.OracleProofs2 Ctl.OracleProofsX2.

Theorem C04_oracle_accepts_model_traces : forall es rf0 n w0, (1 <= rf0)%nat -> forallb ev_wf es = true ->
  no_invalid (init rf0 w0) es ->
  walk (lift (c04_step rf0) nopair) 0 (obs0 rf0 n w0) (map One es) (trace n (init rf0 w0) (map One es)) = None.
Proof. exact c04_oracle_model. Qed.

Theorem C04_corrected_oracle_accepts_model_traces : forall es rf0 n w0, (1 <= rf0)%nat -> forallb ev_wf es = true ->
  walk (lift (c04_step' rf0) nopair) 0 (obs0 rf0 n w0) (map One es) (trace n (init rf0 w0) (map One es)) = None.
Proof. exact c04'_oracle_model. Qed.

Print Assumptions C04_oracle_accepts_model_traces.
Print Assumptions C04_corrected_oracle_accepts_model_traces.

(** histories with concurrent pairs.  The pair rule [c04_pair]: the replica that serves the queued read was RW
    before the pair unless the first request promotes it (verify, set-mode RW, start), and it did not fail the
    first request when that request is an I/O that reached the replicas (gate open, inside the volume) *)
From Jiva Require Import Ctl.Model Ctl.Corr Ctl.Oracles Ctl.Proofs Ctl.OracleProofs2 Ctl.OracleProofsX Ctl.OracleProofsX2.

Theorem C04_oracle_accepts_model_traces_with_pairs : forall xs rf0 n w0, (1 <= rf0)%nat -> forallb xev_wf xs = true ->
  no_invalid (init rf0 w0) (flatten xs) ->
  walk (lift (c04_step rf0) (c04_pair rf0)) 0 (obs0 rf0 n w0) xs (trace n (init rf0 w0) xs) = None.
Proof. exact c04_oracle_model_x. Qed.

Theorem C04_corrected_oracle_accepts_model_traces_with_pairs : forall xs rf0 n w0, (1 <= rf0)%nat -> forallb xev_wf xs = true ->
  walk (lift (c04_step' rf0) (c04_pair rf0)) 0 (obs0 rf0 n w0) xs (trace n (init rf0 w0) xs) = None.
Proof. exact c04'_oracle_model_x. Qed.

Print Assumptions C04_oracle_accepts_model_traces_with_pairs.
Print Assumptions C04_corrected_oracle_accepts_model_traces_with_pairs.
