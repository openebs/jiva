(** * C08 — the replica directory is crash-consistent at every instant.

    Model: Meta (coq/theories/Meta/Model.v).  An operation is a finite tree of file-system calls;
    [exec p w cnt crash_at fail_at] runs it from directory [w]; process death = the call numbered
    [crash_at] is never entered; an injected failure = the call numbered [fail_at] is not performed and
    returns the errno.  [recover g w] is what a restarted process reads from [w]; [veq] compares two
    recovered views on everything recovery itself does not rewrite: chain names, inode of every member,
    Parent / Removed / UserCreated / Created of every member, and Size / Head / Rebuilding / Parent /
    Checkpoint / RevisionCounter of volume.meta (not: Dirty, and the per-disk RevisionCounter, which
    readDiskData brings up to date on every open).  Because an image's content is a function of its
    inode, and no call of an operation writes into an inode of either chain (only the data write of
    [OWrite] does, into the head), "same inode" is "every acknowledged byte and every retained
    snapshot reads back unchanged".

    Quantifier: every state reachable by a history (C12_reachable_invariant: [InvS]), every operation
    [o] (open, close, write, snapshot, remove, mark-removed, revert, resize, set-checkpoint,
    set-rebuilding, set-mode) with every argument for which the code as it is behaves ([ok_op]: all of
    them once the argument repairs are in, see C12), every k.  ReplaceDisk is in the model but inside
    [ok_op] only where the code refuses it (a ReplaceDisk that is carried out unlinks the target's
    image before the source is linked in its place: it is not crash-atomic and is not claimed to be). *)
From Coq Require Import List ZArith NArith Bool Arith.
From Jiva Require Import Meta.Model Meta.Corr Meta.Proofs Meta.Fault.
Import ListNotations.

(** the directory left by process death after k calls is the k-th directory of the fault-free run *)
Theorem C08_crash_prefix : forall A (p : prog A) w cnt k,
  dir_of_run (exec p w cnt (Some (cnt + k)) None) = nth k (states p w) (last (states p w) w).
Proof. exact crash_prefix. Qed.
Print Assumptions C08_crash_prefix.

(** ... and it recovers, to the chain before or the chain after the interrupted operation *)
Theorem C08_crash_atomic : forall g s o k,
  cfg_ok g -> InvS g s -> plain o -> ok_op g s o ->
  exists vpre vpost vk,
    recover g (s_fs s) = Some vpre
    /\ recover g (s_fs (fst (fst (step g s o)))) = Some vpost
    /\ recover g (dir_of_run (exec (op_prog g (s_mem s) o) (s_fs s) 0 (Some k) None)) = Some vk
    /\ (veq vk vpre \/ veq vk vpost).
Proof.
  intros g s o k Hcfg Hinv Hpl Hok.
  destruct (crash_state g s o k Hinv Hpl Hok) as [vpre [vpost [vk [H1 [H2 [H3 [H4 _]]]]]]]. exists vpre, vpost, vk. auto.
Qed.
Print Assumptions C08_crash_atomic.

(** the kill oracle of the check, at the level of views, on the model: after process death at any
    call, open succeeds and the reopened replica (directory and memory) shows the old or the new chain *)
Theorem C08_kill_reopen : forall g s o k,
  cfg_ok g -> InvS g s -> plain o -> ok_op g s o ->
  let w' := dir_of_run (exec (op_prog g (s_mem s) o) (s_fs s) 0 (Some k) None) in
  let s2 := fst (fst (step g (mkst w' None) OOpen)) in
  exists vpre vpost v2 m2,
    recover g (s_fs s) = Some vpre
    /\ recover g (s_fs (fst (fst (step g s o)))) = Some vpost
    /\ snd (fst (step g (mkst w' None) OOpen)) = ResOk
    /\ recover g (s_fs s2) = Some v2 /\ (veq v2 vpre \/ veq v2 vpost)
    /\ s_mem s2 = Some m2 /\ mchain g m2 = Some (names_of_chain (cv_chain v2)).
Proof. exact kill_reopen_model. Qed.
Print Assumptions C08_kill_reopen.

(** the same over histories: any history (with process deaths inside operations), then one more
    operation interrupted anywhere *)
Theorem C08_crash_atomic_reachable : forall g size now os o k,
  cfg_ok g -> size <> 0%N -> ok_hist g (created g size now) os ->
  let s := run_ops g (created g size now) os in
  plain o -> ok_op g s o ->
  exists vpre vpost vk,
    recover g (s_fs s) = Some vpre
    /\ recover g (s_fs (fst (fst (step g s o)))) = Some vpost
    /\ recover g (dir_of_run (exec (op_prog g (s_mem s) o) (s_fs s) 0 (Some k) None)) = Some vk
    /\ (veq vk vpre \/ veq vk vpost).
Proof. intros g size now os o k H1 H2 H3 s H4 H5. apply C08_crash_atomic; try assumption. apply C12_wf_thm; assumption. Qed.
Print Assumptions C08_crash_atomic_reachable.

(** once an operation (any but the initial creation) has returned success, every rename / link /
    unlink / creating open it made is followed by a sync of the directory: the lint [durable_codes]
    of Corr.v holds on the canonical system-call trace of the fault-free run.  No invariant needed. *)
Theorem C08_durable : forall g s o w' om' k,
  plain o -> (forall sz nw, o <> OCreate sz nw) ->
  ff (op_prog g (s_mem s) o) (s_fs s) = (w', Done (om', Ok, k)) ->
  durable_codes (map snd (sys_trace 0 (trace_of_run (run (op_prog g (s_mem s) o) (s_fs s))))) = true.
Proof. exact durable. Qed.
Print Assumptions C08_durable.

(** ** one failing call

    FULL STATEMENT (no theorem has it): for every invariant state, every operation, every k and errno,
    with [r := exec (op_prog g (s_mem s) o) (s_fs s) 0 None (Some (k, e))]: [dir_of_run r] recovers to
    the new view when r returns success, and to the old or the new view otherwise.

    It is FALSE for [cfg_asis], whose encodeToFile ignores the error of write(2) as /repo's did until
    2b7d891: *)
Theorem C08_fault_refuted :
  InvS (cfg_asis 8) wit_state /\ ok_op (cfg_asis 8) wit_state (OSnap 1 false 1)
  (* ENOSPC on write(volume.meta.tmp) in a snapshot: success is returned, nothing can be recovered *)
  /\ fault_outcome (cfg_asis 8) wit_state (OSnap 1 false 1) 23 ENOSPC = (COk, false)
  (* the same in SetCheckpoint *)
  /\ fault_outcome (cfg_asis 8) wit_state (OCheckpoint (Some (Snap 1))) 1 ENOSPC = (COk, false).
Proof. exact fault_refuted_write_ignored. Qed.
Print Assumptions C08_fault_refuted.

(** With the write error tested it is still FALSE for one call: in Snapshot, EIO on the directory sync that
    follows rename(volume.meta.tmp, volume.meta) — an error is returned and the clean-up has removed the head
    that volume.meta names.  In [cfg_asis] and with [fixed] set: *)
Theorem C08_fault_refuted_sync_after_commit :
  fault_outcome (cfg_asis 8) wit_state (OSnap 1 false 1) 26 EIO = (CErr, false)
  /\ fault_outcome (mkcfg 8 true true false false false false)
       (run_ops (mkcfg 8 true true false false false false) (created (mkcfg 8 true true false false false false) 16384 7) [OOpen; OSetMode (Some RW)])
       (OSnap 1 false 1) 26 EIO = (CErr, false).
Proof. split; vm_compute; reflexivity. Qed.
Print Assumptions C08_fault_refuted_sync_after_commit.

(** ... and for the code as it is ([code_cfg]; finding createdisk-sync-after-commit, not repaired).  That
    call is what [excluded] describes. *)
Theorem C08_fault_refuted_code :
  let g := code_cfg 8 in
  let s := run_ops g (created g 16384 7) [OOpen; OSetMode (Some RW)] in
  let o := OSnap 1 false 1 in
  fault_outcome g s o 26 EIO = (CErr, false)
  /\ excluded o (op_prog g (s_mem s) o) (s_fs s) 26.
Proof.
  split; [vm_compute; reflexivity |]. split; [vm_compute; reflexivity |].
  exists 25. split; [reflexivity | vm_compute; reflexivity].
Qed.
Print Assumptions C08_fault_refuted_code.

(** PROVED (Meta/Fault.v, [fault_atomic_all]): with the write error tested ([fixed g = true], the code
    since 2b7d891) and createDisk's commit as it is ([fix_commit g = false]): from every invariant
    state, for EVERY operation of the model — open, close, write, snapshot, remove, mark-removed
    (PrepareRemoveDisk), revert, resize, set-checkpoint, set-rebuilding, set-mode, create on an
    existing volume — whichever call fails with ENOSPC or EIO, the directory left recovers to the old
    or the new view (up to [veq]), and to the new one when success is returned.

    The exclusion, as a predicate on the failing call: [excluded o p w k] is [False] unless [o] is a
    Snapshot, and then it is [f11_at p w k]: call k is the directory sync and call k-1 is
    rename(volume.meta.tmp, volume.meta).

    Why "_partial": (1) that one call is excluded (the statement is false there, see above);
    (2) Create on an empty directory (the very first operation of a history) is not covered — [InvS]
    asks for a recoverable directory; (3) the errno is ENOSPC or EIO ([EE]; ENOENT / EEXIST have a
    meaning to the code and are not injected failures), and the failing call is one that reaches the
    kernel as a system call the harness can fail ([traced]: not the stat / close / pread calls). *)
Theorem C08_fault_atomic_partial : forall g s o k e,
  cfg_ok g -> fixed g = true -> fix_commit g = false ->
  InvS g s -> ok_op g s o -> EE e ->
  let p := op_prog g (s_mem s) o in
  let r := exec p (s_fs s) 0 None (Some (k, e)) in
  (forall c, call_at p (s_fs s) k = Some c -> traced c = true /\ ~ excluded o p (s_fs s) k) ->
  exists vpre vpost vk,
    recover g (s_fs s) = Some vpre /\ recover g (fst (ff p (s_fs s))) = Some vpost
    /\ recover g (dir_of_run r) = Some vk /\ (veq vk vpre \/ veq vk vpost)
    /\ (forall a, out_of_run r = Done a -> snd (fst a) = Ok -> veq vk vpost).
Proof.
  intros g s o k e Hcfg Hfx Hfc Hinv Hok He p r Hc.
  destruct (fault_atomic_all g s o Hcfg Hfx Hfc Hinv Hok k e He Hc) as [vpre [vpost [H1 [H2 [vk [H3 [H4 H5]]]]]]].
  exists vpre, vpost, vk. split; [exact H1 | split; [exact H2 | split; [exact H3 | split; [exact H4 | exact H5]]]].
Qed.
Print Assumptions C08_fault_atomic_partial.

(** the same for the code as it is, after any history *)
Theorem C08_fault_atomic_reachable_partial : forall n size now os o k e,
  2 <= n -> size <> 0%N ->
  let g := code_cfg n in
  ok_hist g (created g size now) os ->
  let s := run_ops g (created g size now) os in
  ok_op g s o -> EE e ->
  let p := op_prog g (s_mem s) o in
  let r := exec p (s_fs s) 0 None (Some (k, e)) in
  (forall c, call_at p (s_fs s) k = Some c -> traced c = true /\ ~ excluded o p (s_fs s) k) ->
  exists vpre vpost vk,
    recover g (s_fs s) = Some vpre /\ recover g (fst (ff p (s_fs s))) = Some vpost
    /\ recover g (dir_of_run r) = Some vk /\ (veq vk vpre \/ veq vk vpost)
    /\ (forall a, out_of_run r = Done a -> snd (fst a) = Ok -> veq vk vpost).
Proof.
  intros n size now os o k e Hn Hsz g Hh s Hok He p r Hc.
  apply C08_fault_atomic_partial; try assumption; try reflexivity.
  apply C12_wf_thm; assumption.
Qed.
Print Assumptions C08_fault_atomic_reachable_partial.

(** ** after a death inside an operation the restarted process can go on: leftovers are cleaned

    FULL STATEMENT (no theorem has it): for every reachable state, every operation and
    every k, the directory left by death after k calls is opened and then accepts a Snapshot (with a
    name that is not in use) and a Revert to any retained snapshot, both returning success over a
    well-formed chain.  NOT PROVED in general: it needs, on top of [C08_kill_reopen], the invariant
    that no image above the current head holds data and that the new snapshot's two names are free,
    carried through every operation.  What is proved is the statement for every k of a Snapshot and
    of a Revert on one representative pre-state (three snapshots with data, process death), by
    evaluation of the model ([follow_all_ok]: death before every call including none, where
    [follow_all_ok_states] skips the states that repeat their predecessor; the follow-up
    is open, set mode RW, then Snapshot s8 / Revert to the base snapshot; every step returns success
    and satisfies [wf_obs]); the check evaluates the same oracle on the model and on the real replica
    for every executed case.  [create_new_head] transcribes the leftover rule of the code: an
    existing next-head file without allocated data is removed and recreated, one with data is refused. *)
Theorem C08_crash_then_follow_ex :
  let g := code_cfg 8 in
  let u := [Head 0; Head 1; Head 2; Head 3; Head 4; Head 5; Head 6; Head 7; Snap 0; Snap 1; Snap 2; Snap 3; Snap 8; Snap 9] in
  let pre := [OCreate 16384 7; OOpen; OSetMode (Some RW); OWrite; OSnap 1 true 1; OWrite; OSnap 2 false 2; OWrite;
              OSnap 3 false 3; OWrite; OCrash] in
  let fsnap := [OOpen; OSetMode (Some RW); OSnap 8 false 8] in
  let frev := [OOpen; OSetMode (Some RW); ORevert (Snap 1) 8] in
  follow_all_ok (mkvcase g u pre (OSnap 9 true 9)) fsnap = true
  /\ follow_all_ok (mkvcase g u pre (OSnap 9 true 9)) frev = true
  /\ follow_all_ok (mkvcase g u pre (ORevert (Snap 2) 9)) fsnap = true
  /\ follow_all_ok (mkvcase g u pre (ORevert (Snap 2) 9)) frev = true.
Proof. intros g u pre fsnap frev. rewrite !follow_all_ok_states. vm_compute. repeat split. Qed.
Print Assumptions C08_crash_then_follow_ex.
