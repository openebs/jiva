(** C16 (replica half) -- growing a volume leaves every existing byte and every snapshot unchanged, makes
    the added range read as zeros and accept writes, and the new size survives reopen; a request to
    shrink is refused and changes nothing.  Model: Block (Replica.Resize, sizes in 4 KiB blocks).
    The controller's half is in the Ctl model.  Statements here; each is a lemma of the model's
    files or follows from them in a few lines. *)
From Coq Require Import List Arith Bool NArith.
From Jiva Require Import Block.Model Block.Corr Block.Lemmas Block.ProofsWrite Block.ProofsUnit Block.ProofsRead
     Block.ProofsOps Block.ProofsPreload Block.Refine Block.Proofs Block.OracleProofs.
Import ListNotations.

(** every chain prefix (live volume and every snapshot) reads as before followed by zeros *)
Theorem C16_grow : forall K d nb, inv K d -> nblk d <= nb ->
  resize d nb = (grown_dd d nb, ROk) /\ inv K (grown_dd d nb) /\ nblk (grown_dd d nb) = nb /\
  nf (grown_dd d nb) = nf d /\
  forall j, image K (grown_dd d nb) j = image K d j ++ repeat 0%N ((nb - nblk d) * K).
Proof. exact grow. Qed.

(** the added range accepts writes: the state after growing satisfies the invariant, so [C01_write_exact]
    applies to any range inside the new size -- spelled out *)
Theorem C16_added_range_accepts_writes : forall K d nb data off ch, 0 < K -> inv K d -> nblk d <= nb ->
  off + length data <= nb * K ->
  let '(dw, hs) := write_at true K (grown_dd d nb) data off in
  let d1 := punched dw hs ch in
  inv K d1 /\ image K d1 (nf d1) = lsplice (image K (grown_dd d nb) (nf d)) off data.
Proof.
  intros K d nb data off ch HK I Hnb Hr.
  pose proof (write_exact K (grown_dd d nb) data off ch HK (grown_inv K d nb I Hnb) Hr) as W.
  destruct (write_at true K (grown_dd d nb) data off) as [dw hs]. destruct W as (A & B & _). split; assumption.
Qed.

Theorem C16_shrink_refused : forall d nb, nb < nblk d -> resize d nb = (d, RErr).
Proof. exact shrink_refused. Qed.

Theorem C16_size_survives_reopen : forall K d pre ch, inv K d ->
  let '(d1, hs) := reopen d pre in nblk (punched d1 hs ch) = nblk d /\ inv K (punched d1 hs ch).
Proof.
  intros K d pre ch I. pose proof (reopen_spec K d pre ch (opened_inv K d I)) as RS.
  destruct (reopen d pre) as [d1 hs]. destruct RS as (I2 & (Q & _) & _). split; [apply Q|exact I2].
Qed.

(** Resize inside arbitrary histories: it is an operation of the refinement ([C01_step_refines]), whose
    specification step appends zeros to the live image and to every snapshot image; so the C01 oracle
    (which C16's oracle includes) holds on every model trace containing resizes. *)
Theorem C16_in_histories : forall K nb p rv (h : list (op * list bool)), 0 < K ->
  c01_oracle (mkcfg K nb p rv) (map fst h) (trace true K rv (init nb p) h) = true.
Proof. intros K nb p rv h HK. exact (proj1 (block_refines_spec K nb p rv h HK)). Qed.

(** The executable statement of C16 on observed traces holds on every trace of the model whose
    operations stay inside the specification's domain. *)
Theorem C16_oracle_holds_on_model : forall K nb p rv (h : list (op * list bool)), 0 < K ->
  in_dom K (spec0 (mkcfg K nb p rv)) (map fst h) (trace true K rv (init nb p) h) = true ->
  c16_oracle (mkcfg K nb p rv) (map fst h) (trace true K rv (init nb p) h) = true.
Proof. exact c16_oracle_model. Qed.

Print Assumptions C16_oracle_holds_on_model.
Print Assumptions C16_grow.
Print Assumptions C16_added_range_accepts_writes.
Print Assumptions C16_shrink_refused.
Print Assumptions C16_size_survives_reopen.
Print Assumptions C16_in_histories.

(** controller half (model Ctl): the executable trace oracle [c16_step] (a resize that does not grow is
    refused and touches nothing; a grow gives the new size to every replica in service that does not
    fail the call, the volume size changes exactly when the request is acknowledged, and exactly the
    replicas that failed the call leave the service) accepts every trace of the controller model,
    histories with concurrent pairs included; [n] observed replicas, every added / started address below [n] *)
From Jiva Require Import Ctl.Model Ctl.Corr Ctl.Oracles Ctl.OracleProofsX Ctl.OracleProofsX3.

Theorem C16_controller_oracle_accepts_model_traces_with_pairs : forall xs rf0 n w0, (1 <= rf0)%nat ->
  forallb xev_wf xs = true -> forallb (xev_addrs_lt n) xs = true ->
  Ctl.Oracles.walk (Ctl.Oracles.lift (c16_step rf0) nopair) 0 (Ctl.Oracles.obs0 rf0 n w0) xs
                   (Ctl.Corr.trace n (Ctl.Model.init rf0 w0) xs) = None.
Proof. exact c16_oracle_model_x. Qed.

Print Assumptions C16_controller_oracle_accepts_model_traces_with_pairs.
