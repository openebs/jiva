(** * Ctl: the facts on plain lists that the controller proofs share, then the association lists of the model
    ([aget], [aset] with the world's [wget] / [wset], [adel]); the key list of [l] is [map fst l] ([keys] in Ctl.Proofs) *)
From Coq Require Import List ZArith Arith Lia Permutation.
From Jiva Require Import Ctl.Model.
Import ListNotations.

(** ** plain lists *)

Lemma filter_length_le : forall {A} (p : A -> bool) l, (length (filter p l) <= length l)%nat.
Proof. intros A p l. induction l as [|x t IH]; cbn; [lia|]. destruct (p x); cbn; lia. Qed.

Lemma filter_split_length : forall {A} (p : A -> bool) l,
  (length (filter p l) + length (filter (fun x => negb (p x)) l) = length l)%nat.
Proof. intros A p l. induction l as [|x t IH]; cbn; [reflexivity|]. destruct (p x); cbn; lia. Qed.

Lemma filter_imp_length_in : forall {A} (p q : A -> bool) l, (forall x, In x l -> p x = true -> q x = true) ->
  (length (filter p l) <= length (filter q l))%nat.
Proof.
  intros A p q l. induction l as [|x t IH]; intros H; cbn; [lia|].
  assert (IH' : (length (filter p t) <= length (filter q t))%nat) by (apply IH; intros y Hy; apply H; right; exact Hy).
  destruct (p x) eqn:Ep; [rewrite (H x (or_introl eq_refl) Ep); cbn; lia|]. destruct (q x); cbn; lia.
Qed.

Lemma filter_none : forall {A} (f : A -> bool) l, (forall x, In x l -> f x = false) -> filter f l = [].
Proof.
  intros A f l. induction l as [|x t IH]; intros H; cbn; [reflexivity|].
  rewrite (H x (or_introl eq_refl)). apply IH. intros y Hy. apply H. right. exact Hy.
Qed.

Lemma fold_left_inv : forall {A S} (P : S -> Prop) (f : S -> A -> S) l s,
  P s -> (forall t x, In x l -> P t -> P (f t x)) -> P (fold_left f l s).
Proof.
  intros A S P f l. induction l as [|x l IH]; intros s Hs Hf; cbn; [exact Hs|].
  apply IH; [apply Hf; [left; reflexivity|exact Hs]|]. intros t y Hy. apply Hf. right. exact Hy.
Qed.

Lemma list_eqb_eq : forall a b, list_eqb a b = true -> a = b.
Proof.
  induction a as [|x t IH]; intros [|y u] H; cbn in H; try discriminate; [reflexivity|].
  apply andb_prop in H. destruct H as [H1 H2]. apply Nat.eqb_eq in H1. subst. f_equal. apply IH. exact H2.
Qed.

Lemma nth_error_map_seq : forall {A} (f : nat -> A) n st a, (a < n)%nat ->
  nth_error (map f (seq st n)) a = Some (f (st + a)%nat).
Proof.
  intros A f. induction n as [|n IH]; intros st a Ha; [lia|].
  destruct a as [|a]; cbn [seq map nth_error].
  - rewrite Nat.add_0_r. reflexivity.
  - rewrite IH by lia. f_equal. f_equal. lia.
Qed.

Local Open Scope Z_scope.
Lemma fold_max_ge : forall l x0 x, In x l -> x <= fold_left Z.max l x0.
Proof.
  assert (G : forall l x0, x0 <= fold_left Z.max l x0).
  { induction l as [|y t IH]; intros x0; cbn; [lia|]. specialize (IH (Z.max x0 y)). lia. }
  induction l as [|y t IH]; intros x0 x Hin; cbn; [contradiction|].
  destruct Hin as [Hin|Hin]; [subst; specialize (G t (Z.max x0 x)); lia|apply IH; exact Hin].
Qed.

Local Close Scope Z_scope.

Lemma nodup_snoc : forall (l : list nat) a, NoDup l -> ~ In a l -> NoDup (l ++ [a]).
Proof. intros l a Hn Hi. apply (Permutation_NoDup (Permutation_cons_append l a)). constructor; assumption. Qed.

Lemma nodup_app_l : forall (l r : list nat), NoDup (l ++ r) -> NoDup l.
Proof.
  induction l as [|x t IH]; intros r H; [constructor|].
  cbn in H. inversion H as [|y ys Hy Hd]; subst. constructor; [|eapply IH; exact Hd].
  intro Hin. apply Hy. apply in_or_app. left. exact Hin.
Qed.

Lemma nodup_app_r : forall (l r : list nat), NoDup (l ++ r) -> NoDup r.
Proof. intros l r H. exact (nodup_app_l r l (Permutation_NoDup (Permutation_app_comm l r) H)). Qed.

(** ** aget *)

Lemma aget_in : forall {V} (l : list (nat * V)) a v, aget l a = Some v -> In (a, v) l.
Proof.
  intros V l a v. induction l as [|[k x] t IH]; cbn; intros H; [discriminate|].
  destruct (Nat.eqb k a) eqn:E; [|right; apply IH; exact H].
  apply Nat.eqb_eq in E. inversion H; subst. left. reflexivity.
Qed.

Lemma aget_in_nodup : forall {V} (l : list (nat * V)) k v, NoDup (map fst l) -> In (k, v) l -> aget l k = Some v.
Proof.
  intros V l k v. induction l as [|[k0 v0] t IH]; intros Hn Hin; [contradiction|].
  cbn. inversion Hn as [|x xs Hx Hd]; subst. destruct Hin as [Hin|Hin].
  - inversion Hin; subst. rewrite Nat.eqb_refl. reflexivity.
  - destruct (Nat.eqb k0 k) eqn:E; [|apply IH; assumption].
    apply Nat.eqb_eq in E. subst. exfalso. apply Hx. change k with (fst (k, v)). apply in_map. exact Hin.
Qed.

Lemma nodup_same_key : forall {V} (l : list (nat * V)) k v v', NoDup (map fst l) -> In (k, v) l -> In (k, v') l -> v = v'.
Proof.
  intros V l k v v' Hn H1 H2.
  pose proof (aget_in_nodup l k v Hn H1) as A1. pose proof (aget_in_nodup l k v' Hn H2) as A2. congruence.
Qed.

Lemma aget_none_not_in : forall {V} (l : list (nat * V)) a, ~ In a (map fst l) -> aget l a = None.
Proof.
  intros V l a. induction l as [|[k v] t IH]; cbn; intros H; [reflexivity|].
  destruct (Nat.eqb k a) eqn:E; [apply Nat.eqb_eq in E; subst; exfalso; apply H; left; reflexivity|].
  apply IH. intro Hin. apply H. right. exact Hin.
Qed.

Lemma aget_app : forall {V} (l r : list (nat * V)) i,
  aget (l ++ r) i = match aget l i with Some v => Some v | None => aget r i end.
Proof.
  intros V l r i. induction l as [|[k v] t IH]; cbn; [reflexivity|].
  destruct (Nat.eqb k i); [reflexivity|exact IH].
Qed.

Lemma aget_snoc : forall {V} (l : list (nat * V)) i v j u,
  aget (l ++ [(i, v)]) j = Some u -> aget l j = Some u \/ (j = i /\ u = v).
Proof.
  intros V l i v j u. rewrite aget_app. destruct (aget l j); [left; assumption|]. cbn [aget].
  destruct (Nat.eqb i j) eqn:E; [|discriminate]. apply Nat.eqb_eq in E. intros [= <-]. right. split; [symmetry; exact E|reflexivity].
Qed.

Lemma aget_snoc_other : forall {V} (l : list (nat * V)) i v j, j <> i -> aget (l ++ [(i, v)]) j = aget l j.
Proof.
  intros V l i v j Hj. rewrite aget_app. destruct (aget l j); [reflexivity|]. cbn.
  destruct (Nat.eqb i j) eqn:E; [apply Nat.eqb_eq in E; subst; contradiction|reflexivity].
Qed.

(** ** aset *)

Lemma aget_aset : forall {V} (l : list (nat * V)) a v x,
  aget (aset l a v) x = if Nat.eqb a x then Some v else aget l x.
Proof.
  intros V l a v x. induction l as [|[k w0] t IH]; cbn.
  - destruct (Nat.eqb a x); reflexivity.
  - destruct (Nat.eqb k a) eqn:E; cbn.
    + apply Nat.eqb_eq in E. subst. destruct (Nat.eqb a x); reflexivity.
    + destruct (Nat.eqb k x) eqn:E2.
      * destruct (Nat.eqb a x) eqn:E3; [|reflexivity].
        apply Nat.eqb_eq in E2. apply Nat.eqb_eq in E3. subst. rewrite Nat.eqb_refl in E. discriminate.
      * exact IH.
Qed.

Lemma wget_wset : forall w0 a f x, wget (wset w0 a f) x = if Nat.eqb a x then f else wget w0 x.
Proof. intros. unfold wget, wset. rewrite aget_aset. destruct (Nat.eqb a x); reflexivity. Qed.

Lemma wget_upd_rep : forall s a g x,
  wget (w (upd_rep s a g)) x = if Nat.eqb a x then g (wget (w s) a) else wget (w s) x.
Proof. intros. unfold upd_rep. cbn [w upd_w]. apply wget_wset. Qed.

Lemma keys_aset : forall {V} (l : list (nat * V)) a v x, In x (map fst (aset l a v)) -> x = a \/ In x (map fst l).
Proof.
  intros V l a v x. induction l as [|[k w0] t IH]; cbn; intros H.
  - destruct H as [H|[]]. left. symmetry. exact H.
  - destruct (Nat.eqb k a) eqn:E; cbn in H.
    + destruct H as [H|H]; [right; left; exact H|right; right; exact H].
    + destruct H as [H|H]; [right; left; exact H|]. destruct (IH H) as [G|G]; [left; exact G|right; right; exact G].
Qed.

Lemma nodup_aset : forall {V} (l : list (nat * V)) a v, NoDup (map fst l) -> NoDup (map fst (aset l a v)).
Proof.
  intros V l a v. induction l as [|[k w0] t IH]; cbn; intros H; [constructor; [auto|constructor]|].
  inversion H as [|x xs Hx Hd]; subst.
  destruct (Nat.eqb k a) eqn:E; cbn; [constructor; assumption|].
  constructor; [|apply IH; exact Hd].
  intro Hin. apply keys_aset in Hin. destruct Hin as [Hin|Hin]; [subst; rewrite Nat.eqb_refl in E; discriminate|contradiction].
Qed.

(** ** adel *)

Lemma in_adel : forall {V} (l : list (nat * V)) i e, In e (adel l i) -> In e l.
Proof.
  intros V l i e. induction l as [|[k v] t IH]; cbn; [auto|].
  destruct (Nat.eqb k i); cbn; intros H; [right; exact H|].
  destruct H as [H|H]; [left; exact H|right; apply IH; exact H].
Qed.

Lemma in_adel_other : forall {V} (l : list (nat * V)) i j v, In (j, v) l -> j <> i -> In (j, v) (adel l i).
Proof.
  intros V l i j v. induction l as [|[k x] t IH]; cbn; intros H Hji; [exact H|].
  destruct (Nat.eqb k i) eqn:E.
  - apply Nat.eqb_eq in E. subst k. destruct H as [H|H]; [inversion H; subst; contradiction|exact H].
  - cbn. destruct H as [H|H]; [left; exact H|right; apply IH; assumption].
Qed.

Lemma keys_adel_subset : forall {V} (l : list (nat * V)) a x, In x (map fst (adel l a)) -> In x (map fst l).
Proof.
  intros V l a x H. apply in_map_iff in H. destruct H as [p [E Hp]]. subst x. apply in_map. exact (in_adel l a p Hp).
Qed.

Lemma nodup_adel : forall {V} (l : list (nat * V)) a, NoDup (map fst l) -> NoDup (map fst (adel l a)).
Proof.
  intros V l a. induction l as [|[k v] t IH]; cbn; intros H; [constructor|].
  inversion H as [|x xs Hn Hd]; subst.
  destruct (Nat.eqb k a); [exact Hd|]. cbn. constructor; [|apply IH; exact Hd].
  intro Hin. apply Hn. eapply keys_adel_subset. exact Hin.
Qed.

Lemma adel_not_in : forall {V} (l : list (nat * V)) a, NoDup (map fst l) -> ~ In a (map fst (adel l a)).
Proof.
  intros V l a. induction l as [|[k v] t IH]; cbn; intros H; [auto|].
  inversion H as [|x xs Hn Hd]; subst.
  destruct (Nat.eqb k a) eqn:E.
  - apply Nat.eqb_eq in E. subst. exact Hn.
  - cbn. intros [Hk|Hin]; [apply Nat.eqb_neq in E; contradiction|]. apply (IH Hd Hin).
Qed.

Lemma adel_absent : forall {V} (l : list (nat * V)) a, aget l a = None -> adel l a = l.
Proof.
  intros V l a. induction l as [|[k v] t IH]; cbn; intros H; [reflexivity|].
  destruct (Nat.eqb k a); [discriminate|]. rewrite IH; [reflexivity|exact H].
Qed.

Lemma aget_adel_other : forall {V} (l : list (nat * V)) i j, i <> j -> aget (adel l j) i = aget l i.
Proof.
  intros V l i j Hij. induction l as [|[k v] t IH]; cbn; [reflexivity|].
  destruct (Nat.eqb k j) eqn:E.
  - apply Nat.eqb_eq in E. subst k. destruct (Nat.eqb j i) eqn:E2; [apply Nat.eqb_eq in E2; subst; contradiction|reflexivity].
  - cbn. destruct (Nat.eqb k i); [reflexivity|exact IH].
Qed.

Lemma aget_adel_same : forall {V} (l : list (nat * V)) i, NoDup (map fst l) -> aget (adel l i) i = None.
Proof. intros V l i H. apply aget_none_not_in. apply adel_not_in. exact H. Qed.

Lemma length_adel_le : forall {V} (l : list (nat * V)) a, length (adel l a) <= length l.
Proof.
  intros V l a. induction l as [|[k v] t IH]; cbn; [apply Nat.le_refl|].
  destruct (Nat.eqb k a); cbn; [apply Nat.le_succ_diag_r|apply le_n_S; exact IH].
Qed.

Lemma length_adel_ge : forall {V} (l : list (nat * V)) a, (length l <= S (length (adel l a)))%nat.
Proof. intros V l a. induction l as [|[k v] t IH]; cbn; [lia|]. destruct (Nat.eqb k a); cbn; lia. Qed.

Lemma length_adel_lt : forall {V} (l : list (nat * V)) a, In a (map fst l) -> (length (adel l a) < length l)%nat.
Proof.
  intros V l a. induction l as [|[k v] t IH]; cbn; intros H; [contradiction|].
  destruct (Nat.eqb k a) eqn:E; [lia|]. cbn.
  destruct H as [H|H]; [subst; rewrite Nat.eqb_refl in E; discriminate|]. specialize (IH H). lia.
Qed.

Lemma perm_adel : forall {V} (l : list (nat * V)) i v, aget l i = Some v -> Permutation (map fst l) (i :: map fst (adel l i)).
Proof.
  intros V l i v. induction l as [|[k x] t IH]; cbn; intros H; [discriminate|].
  destruct (Nat.eqb k i) eqn:E.
  - apply Nat.eqb_eq in E. subst. apply Permutation_refl.
  - cbn. eapply perm_trans; [apply perm_skip; apply IH; exact H|apply perm_swap].
Qed.

Lemma perm_app_adel_r : forall {V} (l p : list (nat * V)) i v, aget p i = Some v ->
  Permutation (map fst (l ++ p)) (i :: map fst (l ++ adel p i)).
Proof.
  intros V l p i v H. rewrite !map_app.
  eapply perm_trans; [apply Permutation_app_head; exact (perm_adel p i v H)|]. apply Permutation_sym, Permutation_middle.
Qed.

Lemma perm_app_adel_l : forall {V} (l p : list (nat * V)) i v, aget l i = Some v ->
  Permutation (map fst (l ++ p)) (i :: map fst (adel l i ++ p)).
Proof. intros V l p i v H. rewrite !map_app. exact (Permutation_app_tail _ (perm_adel l i v H)). Qed.

(** ** filter *)

Lemma keys_filter_subset : forall {V} (f : nat * V -> bool) l x, In x (map fst (filter f l)) -> In x (map fst l).
Proof.
  intros V f l x H. apply in_map_iff in H. destruct H as [p [Hp Hin]].
  apply filter_In in Hin. destruct Hin as [Hin _]. subst. apply in_map. exact Hin.
Qed.

Lemma nodup_filter_keys : forall {V} (f : nat * V -> bool) l, NoDup (map fst l) -> NoDup (map fst (filter f l)).
Proof.
  intros V f l. induction l as [|[k v] t IH]; cbn; intros H; [constructor|].
  inversion H as [|x xs Hx Hd]; subst.
  destruct (f (k, v)); [|apply IH; exact Hd]. cbn. constructor; [|apply IH; exact Hd].
  intro Hin. apply Hx. eapply keys_filter_subset. exact Hin.
Qed.
