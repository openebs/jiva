(** * Ctl: the oracles of C02 C05 C07 C09 C03 C04 accept every trace of the model: [walk_sound] with the invariant
    bundle and the rule of each.  The pair rules of C03 and C04 stand here, each after the witnesses that show why its
    guards are there. *)
From Coq Require Import List ZArith Bool Arith Lia.
From Jiva Require Import Ctl.Model Ctl.Corr Ctl.Oracles Ctl.Proofs Ctl.Props Ctl.OracleProofs
  Ctl.OracleProofs2 Ctl.OracleProofs07 Ctl.OracleProofsX.
Import ListNotations.
Open Scope Z_scope.

Theorem c02_oracle_model_x : forall xs rf0 n w0, (1 <= rf0)%nat -> forallb xev_wf xs = true ->
  forallb (xev_addrs_lt n) xs = true ->
  walk (lift (c02_step rf0) nopair) 0 (obs0 rf0 n w0) xs (trace n (init rf0 w0) xs) = None.
Proof.
  intros xs rf0 n w0 Hrf Hwf Hlt.
  apply (walk_sound (lift (c02_step rf0) nopair) (binv_lt rf0 n) n); [|apply binv_lt_init; assumption|apply obs0_obs_of].
  intros s x t prev Hi Hp. split; [|apply (binv_lt_cons rf0 n s x t Hi)].
  destruct Hi as [[Hs [Ht _]] [Hk _]]. destruct x as [e|a b]; [apply c02_step_model; assumption|reflexivity].
Qed.

Theorem c02_oracle_model : forall es rf0 n w0, (1 <= rf0)%nat -> forallb ev_wf es = true ->
  forallb (ev_addrs_lt n) es = true ->
  walk (lift (c02_step rf0) nopair) 0 (obs0 rf0 n w0) (map One es) (trace n (init rf0 w0) (map One es)) = None.
Proof.
  intros es rf0 n w0 Hrf Hwf Hlt. apply c02_oracle_model_x; [exact Hrf| |].
  - exact (eq_trans (forallb_map_one ev_wf es) Hwf).
  - exact (eq_trans (forallb_map_one (ev_addrs_lt n) es) Hlt).
Qed.

Theorem c05_oracle_model_x : forall xs rf0 n w0, (1 <= rf0)%nat -> forallb xev_wf xs = true ->
  walk (lift (c05_step rf0) nopair) 0 (obs0 rf0 n w0) xs (trace n (init rf0 w0) xs) = None.
Proof.
  intros xs rf0 n w0 Hrf Hwf.
  apply (walk_sound (lift (c05_step rf0) nopair) (binv_wf rf0) n); [|apply binv_wf_init; assumption|apply obs0_obs_of].
  intros s x t prev Hi Hp. split; [|apply (binv_wf_cons rf0 s x t Hi)].
  destruct Hi as [[Hs [Ht Hr]] _]. destruct x as [e|a b]; [apply c05_step_model; assumption|reflexivity].
Qed.

Theorem c05_oracle_model : forall es rf0 n w0, (1 <= rf0)%nat -> forallb ev_wf es = true ->
  walk (lift (c05_step rf0) nopair) 0 (obs0 rf0 n w0) (map One es) (trace n (init rf0 w0) (map One es)) = None.
Proof.
  intros es rf0 n w0 Hrf Hwf. apply c05_oracle_model_x; [exact Hrf|exact (eq_trans (forallb_map_one ev_wf es) Hwf)].
Qed.

Theorem c07_oracle_model_x : forall xs rf0 n w0, (1 <= rf0)%nat -> forallb xev_wf xs = true ->
  walk (lift (fun prev e cur => c07_step rf0 prev e cur && c07_only_verify prev e cur) nopair) 0
       (obs0 rf0 n w0) xs (trace n (init rf0 w0) xs) = None.
Proof.
  intros xs rf0 n w0 Hrf Hwf.
  apply (walk_sound (lift (fun prev e cur => c07_step rf0 prev e cur && c07_only_verify prev e cur) nopair) (binv_wf rf0) n);
    [|apply binv_wf_init; assumption|apply obs0_obs_of].
  intros s x t prev Hi Hp. split; [|apply (binv_wf_cons rf0 s x t Hi)].
  destruct Hi as [[_ [Ht _]] _]. destruct x as [e|a b]; [|reflexivity].
  cbn [lift xobs]. rewrite c07_step_model by assumption. apply c07_only_verify_model; assumption.
Qed.

Theorem c07_only_verify_oracle_model : forall es rf0 n w0, (1 <= rf0)%nat -> forallb ev_wf es = true ->
  walk (lift (fun prev e cur => c07_step rf0 prev e cur && c07_only_verify prev e cur) nopair) 0
       (obs0 rf0 n w0) (map One es) (trace n (init rf0 w0) (map One es)) = None.
Proof.
  intros es rf0 n w0 Hrf Hwf. apply c07_oracle_model_x; [exact Hrf|exact (eq_trans (forallb_map_one ev_wf es) Hwf)].
Qed.

Theorem c07_oracle_model : forall es rf0 n w0, (1 <= rf0)%nat -> forallb ev_wf es = true ->
  walk (lift (c07_step rf0) nopair) 0 (obs0 rf0 n w0) (map One es) (trace n (init rf0 w0) (map One es)) = None.
Proof.
  intros es rf0 n w0 Hrf Hwf. eapply walk_weaken; [|apply c07_only_verify_oracle_model; eassumption].
  intros prev [e|a b] cur H; [|reflexivity]. apply andb_prop in H. exact (proj1 H).
Qed.

(** ** C09: no pair rule; the registration memory sees the requests in serialisation order *)
Theorem c09_oracle_model_x : forall xs rf0 n w0, (1 <= rf0)%nat -> forallb xev_wf xs = true ->
  forallb (xev_addrs_lt n) xs = true -> fixed_assign [] (flatten xs) = true ->
  walk_g (fun g => lift (c09_step rf0 g) nopair) 0 [] (obs0 rf0 n w0) xs (trace n (init rf0 w0) xs) = None.
Proof.
  intros xs rf0 n w0 Hrf Hwf Hlt Hfa.
  apply (walk_g_sound (fun g => lift (c09_step rf0 g) nopair)
           (fun g s xs => binv_lt rf0 n s xs /\ reg_inv g s /\ fixed_assign g (flatten xs) = true) n);
    [|split; [apply binv_lt_init; assumption|split; [apply reg_inv_init|exact Hfa]]|apply obs0_obs_of].
  intros g s x t prev [Hb [Hi Hf]] Hp. destruct (binv_lt_cons rf0 n s x t Hb) as [Hw [Hl Hb']].
  destruct Hb as [[_ [Ht Hr]] [Hk _]]. destruct x as [e|a b]; cbn [lift xobs xregs_upd].
  - change (reg_consistent g e && fixed_assign (regs_upd g e) (flatten t) = true) in Hf.
    apply andb_prop in Hf. destruct Hf as [Hc Hf].
    split; [apply c09_step_model; assumption|]. split; [exact Hb'|]. split; [apply reg_inv_step; assumption|exact Hf].
  - change (reg_consistent g a && (reg_consistent (regs_upd g a) b && fixed_assign (regs_upd (regs_upd g a) b) (flatten t)) = true) in Hf.
    apply andb_prop in Hf. destruct Hf as [Ha Hf]. apply andb_prop in Hf. destruct Hf as [Hb0 Hf].
    apply andb_prop in Hw. destruct Hw as [Hwa _].
    split; [reflexivity|]. split; [exact Hb'|]. split; [|exact Hf].
    apply reg_inv_step; [apply struct_step; assumption|apply reg_inv_step; assumption|exact Hb0].
Qed.

Theorem c09_oracle_model : forall es rf0 n w0, (1 <= rf0)%nat -> forallb ev_wf es = true ->
  forallb (ev_addrs_lt n) es = true -> fixed_assign [] es = true ->
  walk_g (fun g => lift (c09_step rf0 g) nopair) 0 [] (obs0 rf0 n w0) (map One es) (trace n (init rf0 w0) (map One es)) = None.
Proof.
  intros es rf0 n w0 Hrf Hwf Hlt Hfa. apply c09_oracle_model_x; [exact Hrf| | |rewrite flatten_map_one; exact Hfa].
  - exact (eq_trans (forallb_map_one ev_wf es) Hwf).
  - exact (eq_trans (forallb_map_one (ev_addrs_lt n) es) Hlt).
Qed.

(** two guards of [c03_pair] and why they are there (witnesses below):
    - the guard requires the first write to be inside the volume ([io_in_range prev a]): a write outside
      it is rejected before any replica is called, nobody is detached, and the queued request is served;
      without the guard the oracle rejects that trace of the model;
    - the oracle reads "nobody holds wid2" on the final observation, which is false when the queued write
      reuses an id some replica already holds; hence the condition on histories [fresh_wid] (a write id
      is not held by any replica when the write is issued). *)
Definition boot1 : list xevent := [One (Register 0%nat 1%nat 1 false None []); One (Start [0%nat] [])].

Definition c03_witness_range : list xevent :=
  boot1 ++ [Two (Write 7%nat 5 1 [(0%nat, KWrite)]) (Write 8%nat 0 0 [])].
Example c03_pair_first_write_out_of_range_accepted :
  walk (lift (c03_step 1) (c03_pair 1)) 0 (obs0 1 1 []) c03_witness_range (trace 1 (init 1 []) c03_witness_range) = None
  /\ map o_res (trace 1 (init 1 []) c03_witness_range) = [ROk; ROk; ROk]
  /\ map o_res1 (trace 1 (init 1 []) c03_witness_range) = [None; None; Some RErr].
Proof. vm_compute. repeat split; reflexivity. Qed.

Definition c03_witness_wid : list xevent :=
  boot1 ++ [Two (Write 7%nat 0 0 [(0%nat, KWriteAp)]) (Write 7%nat 0 0 [])].
Example c03_pair_needs_fresh_write_ids :
  walk (lift (c03_step 1) (c03_pair 1)) 0 (obs0 1 1 []) c03_witness_wid (trace 1 (init 1 []) c03_witness_wid) = Some 2%nat
  /\ map o_res (trace 1 (init 1 []) c03_witness_wid) = [ROk; ROk; RErr].
Proof. vm_compute. repeat split; reflexivity. Qed.

Definition fresh_wid (s : cst) (e : event) : Prop :=
  match e with Write wid _ _ _ => forall x, ~ In wid (f_applied (wget (w s) x)) | _ => True end.

Lemma write_kills_quorum : forall rf0 s wid off len fs, status_ok s -> struct_ok s -> rf s = rf0 ->
  quorum_ok rf0 (replicas s) = true -> 0 <= off -> off + len <= csize s ->
  quorum_ok rf0 (filter (fun p => negb (flt fs (fst p) KWrite || flt fs (fst p) KWriteAp)) (replicas s)) = false ->
  (count_rw (replicas (fst (do_write s wid off len fs))) < quorum rf0)%nat.
Proof.
  intros rf0 s wid off len fs Hst H Hrf Hq Ho Hl Hleft.
  destruct (quorum_rw_exists rf0 _ Hq) as [x0 Hx0]. set (e := Write wid off len fs).
  assert (R : reached s e) by (split; [exact (quorum_not_ro s rf0 Hst Hrf Hq)|split; [exact (proj2 (avail_iff_rw s H) (ex_intro _ x0 Hx0))|split; assumption]]).
  rewrite <- fst_step_write. fold e.
  unfold quorum_ok in Hleft. apply Nat.leb_gt in Hleft.
  eapply Nat.le_lt_trans; [|exact Hleft].
  rewrite !count_rw_length. apply NoDup_incl_length.
  - apply nodup_rw_of. exact (st_nodup _ (struct_step s e H eq_refl)).
  - intros x Hx. apply rw_of_in in Hx. pose proof (call_live s e (x, RW) I Hx ltac:(discriminate)) as Hx0'.
    apply rw_of_in. apply filter_In. split; [exact Hx0'|]. cbn [fst].
    destruct (flt fs x KWrite || flt fs x KWriteAp) eqn:F; [|reflexivity].
    destruct (failed_gone s e x H R (rw_in_service _ _ (proj2 (rw_of_in _ _) Hx0')) F). eapply in_keys. exact Hx.
Qed.

Lemma c03_pair_model : forall rf0 n s a b prev,
  status_ok s -> struct_ok s -> rf s = rf0 -> fresh_wid (fst (fst (step s a))) b -> obs_of n s prev ->
  c03_pair rf0 prev a b (pair_obs n s a b) = true.
Proof.
  intros rf0 n s a b prev Hst H Hrf Hfresh [r0 ef0 r0'].
  set (s1 := fst (fst (step s a))) in *.
  assert (Hst1 : status_ok s1) by (apply status_step; exact Hst).
  assert (Hrf1 : rf s1 = rf0) by (unfold s1; rewrite rf_step; exact Hrf).
  pose proof (status_step s1 b Hst1) as [Hc2 Hr2].
  pose proof (rf_step s1 b) as Hrf2.
  unfold c03_pair. unfold pair_obs. fold s1. cbn [o_ro o_rwc o_replicas observe with_res1].
  unfold quorum_ok at 1. rewrite Hr2, Hc2, Hrf2, Hrf1. rewrite Bool.eqb_reflx, Nat.eqb_refl. cbn [andb].
  destruct a; try reflexivity. cbv zeta.
  set (guard := quorum_ok rf0 (replicas s) && _ && _).
  destruct guard eqn:G; [|destruct b; reflexivity].
  assert (Core : is_mut_io b = true -> step s1 b = (s1, RRefused, noeff)).
  { intros Hb. apply andb_prop in G. destruct G as [G G3]. apply andb_prop in G. destruct G as [G1 G2].
    cbn [io_in_range o_size observe with_res1] in G2. apply andb_prop in G2. destruct G2 as [G2a G2b].
    apply Z.leb_le in G2a. apply Z.leb_le in G2b. apply negb_true_iff in G3.
    apply gate_refuses; [exact Hst1|exact Hb|]. rewrite Hrf1.
    pose proof (write_kills_quorum rf0 s wid off len fs Hst H Hrf G1 G2a G2b G3) as K.
    unfold s1. cbn [step]. destruct (do_write s wid off len fs). exact K. }
  destruct b; try reflexivity; rewrite (Core eq_refl); [|reflexivity..].
  cbn [fst snd]. unfold is_ack. cbn [o_res observe with_res1 res_class res_eqb negb andb].
  apply forallb_forall. intros x Hx. apply in_seq in Hx. cbn [o_reps with_res1] in Hx. rewrite length_reps_observe in Hx.
  apply negb_true_iff. destruct (holds _ x wid0) eqn:Eh; [|reflexivity]. exfalso.
  assert (Hlt : (x < n)%nat) by lia.
  exact (Hfresh x (proj1 (holds_observe n s1 RRefused noeff x wid0 Hlt) Eh)).
Qed.

Theorem c03_oracle_model_x : forall xs rf0 n w0, (1 <= rf0)%nat -> forallb xev_wf xs = true ->
  hist_ok fresh_wid (init rf0 w0) (flatten xs) ->
  walk (lift (c03_step rf0) (c03_pair rf0)) 0 (obs0 rf0 n w0) xs (trace n (init rf0 w0) xs) = None.
Proof.
  intros xs rf0 n w0 Hrf Hwf Hfr.
  apply (walk_sound (lift (c03_step rf0) (c03_pair rf0))
           (fun s xs => binv_wf rf0 s xs /\ hist_ok fresh_wid s (flatten xs)) n);
    [|split; [apply binv_wf_init; assumption|exact Hfr]|apply obs0_obs_of].
  intros s x t prev [Hi Hf] Hp. destruct (binv_wf_cons rf0 s x t Hi) as [_ Hi'].
  destruct Hi as [[Hs [Ht Hr]] _]. destruct x as [e|a b]; cbn [lift xobs].
  - split; [apply c03_step_model; assumption|]. split; [exact Hi'|exact (proj2 Hf)].
  - destruct Hf as [_ [Hfb Hf]]. split; [apply c03_pair_model; assumption|]. split; [exact Hi'|exact Hf].
Qed.

(** single-request histories need neither well-formed requests nor fresh write ids: the rule for one
    request rests on the status fields alone *)
Theorem c03_oracle_model_init : forall es rf0 n w0,
  walk (lift (c03_step rf0) (c03_pair rf0)) 0 (obs0 rf0 n w0) (map One es) (trace n (init rf0 w0) (map One es)) = None.
Proof.
  intros es rf0 n w0.
  apply (walk_sound (lift (c03_step rf0) (c03_pair rf0))
           (fun s xs => (status_ok s /\ rf s = rf0) /\ exists es, xs = map One es) n);
    [|split; [split; [apply status_init|reflexivity]|exists es; reflexivity]|apply obs0_obs_of].
  intros s x t prev [[Hs Hr] [[|e es'] E]] Hp; [discriminate|]. inversion E; subst x t. cbn [lift xobs after].
  split; [apply c03_step_model; assumption|].
  split; [split; [apply status_step; exact Hs|rewrite rf_step; exact Hr]|exists es'; reflexivity].
Qed.

(** the two guards of [c04_pair] (witnesses below; without either the oracle rejects a trace of the model):
    - "did not fail the first request" is asked only when that request is an I/O that reached the
      replicas: otherwise (outside the volume, refused by the read-only gate) the replica its script names
      is not detached and may serve the queued read;
    - "was RW before" is asked unless the first request promotes that replica (verify, set-mode RW,
      start). *)
Definition c04_witness_range : list xevent :=
  boot1 ++ [Two (Write 7%nat 5 1 [(0%nat, KWrite)]) (Read 0 0 [0%nat] [])].
Definition c04_witness_start : list xevent :=
  [One (Register 0%nat 1%nat 1 false None []); Two (Start [0%nat] []) (Read 0 0 [0%nat] [])].
Definition c04_witness_verify : list xevent :=
  map One [Register 0%nat 1%nat 1 false None []; Register 1%nat 2%nat 1 false None []; Start [0%nat] [];
           AddCheck 1%nat []; AddCommit 1%nat []; SyncData 1%nat]
  ++ [Two (Verify 1%nat []) (Read 0 0 [1%nat] [])].
Example c04_pair_accepts_unreached_and_promoting_first_requests :
  walk (lift (c04_step 1) (c04_pair 1)) 0 (obs0 1 1 []) c04_witness_range (trace 1 (init 1 []) c04_witness_range) = None
  /\ walk (lift (c04_step 1) (c04_pair 1)) 0 (obs0 1 1 []) c04_witness_start (trace 1 (init 1 []) c04_witness_start) = None
  /\ walk (lift (c04_step 2) (c04_pair 2)) 0 (obs0 2 2 []) c04_witness_verify (trace 2 (init 2 []) c04_witness_verify) = None.
Proof. vm_compute. repeat split; reflexivity. Qed.

Lemma c04_pair_model : forall rf0 n s a b prev,
  status_ok s -> struct_ok s -> rf s = rf0 -> ev_wf a = true -> obs_of n s prev ->
  c04_pair rf0 prev a b (pair_obs n s a b) = true.
Proof.
  intros rf0 n s a b prev Hst H Hrf Hwf [r0 ef0 r0']. destruct b; try reflexivity.
  unfold c04_pair, pair_obs. cbn [o_served observe with_res1 e_served o_replicas o_size].
  set (s1 := fst (fst (step s a))).
  assert (H1 : struct_ok s1) by (apply struct_step; assumption).
  cbn [step].
  destruct (do_read_spec s1 off len order fs H1) as [[_ Hd]|Hs]; [rewrite Hd; reflexivity|].
  unfold read_spec in Hs. destruct (e_served (snd (do_read s1 off len order fs))) as [x|]; [|reflexivity].
  destruct Hs as [_ [Hx _]]. apply rw_of_in in Hx.
  pose proof (rw_origin s a x Hx) as Ho.
  apply andb_true_intro. split.
  - destruct Ho as [Ho|Ho]; [apply orb_true_iff; left; apply mem_in; apply rw_of_in; exact Ho|].
    apply orb_true_iff. right. destruct a; try contradiction; cbn [promotes o_replicas observe with_res1].
    + rewrite Ho. reflexivity.
    + subst. apply Nat.eqb_refl.
    + destruct m; try contradiction. subst. apply Nat.eqb_refl.
  - destruct (is_io a && quorum_ok rf0 (replicas s) && io_in_range (with_res1 (observe n s r0 ef0) r0') a) eqn:G; [|reflexivity].
    apply andb_prop in G. destruct G as [G G3]. apply andb_prop in G. destruct G as [G1 G2].
    assert (Hxs : In (x, RW) (replicas s)).
    { destruct Ho as [Ho|Ho]; [exact Ho|]. destruct a; try discriminate; contradiction. }
    assert (R : reached s a).
    { apply (rw_reached rf0 s a x Hst H Hrf G2 (proj2 (rw_of_in _ _) Hxs)). destruct a; try reflexivity. exact G3. }
    destruct (io_kind_fail a x) eqn:F; [|reflexivity]. exfalso.
    apply (failed_gone s a x H R (rw_in_service _ _ (proj2 (rw_of_in _ _) Hxs)) F). fold s1. eapply in_keys. exact Hx.
Qed.

Theorem c04_oracle_model_x : forall xs rf0 n w0, (1 <= rf0)%nat -> forallb xev_wf xs = true ->
  no_invalid (init rf0 w0) (flatten xs) ->
  walk (lift (c04_step rf0) (c04_pair rf0)) 0 (obs0 rf0 n w0) xs (trace n (init rf0 w0) xs) = None.
Proof.
  intros xs rf0 n w0 Hrf Hwf Hni.
  apply (walk_sound (lift (c04_step rf0) (c04_pair rf0))
           (fun s xs => binv_wf rf0 s xs /\ no_invalid s (flatten xs)) n);
    [|split; [apply binv_wf_init; assumption|exact Hni]|apply obs0_obs_of].
  intros s x t prev [Hi Hn] Hp. destruct (binv_wf_cons rf0 s x t Hi) as [Hw Hi'].
  destruct Hi as [[Hs [Ht Hr]] _]. destruct x as [e|a b]; cbn [lift xobs].
  - destruct Hn as [He Hn]. split; [apply c04_step_model; assumption|]. split; [exact Hi'|exact Hn].
  - destruct Hn as [_ [_ Hn]]. apply andb_prop in Hw. destruct Hw as [Hwa _].
    split; [apply c04_pair_model; assumption|]. split; [exact Hi'|exact Hn].
Qed.

Theorem c04_oracle_model : forall es rf0 n w0, (1 <= rf0)%nat -> forallb ev_wf es = true ->
  no_invalid (init rf0 w0) es ->
  walk (lift (c04_step rf0) nopair) 0 (obs0 rf0 n w0) (map One es) (trace n (init rf0 w0) (map One es)) = None.
Proof.
  intros es rf0 n w0 Hrf Hwf Hni. eapply walk_weaken; [|apply (c04_oracle_model_x (map One es) rf0 n w0 Hrf)].
  - intros prev [e|a b] cur H; [exact H|reflexivity].
  - exact (eq_trans (forallb_map_one ev_wf es) Hwf).
  - rewrite flatten_map_one. exact Hni.
Qed.

(** with the single-request oracle made vacuous on an RInvalid answer: no condition on the observed read orders *)
Theorem c04'_oracle_model_x : forall xs rf0 n w0, (1 <= rf0)%nat -> forallb xev_wf xs = true ->
  walk (lift (c04_step' rf0) (c04_pair rf0)) 0 (obs0 rf0 n w0) xs (trace n (init rf0 w0) xs) = None.
Proof.
  intros xs rf0 n w0 Hrf Hwf.
  apply (walk_sound (lift (c04_step' rf0) (c04_pair rf0)) (binv_wf rf0) n); [|apply binv_wf_init; assumption|apply obs0_obs_of].
  intros s x t prev Hi Hp. destruct (binv_wf_cons rf0 s x t Hi) as [Hw Hi']. split; [|exact Hi'].
  destruct Hi as [[Hs [Ht Hr]] _]. destruct x as [e|a b]; cbn [lift xobs]; [apply c04_step'_model; assumption|].
  apply andb_prop in Hw. destruct Hw as [Hwa _]. apply c04_pair_model; assumption.
Qed.

Theorem c04'_oracle_model : forall es rf0 n w0, (1 <= rf0)%nat -> forallb ev_wf es = true ->
  walk (lift (c04_step' rf0) nopair) 0 (obs0 rf0 n w0) (map One es) (trace n (init rf0 w0) (map One es)) = None.
Proof.
  intros es rf0 n w0 Hrf Hwf. eapply walk_weaken; [|apply (c04'_oracle_model_x (map One es) rf0 n w0 Hrf)].
  - intros prev [e|a b] cur H; [exact H|reflexivity].
  - exact (eq_trans (forallb_map_one ev_wf es) Hwf).
Qed.

(** ** non-vacuity: pairs on which the guards of the pair rules fire *)
(** the only replica fails the first write after applying it; the queued write (fresh id) is refused *)
Definition c03_pair_fires : list xevent :=
  boot1 ++ [Two (Write 7%nat 0 0 [(0%nat, KWriteAp)]) (Write 8%nat 0 0 [])].
Example c03_pair_guard_reached :
  walk (lift (c03_step 1) (c03_pair 1)) 0 (obs0 1 1 []) c03_pair_fires (trace 1 (init 1 []) c03_pair_fires) = None
  /\ map o_res (trace 1 (init 1 []) c03_pair_fires) = [ROk; ROk; RErr]
  /\ map o_res1 (trace 1 (init 1 []) c03_pair_fires) = [None; None; Some RErr]
  /\ map o_replicas (trace 1 (init 1 []) c03_pair_fires) = [[]; [(0%nat, RW)]; []].
Proof. vm_compute. repeat split; reflexivity. Qed.

(** two RW replicas, replica 0 fails the write in flight and is detached; the queued read is served by 1 *)
Definition c04_pair_fires : list xevent :=
  map One [Register 0%nat 1%nat 1 false None []; Register 1%nat 2%nat 1 false None []; Start [0%nat] [];
           AddCheck 1%nat []; AddCommit 1%nat []; SyncData 1%nat; Verify 1%nat []]
  ++ [Two (Write 7%nat 0 0 [(0%nat, KWrite)]) (Read 0 0 [1%nat] [])].
Example c04_pair_guard_reached :
  walk (lift (c04_step 2) (c04_pair 2)) 0 (obs0 2 2 []) c04_pair_fires (trace 2 (init 2 []) c04_pair_fires) = None
  /\ walk (lift (c04_step 2) (c04_pair 2)) 0 (obs0 2 2 []) c04_pair_fires (trace 2 (init 2 []) c04_pair_fires) = None
  /\ o_served (last (trace 2 (init 2 []) c04_pair_fires) (obs0 2 2 [])) = Some 1%nat
  /\ o_replicas (last (trace 2 (init 2 []) c04_pair_fires) (obs0 2 2 [])) = [(1%nat, RW)].
Proof. vm_compute. repeat split; reflexivity. Qed.
