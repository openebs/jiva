(** * Ctl: the second C09 oracle ([c09u_step], one registration per UUID) accepts every trace of the
    model, with and without concurrent pairs.
    registerReplica (controller/control.go) first deletes every other address registered with the
    UUID of the request, then stores the record; everything after that only deletes registrations. *)
From Coq Require Import List ZArith Bool Arith Lia.
From Jiva Require Import Ctl.Model Ctl.Corr Ctl.Oracles Ctl.Proofs Ctl.Props Ctl.OracleProofs
  Ctl.OracleProofs2 Ctl.OracleProofsX.
Import ListNotations.
Open Scope Z_scope.

(** ** the oracle on one request: only the registered set of the observation matters, and the clause
    survives every later deletion of registrations *)
Lemma c09u_step_incl : forall t s e prev cur, struct_ok s -> agrees rg_uuid t s ->
  (forall x, In x (o_registered cur) -> In x (keys (registered (fst (fst (step s e)))))) ->
  c09u_step t prev e cur = true.
Proof.
  intros t s e prev cur H Hi Hcur. destruct e; try reflexivity.
  cbn [c09u_step]. destruct (Nat.eqb uuid 0) eqn:Hu; [reflexivity|].
  cbn [uids_upd]. rewrite Hu. apply forallb_forall. intros x Hx.
  apply Hcur in Hx. apply keys_in in Hx. destruct Hx as [r Hr]. cbn [step] in Hr.
  destruct (do_register_spec s a uuid rev rebuilding pick fs H Hu) as [S1 _].
  apply S1 in Hr. apply in_reg_s1 in Hr; [|exact H].
  destruct Hr as [[Hx _]|[Hin [Hne Hur]]].
  - subst. rewrite Nat.eqb_refl. reflexivity.
  - rewrite aget_aset, Hne, (Hi x r Hin).
    apply Nat.eqb_neq in Hur. rewrite Hur. apply orb_true_r.
Qed.

Lemma c09u_step_model : forall n t s e prev, struct_ok s -> agrees rg_uuid t s ->
  c09u_step t prev e (obs_after n s e) = true.
Proof.
  intros n t s e prev H Hi. unfold obs_after. apply (c09u_step_incl t s e); [exact H|exact Hi|].
  intros x Hx. cbn [o_registered observe] in Hx. apply (proj1 (in_sort _ _)) in Hx. exact Hx.
Qed.

Lemma c09u_pair_model : forall n t s a b prev, struct_ok s -> ev_wf a = true -> agrees rg_uuid t s ->
  liftu t prev (Two a b) (pair_obs n s a b) = true.
Proof.
  intros n t s a b prev H Hwa Hi.
  set (s1 := fst (fst (step s a))).
  assert (H1 : struct_ok s1) by (apply struct_step; assumption).
  pose proof (agrees_step rg_uuid t s a H Hi : agrees rg_uuid (uids_upd t a) s1) as Hi1.
  assert (Obs : forall x, In x (o_registered (pair_obs n s a b)) -> In x (keys (registered (fst (fst (step s1 b)))))).
  { intros x Hx. unfold pair_obs in Hx. cbn [o_registered with_res1 observe] in Hx.
    apply (proj1 (in_sort _ _)) in Hx. exact Hx. }
  (* the second request deletes registrations at most: the clause of the first one is still visible *)
  assert (First : incl (registered (fst (fst (step s1 b)))) (registered s1) ->
                  c09u_step t prev a (pair_obs n s a b) = true).
  { intros I2. apply (c09u_step_incl t s a); [exact H|exact Hi|].
    intros x Hx. apply Obs in Hx. apply keys_in in Hx. destruct Hx as [r Hr].
    apply I2 in Hr. eapply in_keys. exact Hr. }
  cbn [liftu].
  destruct b;
    try (match goal with |- c09u_step _ _ _ (pair_obs _ _ _ ?b0) = true =>
           apply First; exact (proj2 (rs_step s1 b0 I)) end).
  destruct (Nat.eqb uuid 0) eqn:Hu.
  - apply First. cbn [step]. rewrite do_register_unfold, Hu. apply incl_refl.
  - apply (c09u_step_incl (uids_upd t a) s1); [exact H1|exact Hi1|exact Obs].
Qed.

Theorem c09u_oracle_model_x : forall xs rf0 n w0, (1 <= rf0)%nat -> forallb xev_wf xs = true ->
  walk_u liftu 0 [] (obs0 rf0 n w0) xs (trace n (init rf0 w0) xs) = None.
Proof.
  intros xs rf0 n w0 Hrf Hwf.
  apply (walk_u_sound liftu (fun u s xs => binv_wf rf0 s xs /\ agrees rg_uuid u s) n);
    [|split; [apply binv_wf_init; assumption|apply agrees_init]|apply obs0_obs_of].
  intros u s x t prev [Hi Hu] _. destruct (binv_wf_cons rf0 s x t Hi) as [Hw Hi'].
  destruct Hi as [[_ [Ht _]] _]. destruct x as [e|a b]; cbn [xobs after xuids_upd].
  - split; [apply c09u_step_model; assumption|]. split; [exact Hi'|exact (agrees_step rg_uuid u s e Ht Hu)].
  - apply andb_prop in Hw. destruct Hw as [Hwa _].
    split; [apply c09u_pair_model; assumption|]. split; [exact Hi'|].
    exact (agrees_step rg_uuid _ _ b (struct_step s a Ht Hwa) (agrees_step rg_uuid u s a Ht Hu)).
Qed.

Theorem c09u_oracle_model : forall es rf0 n w0, (1 <= rf0)%nat -> forallb ev_wf es = true ->
  walk_u liftu 0 [] (obs0 rf0 n w0) (map One es) (trace n (init rf0 w0) (map One es)) = None.
Proof.
  intros es rf0 n w0 Hrf Hwf. apply c09u_oracle_model_x; [exact Hrf|exact (eq_trans (forallb_map_one ev_wf es) Hwf)].
Qed.

(** address 0 registers with UUID 5, the replica with UUID 7 registers at address 1 and then again at
    address 2: the model (as the controller) forgets address 1 *)
Definition c09u_moves : list event :=
  [Register 0%nat 5%nat 1 false None []; Register 1%nat 7%nat 1 false None []; Register 2%nat 7%nat 1 false None []].
Example c09u_older_registration_replaced :
  (1 <= 3)%nat /\ forallb ev_wf c09u_moves = true
  /\ map o_registered (trace 3 (init 3 []) (map One c09u_moves)) = [[0%nat]; [0%nat; 1%nat]; [0%nat; 2%nat]]
  /\ walk_u liftu 0 [] (obs0 3 3 []) (map One c09u_moves) (trace 3 (init 3 []) (map One c09u_moves)) = None.
Proof. vm_compute. repeat split; try reflexivity. lia. Qed.

(** the same with the two registrations of UUID 7 as a concurrent pair *)
Definition c09u_moves_pair : list xevent :=
  [One (Register 0%nat 5%nat 1 false None []);
   Two (Register 1%nat 7%nat 1 false None []) (Register 2%nat 7%nat 1 false None [])].
Example c09u_older_registration_replaced_in_a_pair :
  forallb xev_wf c09u_moves_pair = true
  /\ map o_registered (trace 3 (init 3 []) c09u_moves_pair) = [[0%nat]; [0%nat; 2%nat]]
  /\ walk_u liftu 0 [] (obs0 3 3 []) c09u_moves_pair (trace 3 (init 3 []) c09u_moves_pair) = None.
Proof. vm_compute. repeat split; reflexivity. Qed.

(** an observation in which both addresses of UUID 7 stay registered is rejected, at the third request *)
Definition c09u_both_stay : obs :=
  mkobs ROk None [] true 0%nat None None false [0%nat; 1%nat; 2%nat] 0 false [] [] None.
Example c09u_step_can_fail :
  c09u_step [(0%nat, 5%nat); (1%nat, 7%nat)] (obs0 3 3 []) (Register 2%nat 7%nat 1 false None []) c09u_both_stay = false
  /\ walk_u liftu 0 [] (obs0 3 3 []) (map One c09u_moves)
       (firstn 2 (trace 3 (init 3 []) (map One c09u_moves)) ++ [c09u_both_stay]) = Some 2%nat.
Proof. vm_compute. split; reflexivity. Qed.
