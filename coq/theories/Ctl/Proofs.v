(** * Ctl: the status invariant (C03), that no step changes the replication factor, and the structural invariant
    (C18) of the controller model, each by one case per primitive operation of Ctl.Steps; after the first two the gate
    theorems of C03 *)
From Coq Require Import List ZArith Bool Arith Lia.
From Jiva Require Import Ctl.Model.
From Jiva Require Export Ctl.AList Ctl.Steps.
Import ListNotations.
Open Scope Z_scope.

Lemma count_rw_app : forall l1 l2, count_rw (l1 ++ l2) = (count_rw l1 + count_rw l2)%nat.
Proof. intros. unfold count_rw. rewrite filter_app, app_length. reflexivity. Qed.

Lemma count_rw_wo : forall l a, count_rw (l ++ [(a, WO)]) = count_rw l.
Proof. intros. rewrite count_rw_app. cbn. lia. Qed.

(** ** the status invariant (C03): ReadOnly and RWReplicaCount always reflect the replica list *)
Definition status_ok (s : cst) : Prop :=
  rwc s = count_rw (replicas s) /\ ro s = negb (Nat.leb (quorum (rf s)) (count_rw (replicas s))).

Lemma status_update : forall s, status_ok (update_vol_status s).
Proof. intros s. unfold status_ok, update_vol_status. cbn. split; reflexivity. Qed.

Definition same_status_fields (s t : cst) : Prop :=
  replicas t = replicas s /\ rf t = rf s /\ ro t = ro s /\ rwc t = rwc s.

Lemma ssf_refl : forall s, same_status_fields s s.
Proof. intros; repeat split. Qed.
Lemma ssf_trans : forall a b c, same_status_fields a b -> same_status_fields b c -> same_status_fields a c.
Proof. unfold same_status_fields. intros a b c [H1 [H2 [H3 H4]]] [G1 [G2 [G3 G4]]]. repeat split; congruence. Qed.
Lemma ssf_status : forall s t, same_status_fields s t -> status_ok s -> status_ok t.
Proof. unfold same_status_fields, status_ok. intros s t [H1 [H2 [H3 H4]]] [G1 G2]. rewrite H1, H2, H3, H4. auto. Qed.

Lemma ssf_stop_monitoring : forall s i, same_status_fields s (stop_monitoring s i).
Proof. intros s i. rewrite stop_monitoring_shape. repeat split. Qed.

(** a mode change, a removal and the refresh all end with UpdateVolStatus; after it only the
    checkpoint and the world are written *)
Lemma status_set_mode : forall s a m, status_ok (set_mode_nolock s a m).
Proof. intros s a m. destruct (set_mode_shape s a m) as (R & B & A & L & P & E). rewrite E. apply status_update. Qed.

Lemma status_refresh : forall s fs, status_ok (update_checkpoint (update_vol_status s) fs).
Proof.
  intros s fs. destruct (update_checkpoint_shape (update_vol_status s) fs) as (c & w' & E). rewrite E.
  apply status_update.
Qed.

Lemma status_qop : forall e s t, qop e s t -> status_ok s -> status_ok t.
Proof.
  intros e s t Q H.
  destruct Q as [s t M|s a g _|s a src _ _|s a m _|s fs a|s|s Hr|s i a fs _ _|s i a fs _ _|s t _ R];
    try exact H.
  - destruct M; exact H.
  - apply status_set_mode.
  - apply remove_ind; [exact H|intros _; apply status_refresh].
  - unfold status_ok in *. cbn. rewrite Hr in H. exact H.
  - destruct R as (R' & M' & G & -> & _). exact H.
Qed.

Theorem status_step : forall s e, status_ok s -> status_ok (fst (fst (step s e))).
Proof.
  intros s e. apply (ops_rel e (fun s t => status_ok s -> status_ok t)); [auto|auto|apply status_qop| |intros t fs _; apply status_refresh].
  (* appending a WO replica does not change the RW count *)
  intros t a i _ [H1 H2]. unfold status_ok. cbn [append rwc ro rf replicas upd_mon upd_backends upd_replicas].
  rewrite count_rw_wo. split; assumption.
Qed.

Lemma status_fold_set_mode : forall {A} (l : list A) (g : A -> bool) (k : A -> addr) s,
  status_ok s -> status_ok (fold_left (fun acc p => if g p then acc else set_mode_nolock acc (k p) ERR) l s).
Proof.
  intros A l g k s H. apply fold_left_inv; [exact H|].
  intros t x _ Ht. destruct (g x); [exact Ht|apply status_set_mode].
Qed.

Lemma status_init : forall rf0 w0, status_ok (init rf0 w0).
Proof.
  intros rf0 w0. unfold status_ok. split; [reflexivity|].
  change (true = negb (Nat.leb (quorum rf0) 0)).
  destruct (Nat.leb (quorum rf0) 0) eqn:E; [|reflexivity].
  apply Nat.leb_le in E. unfold quorum in E. lia.
Qed.

Theorem status_reachable : forall es rf0 w0, status_ok (run (init rf0 w0) es).
Proof.
  intros es rf0 w0. apply (run_inv status_ok (fun _ => True)); [intros s e _; apply status_step|auto|].
  apply status_init.
Qed.

Lemma rf_set_mode : forall s a m, rf (set_mode_nolock s a m) = rf s.
Proof. intros s a m. destruct (set_mode_shape s a m) as (R & B & A & L & P & E). rewrite E. reflexivity. Qed.

Lemma rf_qop : forall e s t, qop e s t -> rf t = rf s.
Proof.
  intros e s t Q.
  destruct Q as [s t M|s a g _|s a src _ _|s a m _|s fs a|s|s _|s i a fs _ _|s i a fs _ _|s t _ R];
    try reflexivity.
  - destruct M; reflexivity.
  - apply rf_set_mode.
  - destruct (has_replica s a) eqn:E; [exact (proj1 (proj2 (remove_fields s fs a E)))|rewrite remove_replica_absent; auto].
  - destruct R as (R' & M' & G & -> & _). reflexivity.
Qed.

Theorem rf_step : forall s e, rf (fst (fst (step s e))) = rf s.
Proof.
  intros s e. apply (ops_rel e (fun s t => rf t = rf s)); [reflexivity|congruence|apply rf_qop|reflexivity|].
  intros t fs. destruct (update_checkpoint_shape (update_vol_status t) fs) as (c & w' & E). rewrite E. reflexivity.
Qed.

(** ** C03: the gate *)
(** the same function as [is_io] of Oracles.v, in which the lemmas of Steps.v are stated *)
Definition is_mut_io (e : event) : bool :=
  match e with Write _ _ _ _ | Sync _ | Unmap _ => true | _ => false end.

Theorem gate_refuses : forall s e, status_ok s -> is_mut_io e = true ->
  (count_rw (replicas s) < quorum (rf s))%nat ->
  step s e = (s, RRefused, noeff).
Proof.
  intros s e [Hc Hr] He Hq.
  assert (Hro : ro s = true).
  { rewrite Hr. destruct (Nat.leb (quorum (rf s)) (count_rw (replicas s))) eqn:E; [|reflexivity].
    apply Nat.leb_le in E. lia. }
  destruct (io_gate s e He) as [[R _]|E]; [congruence|rewrite E, Hro; reflexivity].
Qed.

Theorem gate_opens : forall s e, status_ok s -> is_mut_io e = true ->
  (quorum (rf s) <= count_rw (replicas s))%nat ->
  snd (fst (step s e)) <> RRefused.
Proof.
  intros s e [Hc Hr] He Hq.
  assert (Hro : ro s = false).
  { rewrite Hr. destruct (Nat.leb (quorum (rf s)) (count_rw (replicas s))) eqn:E; [reflexivity|].
    apply Nat.leb_gt in E. lia. }
  destruct (io_gate s e He) as [R|E]; [rewrite (io_step s e He R); apply io_res_not_refused|rewrite E, Hro; discriminate].
Qed.

(** ** the structural invariant (C18) *)
Definition proj (b : list (addr * (mode * nat))) : list (addr * mode) :=
  map (fun p => (fst p, fst (snd p))) b.
Definition is_wo (p : addr * mode) : bool := mode_eqb (snd p) WO.
Definition count_wo (l : list (addr * mode)) : nat := length (filter is_wo l).
Definition keys {V} (l : list (nat * V)) : list nat := map fst l.

Record struct_ok (s : cst) : Prop := mkstruct {
  st_nodup  : NoDup (keys (replicas s));
  st_mirror : proj (backends s) = replicas s;
  st_len    : (length (replicas s) <= rf s)%nat;
  st_wo     : (count_wo (replicas s) <= 1)%nat;
  st_rf     : (1 <= rf s)%nat;
  st_avail  : avail s = existsb (fun p => is_rw (fst (snd p))) (backends s);
  st_reg    : NoDup (keys (registered s))
}.

Lemma proj_adel : forall b a, proj (adel b a) = adel (proj b) a.
Proof.
  induction b as [|[k [m i]] t IH]; intros a; cbn; [reflexivity|].
  destruct (Nat.eqb k a); [reflexivity|]. cbn. rewrite IH. reflexivity.
Qed.

Lemma keys_proj : forall b, keys (proj b) = keys b.
Proof. intros b. unfold keys, proj. rewrite map_map. reflexivity. Qed.

Lemma in_keys : forall {V} (l : list (nat * V)) x v, In (x, v) l -> In x (keys l).
Proof. intros V l x v H. change x with (fst (x, v)). apply in_map. exact H. Qed.

Lemma keys_in : forall {V} (l : list (nat * V)) x, In x (keys l) -> exists v, In (x, v) l.
Proof.
  intros V l x H. apply in_map_iff in H. destruct H as [[k v] [Hk Hin]]. cbn in Hk. subst. exists v. exact Hin.
Qed.

Lemma in_aset_nodup : forall {V} (l : list (nat * V)) a v p, NoDup (keys l) ->
  In p (aset l a v) -> p = (a, v) \/ (In p l /\ fst p <> a).
Proof.
  intros V l a v p. induction l as [|[k x] t IH]; cbn; intros Hn Hin.
  - destruct Hin as [Hin|[]]. left. symmetry. exact Hin.
  - inversion Hn as [|y ys Hy Hd]; subst. destruct (Nat.eqb k a) eqn:E.
    + apply Nat.eqb_eq in E. subst k. destruct Hin as [Hin|Hin]; [left; symmetry; exact Hin|].
      right. split; [right; exact Hin|]. intro Ef. apply Hy. rewrite <- Ef. destruct p as [pk pv]. eapply in_keys. exact Hin.
    + destruct Hin as [Hin|Hin].
      * right. split; [left; exact Hin|]. subst p. cbn. apply Nat.eqb_neq. exact E.
      * destruct (IH Hd Hin) as [G|[G1 G2]]; [left; exact G|right; split; [right; exact G1|exact G2]].
Qed.

Lemma keys_app : forall {V} (l r : list (nat * V)), keys (l ++ r) = keys l ++ keys r.
Proof. intros. unfold keys. apply map_app. Qed.

Definition setm (a : addr) (m : mode) (p : addr * mode) : addr * mode := if Nat.eqb (fst p) a then (fst p, m) else p.

Lemma keys_setm : forall l a m, keys (map (setm a m) l) = keys l.
Proof.
  intros l a m. unfold keys. rewrite map_map. apply map_ext.
  intros [k v]. unfold setm. cbn. destruct (Nat.eqb k a); reflexivity.
Qed.

Lemma in_setm : forall l a m x mx, In (x, mx) (map (setm a m) l) -> (x = a /\ mx = m /\ In a (keys l)) \/ In (x, mx) l.
Proof.
  intros l a m x mx H. apply in_map_iff in H. destruct H as [[k v] [Hk Hin]].
  unfold setm in Hk. cbn in Hk. destruct (Nat.eqb k a) eqn:E.
  - apply Nat.eqb_eq in E. inversion Hk; subst. left. repeat split. eapply in_keys; eauto.
  - inversion Hk; subst. right. exact Hin.
Qed.

Lemma setm_noop : forall t a m, ~ In a (keys t) -> map (setm a m) t = t.
Proof.
  induction t as [|[k v] t IH]; intros a m H; cbn; [reflexivity|].
  unfold setm at 1. cbn. destruct (Nat.eqb k a) eqn:E.
  - apply Nat.eqb_eq in E. subst. exfalso. apply H. left. reflexivity.
  - rewrite IH; [reflexivity|]. intro Hin. apply H. right. exact Hin.
Qed.

Lemma proj_aset : forall b a m i0 m0 i,
  NoDup (keys b) -> aget b a = Some (m0, i0) ->
  proj (aset b a (m, i)) = map (setm a m) (proj b).
Proof.
  induction b as [|[k [mk ik]] t IH]; intros a m i0 m0 i Hn Hg; cbn in *; [discriminate|].
  inversion Hn as [|x xs Hx Hd]; subst.
  destruct (Nat.eqb k a) eqn:E.
  - cbn. unfold setm at 1. cbn. rewrite E. f_equal.
    apply Nat.eqb_eq in E. subst. symmetry. apply setm_noop. rewrite keys_proj. exact Hx.
  - cbn. unfold setm at 1. cbn. rewrite E. f_equal. eapply IH; eauto.
Qed.

Lemma count_wo_adel_le : forall l a, (count_wo (adel l a) <= count_wo l)%nat.
Proof.
  unfold count_wo. induction l as [|[k v] t IH]; intros a; cbn; [lia|].
  destruct (Nat.eqb k a).
  - destruct (is_wo (k, v)); cbn; lia.
  - cbn. destruct (is_wo (k, v)); cbn; specialize (IH a); lia.
Qed.

Lemma count_wo_setm_le : forall l a m, m <> WO -> (count_wo (map (setm a m) l) <= count_wo l)%nat.
Proof.
  unfold count_wo. induction l as [|[k v] t IH]; intros a m Hm; cbn; [lia|].
  unfold setm at 1. cbn. destruct (Nat.eqb k a).
  - assert (E : is_wo (k, m) = false) by (unfold is_wo; cbn; destruct m; try reflexivity; contradiction).
    rewrite E. destruct (is_wo (k, v)); cbn; specialize (IH a m Hm); lia.
  - destruct (is_wo (k, v)); cbn; specialize (IH a m Hm); lia.
Qed.

Lemma count_wo_app : forall l1 l2, count_wo (l1 ++ l2) = (count_wo l1 + count_wo l2)%nat.
Proof. intros. unfold count_wo. rewrite filter_app, app_length. reflexivity. Qed.

Lemma find_wo_none : forall l, find (fun p => mode_eqb (snd p) WO) l = None -> count_wo l = 0%nat.
Proof.
  unfold count_wo. induction l as [|[k v] t IH]; cbn; intros H; [reflexivity|].
  unfold is_wo at 1. cbn. destruct (mode_eqb v WO); [discriminate|]. apply IH. exact H.
Qed.

Lemma find_wo_some_adel : forall l wo m,
  NoDup (keys l) -> (count_wo l <= 1)%nat ->
  find (fun p => mode_eqb (snd p) WO) l = Some (wo, m) -> count_wo (adel l wo) = 0%nat.
Proof.
  unfold count_wo. induction l as [|[k v] t IH]; intros wo m Hn Hc Hf; cbn in *; [discriminate|].
  inversion Hn as [|x xs Hx Hd]; subst.
  unfold is_wo in Hc at 1. cbn in Hc.
  destruct (mode_eqb v WO) eqn:Ev.
  - inversion Hf; subst. rewrite Nat.eqb_refl. cbn in Hc.
    destruct (filter is_wo t) eqn:Ef; [reflexivity|cbn in Hc; lia].
  - destruct (Nat.eqb k wo) eqn:Ek.
    + (* the found WO entry has the same key as an earlier non-WO one: impossible with NoDup *)
      apply Nat.eqb_eq in Ek. subst. exfalso. apply Hx.
      apply find_some in Hf. destruct Hf as [Hin _].
      change wo with (fst (wo, m)). apply in_map. exact Hin.
    + cbn. unfold is_wo at 1. cbn. rewrite Ev. eapply IH; eauto.
Qed.

Lemma count_wo_vacated : forall l, NoDup (keys l) -> (count_wo l <= 1)%nat -> count_wo (vacated l) = 0%nat.
Proof.
  intros l Hn Hw. destruct (vacated_cases l) as [[Ef E]|[wo [m [Ef E]]]]; rewrite E.
  - apply find_wo_none. exact Ef.
  - eapply find_wo_some_adel; eassumption.
Qed.

Lemma length_vacated : forall l, (length (vacated l) <= length l)%nat.
Proof.
  intros l. destruct (vacated_cases l) as [[_ E]|[wo [m [_ E]]]]; rewrite E; [apply Nat.le_refl|apply length_adel_le].
Qed.

Definition same_struct_fields (s t : cst) : Prop :=
  replicas t = replicas s /\ backends t = backends s /\ rf t = rf s /\ avail t = avail s
  /\ registered t = registered s.
Lemma sst_refl : forall s, same_struct_fields s s.
Proof. intros; repeat split. Qed.
Lemma sst_trans : forall a b c, same_struct_fields a b -> same_struct_fields b c -> same_struct_fields a c.
Proof. unfold same_struct_fields. intros a b c [H1 [H2 [H3 [H4 H5]]]] [G1 [G2 [G3 [G4 G5]]]]. repeat split; congruence. Qed.
Lemma sst_struct : forall s t, same_struct_fields s t -> struct_ok s -> struct_ok t.
Proof. unfold same_struct_fields. intros s t [H1 [H2 [H3 [H4 H5]]]] [A B C D E F G]. constructor; rewrite ?H1, ?H2, ?H3, ?H4, ?H5; assumption. Qed.

Lemma sst_upd_rep : forall s a g, same_struct_fields s (upd_rep s a g). Proof. intros; repeat split. Qed.
Lemma sst_upd_mon : forall s l p, same_struct_fields s (upd_mon s l p). Proof. intros; repeat split. Qed.
Lemma sst_upd_leader : forall s m g, same_struct_fields s (upd_leader s m g). Proof. intros; repeat split. Qed.
Lemma sst_upd_fe : forall s v, same_struct_fields s (upd_fe s v). Proof. intros; repeat split. Qed.
Lemma sst_upd_csize : forall s v, same_struct_fields s (upd_csize s v). Proof. intros; repeat split. Qed.
Lemma sst_upd_pend_adds : forall s v, same_struct_fields s (upd_pend_adds s v). Proof. intros; repeat split. Qed.
Lemma sst_upd_status : forall s r c, same_struct_fields s (upd_status s r c). Proof. intros; repeat split. Qed.
Lemma sst_update_vol_status : forall s, same_struct_fields s (update_vol_status s). Proof. intros; repeat split. Qed.

Lemma sst_meta : forall s t, meta s t -> same_struct_fields s t.
Proof. intros s t []; repeat split. Qed.

Lemma sst_update_checkpoint : forall s fs, same_struct_fields s (update_checkpoint s fs).
Proof. intros s fs. destruct (update_checkpoint_shape s fs) as (c & w' & E). rewrite E. repeat split. Qed.

Lemma sst_fan : forall g h ws s, same_struct_fields s (fan g h ws s).
Proof. intros g h ws s. destruct (fan_shape g h ws s) as [w' E]. rewrite E. repeat split. Qed.

Lemma sst_snapshot_all : forall s fs n, same_struct_fields s (fst (snapshot_all s fs n)).
Proof. intros s fs n. rewrite snapshot_all_fan. apply sst_fan. Qed.

(** ** the backend map under the structural invariant *)
Lemma backends_nodup : forall s, struct_ok s -> NoDup (keys (backends s)).
Proof. intros s H. rewrite <- keys_proj, (st_mirror s H). exact (st_nodup s H). Qed.

Lemma replicas_backends : forall s a m, struct_ok s ->
  (In (a, m) (replicas s) <-> exists i, In (a, (m, i)) (backends s)).
Proof.
  intros s a m H. rewrite <- (st_mirror s H). unfold proj. rewrite in_map_iff. split.
  - intros [[k [m' i]] [E Hin]]. inversion E; subst. exists i. exact Hin.
  - intros [i Hin]. exists (a, (m, i)). split; [reflexivity|exact Hin].
Qed.

Lemma unlisted_no_backend : forall s a, struct_ok s -> has_replica s a = false -> amem (backends s) a = false.
Proof.
  intros s a H Hnew. unfold amem. rewrite aget_none_not_in; [reflexivity|].
  fold (keys (backends s)). rewrite <- keys_proj, (st_mirror s H).
  intro Hin. apply has_replica_listed in Hin. congruence.
Qed.

Lemma backend_of_replica : forall s a m0, struct_ok s -> aget (replicas s) a = Some m0 ->
  exists i, aget (backends s) a = Some (m0, i).
Proof.
  intros s a m0 H Ea. destruct (proj1 (replicas_backends s a m0 H) (aget_in _ _ _ Ea)) as [i Hin].
  exists i. exact (aget_in_nodup _ _ _ (backends_nodup s H) Hin).
Qed.

Lemma set_mode_cases : forall s a m, struct_ok s ->
  set_mode_nolock s a m = update_vol_status s
  \/ exists m0 i, m0 <> ERR /\ aget (replicas s) a = Some m0 /\ aget (backends s) a = Some (m0, i)
     /\ set_mode_nolock s a m = update_vol_status
          (let s1 := upd_backends (upd_replicas s (map (setm a m) (replicas s))) (aset (backends s) a (m, i)) in
           if mode_eqb m ERR then stop_monitoring s1 i else s1).
Proof.
  intros s a m H. unfold set_mode_nolock.
  destruct (aget (replicas s) a) as [m0|] eqn:Ea; [|left; reflexivity].
  destruct (backend_of_replica s a m0 H Ea) as [i Eb].
  assert (E : update_vol_status (backend_set_mode (upd_replicas s (map (setm a m) (replicas s))) a m)
              = update_vol_status
                  (let s1 := upd_backends (upd_replicas s (map (setm a m) (replicas s))) (aset (backends s) a (m, i)) in
                   if mode_eqb m ERR then stop_monitoring s1 i else s1)).
  { unfold backend_set_mode. cbn [backends upd_replicas]. rewrite Eb. reflexivity. }
  destruct m0; [right; exists WO, i|right; exists RW, i|left; reflexivity];
    (split; [discriminate|]; split; [reflexivity|]; split; [exact Eb|exact E]).
Qed.

Lemma struct_set_mode : forall s a m, m <> WO -> struct_ok s -> struct_ok (set_mode_nolock s a m).
Proof.
  intros s a m Hm H.
  destruct (set_mode_cases s a m H) as [E|[m0 [i [_ [_ [Eb E]]]]]]; rewrite E;
    (eapply sst_struct; [apply sst_update_vol_status|]); [exact H|].
  pose proof (backends_nodup s H) as Hk. destruct H as [Hn Hmi Hl Hw Hrf Hav Hreg].
  set (s1 := upd_backends (upd_replicas s (map (setm a m) (replicas s))) (aset (backends s) a (m, i))). cbv zeta.
  assert (G1 : struct_ok s1).
  { constructor; cbn [replicas backends rf s1 upd_backends upd_replicas].
    - rewrite keys_setm. exact Hn.
    - erewrite proj_aset by eauto. rewrite Hmi. reflexivity.
    - rewrite map_length. exact Hl.
    - pose proof (count_wo_setm_le (replicas s) a m Hm). lia.
    - exact Hrf.
    - reflexivity.
    - exact Hreg. }
  destruct (mode_eqb m ERR); [|exact G1]. rewrite stop_monitoring_shape. eapply sst_struct; [apply sst_upd_mon|exact G1].
Qed.

Lemma struct_unlist : forall s a, struct_ok s -> struct_ok (unlist s a).
Proof.
  intros s a H. unfold unlist.
  set (s1 := if Nat.eqb (length (replicas s)) 1 && fe_up s then _ else s).
  assert (H1 : struct_ok s1).
  { subst s1. destruct (Nat.eqb (length (replicas s)) 1 && fe_up s); [|exact H].
    eapply sst_struct; [|exact H]. repeat split. }
  destruct H1 as [Hn Hmi Hl Hw Hrf Hav Hreg].
  set (s3 := upd_replicas (upd_registered s1 (adel (registered s1) a)) _).
  assert (F : replicas (remove_backend s3 a) = adel (replicas s1) a /\ rf (remove_backend s3 a) = rf s1
              /\ backends (remove_backend s3 a) = adel (backends s1) a
              /\ avail (remove_backend s3 a) = existsb (fun p => is_rw (fst (snd p))) (adel (backends s1) a)
              /\ registered (remove_backend s3 a) = adel (registered s1) a).
  { unfold remove_backend. change (backends s3) with (backends s1).
    destruct (aget (backends s1) a) as [[mb ib]|] eqn:Eb.
    - rewrite stop_monitoring_shape. repeat split.
    - rewrite (adel_absent _ _ Eb). repeat split. exact Hav. }
  destruct F as (R1 & R2 & R3 & R4 & R5).
  constructor; rewrite ?R1, ?R2, ?R3, ?R4, ?R5.
  - apply nodup_adel. exact Hn.
  - rewrite proj_adel. f_equal. exact Hmi.
  - eapply Nat.le_trans; [apply length_adel_le|exact Hl].
  - eapply Nat.le_trans; [apply count_wo_adel_le|exact Hw].
  - exact Hrf.
  - reflexivity.
  - apply nodup_adel. exact Hreg.
Qed.

Lemma struct_refresh : forall s fs, struct_ok s -> struct_ok (update_checkpoint (update_vol_status s) fs).
Proof.
  intros s fs H. eapply sst_struct; [apply sst_update_checkpoint|]. eapply sst_struct; [apply sst_update_vol_status|exact H].
Qed.

Lemma struct_remove_replica : forall s fs a, struct_ok s -> struct_ok (remove_replica_nolock s fs a).
Proof.
  intros s fs a H. apply remove_ind; [exact H|intros _]. apply struct_refresh. apply struct_unlist. exact H.
Qed.

Lemma struct_handle_error : forall errs s, struct_ok s -> struct_ok (fst (handle_error_nolock s errs)).
Proof.
  intros errs s H. apply handle_error_ind; [exact H|].
  intros t x _ Ht. apply struct_set_mode; [discriminate|exact Ht].
Qed.

Lemma struct_append : forall s t a i, struct_ok s -> (length (replicas s) < rf s)%nat ->
  struct_ok t -> rf t = rf s -> replicas t = vacated (replicas s) -> has_replica t a = false ->
  struct_ok (append t a i).
Proof.
  intros s t a i H Hlt Ht Ef Er Hnew. pose proof (unlisted_no_backend t a Ht Hnew) as Hnb.
  destruct Ht as [Hn Hmi Hl Hw Hrf Hav Hreg].
  assert (Hnowo : count_wo (replicas t) = 0%nat).
  { rewrite Er. apply count_wo_vacated; [exact (st_nodup s H)|exact (st_wo s H)]. }
  assert (Hroom : (length (replicas t) < rf t)%nat).
  { rewrite Er, Ef. eapply Nat.le_lt_trans; [apply length_vacated|exact Hlt]. }
  assert (Hnin : ~ In a (keys (replicas t))) by (intro Hin; apply has_replica_listed in Hin; congruence).
  unfold append. cbn [backends upd_replicas]. rewrite Hnb.
  constructor; cbn [replicas backends rf avail registered upd_mon upd_backends upd_replicas].
  - unfold keys. rewrite map_app. apply nodup_snoc; assumption.
  - unfold proj. rewrite map_app. cbn. f_equal. exact Hmi.
  - rewrite app_length, Nat.add_1_r. exact Hroom.
  - rewrite count_wo_app, Hnowo. apply Nat.le_refl.
  - exact Hrf.
  - reflexivity.
  - exact Hreg.
Qed.

Lemma struct_qop : forall e s t, qop e s t -> struct_ok s -> struct_ok t.
Proof.
  intros e s t Q H.
  destruct Q as [s t M|s a g _|s a src _ _|s a m Hm|s fs a|s|s Hr|s i a fs _ _|s i a fs _ _|s t _ R].
  - exact (sst_struct _ _ (sst_meta _ _ M) H).
  - exact (sst_struct _ _ (sst_upd_rep s a g) H).
  - exact (sst_struct _ _ (sst_upd_rep s a _) H).
  - apply struct_set_mode; [exact (mode_guard e s a m Hm)|exact H].
  - apply struct_remove_replica. exact H.
  - eapply sst_struct; [|exact H]. repeat split.
  - constructor; cbn; [constructor|reflexivity|apply Nat.le_0_l|apply Nat.le_0_l|exact (st_rf s H)|reflexivity|exact (st_reg s H)].
  - exact (sst_struct _ _ (sst_upd_mon s _ _) H).
  - exact (sst_struct _ _ (sst_upd_mon s _ _) H).
  - destruct R as (R' & M' & G & -> & N). destruct H as [Hn Hmi Hl Hw Hrf Hav Hreg]. constructor; try assumption. exact (N Hreg).
Qed.

(** well-formed requests: a start names at most one replica (what jiva replicas send) *)
Definition ev_wf (e : event) : bool :=
  match e with Start l _ => Nat.leb (length l) 1 | _ => true end.

Lemma room_lt : forall e s, ev_wf e = true -> struct_ok s -> room e s -> (length (replicas s) < rf s)%nat.
Proof.
  intros e s Hwf H Hroom.
  assert (G : Nat.eqb (rf s) (length (replicas s)) = false -> (length (replicas s) < rf s)%nat).
  { intros E. apply Nat.eqb_neq in E. pose proof (st_len s H). lia. }
  destruct e; try exact (G Hroom).
  cbn in Hwf, Hroom. apply Nat.leb_le in Hwf. rewrite (Hroom Hwf). exact (st_rf s H).
Qed.

Lemma struct_op : forall e s t, ev_wf e = true -> op e s t -> struct_ok s -> struct_ok t.
Proof.
  intros e s t Hwf O H. destruct O as [s t Q|s t a Q Hroom Hrf Hrep Hnew _]; [exact (struct_qop e s t Q H)|].
  apply (struct_append s); [exact H|exact (room_lt e s Hwf H Hroom)| |exact Hrf|exact Hrep|exact Hnew].
  apply (quiet_inv e struct_ok (struct_qop e) _ _ Q). apply (struct_qop e s _ (q_bump e s) H).
Qed.

Theorem struct_step : forall s e, struct_ok s -> ev_wf e = true -> struct_ok (fst (fst (step s e))).
Proof. intros s e H Hwf. exact (ops_inv e struct_ok (fun x y => struct_op e x y Hwf) struct_refresh s H). Qed.

Lemma struct_init : forall rf0 w0, (1 <= rf0)%nat -> struct_ok (init rf0 w0).
Proof. intros rf0 w0 H. constructor; cbn; [constructor|reflexivity|lia|lia|exact H|reflexivity|constructor]. Qed.

Theorem struct_reachable : forall es rf0 w0, (1 <= rf0)%nat -> forallb ev_wf es = true ->
  struct_ok (run (init rf0 w0) es).
Proof.
  intros es rf0 w0 H Hwf.
  apply (run_inv struct_ok (fun e => ev_wf e = true)); [intros s e He Hs; apply struct_step; assumption| |apply struct_init; exact H].
  apply forallb_forall. exact Hwf.
Qed.
