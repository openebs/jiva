(** * Ctl: what the oracle proofs share: observations read back on the state they were taken in, and the shape of
    every rule [cNN_step_model]: the oracle's step accepts any [prev] taken in [s] ([obs_of n s prev]), the request
    and [obs_after n s e] (a pair rule: [pair_obs] of OracleProofsX.v) *)
From Coq Require Import List ZArith Bool Arith Lia Permutation.
From Jiva Require Import Ctl.Model Ctl.Corr Ctl.Oracles Ctl.Proofs Ctl.Props.
Import ListNotations.
Open Scope Z_scope.

Lemma lnat_eqb_refl : forall l, lnat_eqb l l = true.
Proof. induction l; cbn; [reflexivity|rewrite Nat.eqb_refl; assumption]. Qed.
Lemma onat_eqb_refl : forall o, onat_eqb o o = true.
Proof. intros [x|]; cbn; [apply Nat.eqb_refl|reflexivity]. Qed.
Lemma rmode_eqb_refl : forall m, rmode_eqb m m = true.
Proof. destruct m; reflexivity. Qed.
Lemma lrep_eqb_refl : forall l, lrep_eqb l l = true.
Proof. induction l as [|[a m] t IH]; cbn; [reflexivity|]. rewrite Nat.eqb_refl, IH. destruct m; reflexivity. Qed.

Lemma rep_diff_refl : forall k p, rep_diff k p p = 0%nat.
Proof.
  intros k p. unfold rep_diff.
  rewrite Bool.eqb_reflx, rmode_eqb_refl, !lnat_eqb_refl, !Z.eqb_refl, onat_eqb_refl. cbn.
  destruct k; reflexivity.
Qed.

Lemma rep_of_observe : forall n s r e a, (a < n)%nat ->
  rep_of (observe n s r e) a = Some (observe_rep (wget (w s) a)).
Proof.
  intros. unfold rep_of, observe. cbn [o_reps]. rewrite nth_error_map_seq by assumption. reflexivity.
Qed.

Lemma rep_of_observe_ge : forall n s r e a, (n <= a)%nat -> rep_of (observe n s r e) a = None.
Proof.
  intros n s r e a H. unfold rep_of, observe. cbn [o_reps]. apply nth_error_None.
  rewrite map_length, seq_length. exact H.
Qed.

Lemma rep_of_with_res1 : forall o r a, rep_of (with_res1 o r) a = rep_of o a.
Proof. reflexivity. Qed.

Lemma applied_of_observe : forall n s r e a, (a < n)%nat ->
  applied_of (observe n s r e) a = f_applied (wget (w s) a).
Proof.
  intros. pose proof (rep_of_observe n s r e a H) as R. unfold rep_of in R. unfold applied_of. rewrite R. reflexivity.
Qed.

Lemma chain_of_observe : forall n s r e a, (a < n)%nat -> chain_of (observe n s r e) a = f_chain (wget (w s) a).
Proof. intros. unfold chain_of. rewrite rep_of_observe by assumption. reflexivity. Qed.

Lemma length_reps_observe : forall n s r e, length (o_reps (observe n s r e)) = n.
Proof. intros. unfold observe. cbn [o_reps]. rewrite map_length, seq_length. reflexivity. Qed.

Lemma holds_observe : forall n s r e a wid, (a < n)%nat ->
  holds (observe n s r e) a wid = true <-> In wid (f_applied (wget (w s) a)).
Proof. intros. unfold holds. rewrite applied_of_observe by assumption. apply mem_in. Qed.

Lemma perm_sort : forall l, Permutation (sort l) l.
Proof.
  assert (I : forall y l, Permutation (insert y l) (y :: l)).
  { intros y. induction l as [|h t IH]; cbn; [apply Permutation_refl|]. destruct (Nat.leb y h); [apply Permutation_refl|].
    eapply perm_trans; [apply perm_skip; exact IH|apply perm_swap]. }
  induction l as [|h t IH]; [apply perm_nil|].
  change (sort (h :: t)) with (insert h (sort t)). eapply perm_trans; [apply I|apply perm_skip; exact IH].
Qed.

Lemma in_sort : forall x l, In x (sort l) <-> In x l.
Proof. intros x l. split; apply Permutation_in; [|apply Permutation_sym]; apply perm_sort. Qed.

Lemma length_sort : forall l, length (sort l) = length l.
Proof. intros l. apply Permutation_length. apply perm_sort. Qed.

Lemma in_insert2 : forall x y l, In x (insert2 y l) -> x = y \/ In x l.
Proof.
  intros x y. induction l as [|h t IH]; cbn.
  - intros [H|[]]. left. symmetry. exact H.
  - destruct (_ || _); cbn.
    + intros [H|H]; [left; symmetry; exact H|right; exact H].
    + intros [H|H]; [right; left; exact H|]. destruct (IH H) as [G|G]; [left; exact G|right; right; exact G].
Qed.

Lemma in_sort2 : forall x l, In x (sort2 l) -> In x l.
Proof.
  intros x. induction l as [|h t IH]; [auto|].
  change (sort2 (h :: t)) with (insert2 h (sort2 t)). cbn [In].
  intros H. apply in_insert2 in H. destruct H as [H|H]; [left; symmetry; exact H|right; apply IH; exact H].
Qed.

Lemma is_ack_observe : forall n s r e, is_ack (observe n s r e) = res_eqb (res_class r) ROk.
Proof. reflexivity. Qed.

Lemma res_class_ok : forall r, res_eqb (res_class r) ROk = true -> r = ROk.
Proof. intros r H. destruct r; cbn in H; try discriminate. reflexivity. Qed.

Lemma not_ack : forall n s r e, r <> ROk -> negb (is_ack (observe n s r e)) = true.
Proof. intros n s r e H. rewrite is_ack_observe. destruct r; cbn; try reflexivity. contradiction. Qed.

Lemma same_reps_eq : forall n s t r1 e1 r1' r2 e2 a,
  wget (w t) a = wget (w s) a ->
  same_reps (with_res1 (observe n s r1 e1) r1') (observe n t r2 e2) a = true.
Proof.
  intros n s t r1 e1 r1' r2 e2 a Hw. unfold same_reps. rewrite rep_of_with_res1.
  destruct (Nat.ltb a n) eqn:E.
  - apply Nat.ltb_lt in E. rewrite !rep_of_observe by exact E. rewrite Hw, rep_diff_refl. reflexivity.
  - apply Nat.ltb_ge in E. rewrite !rep_of_observe_ge by exact E. reflexivity.
Qed.

Lemma untouched_same_state : forall n s r1 e1 r1' r2 e2,
  untouched (with_res1 (observe n s r1 e1) r1') (observe n s r2 e2) = true.
Proof. intros. unfold untouched. apply forallb_forall. intros a _. apply same_reps_eq. reflexivity. Qed.

Lemma untouched_same_world : forall n s r1 e1 r2 e2,
  untouched (observe n s r1 e1) (observe n s r2 e2) = true.
Proof. intros. exact (untouched_same_state n s r1 e1 None r2 e2). Qed.

Definition obs_after (n : nat) (s : cst) (e : event) : obs :=
  observe n (fst (fst (step s e))) (snd (fst (step s e))) (snd (step s e)).

(** the oracles read the previous observation only through the state it was taken in *)
Inductive obs_of (n : nat) (s : cst) : obs -> Prop :=
| obs_of_intro : forall r ef r1, obs_of n s (with_res1 (observe n s r ef) r1).

(** ** the frame of a request that calls replicas *)
Definition fr (P : addr -> Prop) (s t : cst) : Prop :=
  (forall x, In x (writers t) -> In x (writers s))
  /\ (forall x, ~ P x -> wget (w t) x = wget (w s) x).
(** the writers lie inside [P]: needed because a checkpoint update writes to the RW backends, which are writers *)
Definition wsub (P : addr -> Prop) (s : cst) : Prop := forall x, In x (writers s) -> P x.

Lemma fr_refl : forall P s, fr P s s.
Proof. intros; split; auto. Qed.
Lemma fr_trans : forall P a b c, fr P a b -> fr P b c -> fr P a c.
Proof.
  intros P a b c [H1 H2] [G1 G2]. split.
  - intros x Hx. apply H1. apply G1. exact Hx.
  - intros x Hx. rewrite G2 by exact Hx. apply H2. exact Hx.
Qed.
Lemma fr_wsub : forall P s t, fr P s t -> wsub P s -> wsub P t.
Proof. intros P s t [H1 _] Hs x Hx. apply Hs. apply H1. exact Hx. Qed.

Lemma fr_same : forall P s t, backends t = backends s -> w t = w s -> fr P s t.
Proof. intros P s t Hb Hw. unfold fr, writers. rewrite Hb, Hw. split; auto. Qed.

Lemma fr_upd_rep : forall (P : addr -> Prop) s a g, P a -> fr P s (upd_rep s a g).
Proof.
  intros P s a g Ha. split; [intros x Hx; exact Hx|].
  intros x Hx. rewrite wget_upd_rep.
  destruct (Nat.eqb a x) eqn:E; [|reflexivity]. apply Nat.eqb_eq in E. subst. contradiction.
Qed.

Definition nonerr (p : addr * (mode * nat)) : bool := negb (mode_eqb (fst (snd p)) ERR).

Lemma writers_aset_err : forall b a i x,
  In x (map fst (filter nonerr (aset b a (ERR, i)))) -> In x (map fst (filter nonerr b)).
Proof.
  induction b as [|[k [m j]] t IH]; intros a i x H; cbn in *; [exact H|].
  destruct (Nat.eqb k a).
  - cbn in H. unfold nonerr at 1 in H. cbn in H.
    unfold nonerr at 1. cbn. destruct (negb (mode_eqb m ERR)); [right; exact H|exact H].
  - cbn in H. unfold nonerr at 1 in H. cbn in H. unfold nonerr at 1. cbn.
    destruct (negb (mode_eqb m ERR)); cbn in *.
    + destruct H as [H|H]; [left; exact H|right; eapply IH; exact H].
    + eapply IH; exact H.
Qed.

Lemma writers_adel : forall b a x,
  In x (map fst (filter nonerr (adel b a))) -> In x (map fst (filter nonerr b)).
Proof.
  intros b a x H. apply in_map_iff in H. destruct H as [p [Hp Hin]]. apply filter_In in Hin. destruct Hin as [Hin Hf].
  apply in_map_iff. exists p. split; [exact Hp|]. apply filter_In. split; [eapply in_adel; exact Hin|exact Hf].
Qed.

Lemma writers_nonerr : forall s, writers s = map fst (filter nonerr (backends s)).
Proof. reflexivity. Qed.

Lemma fr_set_mode_err : forall P s a, fr P s (set_mode_nolock s a ERR).
Proof.
  intros P s a. split; [|intros x _; rewrite w_set_mode; reflexivity].
  intros x. rewrite !writers_nonerr. unfold set_mode_nolock. cbn [backends update_vol_status upd_status].
  destruct (aget (replicas s) a) as [[]|]; try (intros H; exact H);
    unfold backend_set_mode; cbn [backends upd_replicas];
    (destruct (aget (backends s) a) as [[mb ib]|]; [|intros H; exact H]);
    cbn [mode_eqb]; rewrite stop_monitoring_shape; cbn [backends upd_backends upd_mon]; apply writers_aset_err.
Qed.

Lemma fr_handle_error : forall P errs s, fr P s (fst (handle_error_nolock s errs)).
Proof.
  intros P errs s. apply (handle_error_ind (fr P s)); [apply fr_refl|].
  intros t a _ Ht. eapply fr_trans; [exact Ht|apply fr_set_mode_err].
Qed.

Lemma fr_set_checkpoint : forall P s fs n, wsub P s -> fr P s (fst (set_checkpoint s fs n)).
Proof.
  intros P s fs n Hs. split; [unfold set_checkpoint; destruct (all_rw_backends s); intros x Hx; exact Hx|].
  intros x Hx. rewrite w_set_checkpoint. destruct (existsb _ (backends s)) eqn:E; [|reflexivity].
  apply existsb_exists in E. destruct E as [p [Hin Hp]]. apply andb_prop in Hp. destruct Hp as [Hsel Hk].
  apply Nat.eqb_eq in Hk. subst x. destruct Hx. apply Hs, readers_writers. apply in_map, filter_In.
  split; [exact Hin|exact (cp_sel_rw s fs p Hin Hsel)].
Qed.

Lemma fr_update_checkpoint : forall P s fs, wsub P s -> fr P s (update_checkpoint s fs).
Proof.
  intros P s fs Hs. unfold update_checkpoint.
  destruct (Nat.eqb (count_rw (replicas s)) (rf s)); [|apply fr_same; reflexivity].
  destruct (get_latest_snapshot s fs) as [n|]; [|apply fr_same; reflexivity].
  pose proof (fr_set_checkpoint P s fs n Hs) as H.
  destruct (set_checkpoint s fs n) as [s1 ok]. cbn [fst] in H.
  eapply fr_trans; [exact H|apply fr_same; reflexivity].
Qed.

Lemma fr_remove_backend : forall (P : addr -> Prop) s a, P a -> fr P s (remove_backend s a).
Proof.
  intros P s a Ha. unfold remove_backend.
  destruct (aget (backends s) a) as [[mb ib]|]; [|apply fr_refl]. rewrite stop_monitoring_shape.
  split.
  - intros x. rewrite !writers_nonerr. cbn [backends upd_backends upd_rep upd_w upd_mon]. apply writers_adel.
  - intros x Hx. cbn [w upd_backends upd_rep upd_w upd_mon]. rewrite wget_wset.
    destruct (Nat.eqb a x) eqn:E; [|reflexivity]. apply Nat.eqb_eq in E. subst. contradiction.
Qed.

Lemma fr_remove_replica : forall (P : addr -> Prop) s fs a, P a -> wsub P s -> fr P s (remove_replica_nolock s fs a).
Proof.
  intros P s fs a Ha Hs. unfold remove_replica_nolock.
  destruct (negb (has_replica s a)); [apply fr_refl|].
  assert (V : forall u, fr P u (update_vol_status u)) by (intros u; apply fr_same; reflexivity).
  match goal with |- fr P s (update_checkpoint (update_vol_status (remove_backend ?s3 a)) fs) =>
    assert (H3 : fr P s s3) by (apply fr_same; cbn; destruct (Nat.eqb (length (replicas s)) 1 && fe_up s); reflexivity);
    assert (H4 : fr P s (update_vol_status (remove_backend s3 a)))
      by (eapply fr_trans; [exact H3|]; eapply fr_trans; [apply fr_remove_backend; exact Ha|apply V])
  end.
  eapply fr_trans; [exact H4|]. apply fr_update_checkpoint. eapply fr_wsub; eauto.
Qed.

Lemma fr_remove_all : forall (P : addr -> Prop) errs s fs, (forall a, In a errs -> P a) -> wsub P s ->
  fr P s (remove_all s fs errs).
Proof.
  intros P errs s fs He Hs. apply (remove_all_ind (fr P s)); [apply fr_refl|].
  intros t a Ha Ht. eapply fr_trans; [exact Ht|]. apply fr_remove_replica; [apply He; exact Ha|exact (fr_wsub P s t Ht Hs)].
Qed.

Lemma fr_fan : forall (P : addr -> Prop) g h ws s, (forall a, In a ws -> P a) -> fr P s (fan g h ws s).
Proof.
  intros P g h ws s Hw. unfold fan. apply (fold_left_inv (fr P s)); [apply fr_refl|].
  intros t x Hx Ht. eapply fr_trans; [exact Ht|]. destruct (g x); [apply fr_refl|apply fr_upd_rep; apply Hw; exact Hx].
Qed.

(** the replicas a call removes are among those it marked ERR, which were writers when it began *)
Theorem call_frame : forall s e x, calls e -> ~ In x (writers s) ->
  wget (w (fst (fst (step s e)))) x = wget (w s) x.
Proof.
  intros s e x He Hx. set (P := fun y => In y (writers s)).
  assert (G : fr P s (fst (fst (step s e)))); [|exact (proj2 G x Hx)].
  destruct (call_cases s e He) as [E|[g [h [errs [_ [Hi E]]]]]]; [rewrite E; apply fr_refl|]. cbv zeta in E.
  assert (H2 : fr P s (fst (handle_error_nolock (fan g h (writers s) s) errs))).
  { eapply fr_trans; [apply fr_fan; intros a Ha; exact Ha|apply fr_handle_error]. }
  destruct E as [E|[[fs' E]|[sz E]]]; rewrite E.
  - exact H2.
  - eapply fr_trans; [exact H2|]. apply fr_remove_all; [exact Hi|]. apply (fr_wsub P s); [exact H2|intros y Hy; exact Hy].
  - eapply fr_trans; [exact H2|apply fr_same; reflexivity].
Qed.

Lemma c03_step_model : forall rf0 n s e prev,
  status_ok s -> rf s = rf0 -> obs_of n s prev ->
  c03_step rf0 prev e
           (obs_after n s e) = true.
Proof.
  intros rf0 n s e prev Hst Hrf [r0 ef0 r0']. unfold obs_after.
  pose proof (status_step s e Hst) as [Hc1 Hr1].
  pose proof (rf_step s e) as Hrf1.
  unfold c03_step. cbn [o_ro o_rwc o_replicas observe with_res1].
  unfold quorum_ok. rewrite Hr1, Hc1, Hrf1, Hrf. rewrite Bool.eqb_reflx, Nat.eqb_refl. cbn [andb].
  destruct (is_io e) eqn:Eio; [|reflexivity].
  destruct (Nat.leb (quorum rf0) (count_rw (replicas s))) eqn:Eq; [reflexivity|].
  assert (Hm : is_mut_io e = true) by (destruct e; cbn in *; congruence).
  rewrite (gate_refuses s e Hst Hm) by (apply Nat.leb_gt in Eq; rewrite Hrf; exact Eq).
  cbn [fst snd]. rewrite is_ack_observe. cbn [res_class res_eqb negb andb].
  rewrite untouched_same_state. cbn [andb o_replicas with_res1 observe]. apply lrep_eqb_refl.
Qed.
