(** * Ctl: what one step does, under the structural invariant: first what every property uses, then one part per
    property with the theorems its file in Properties/ quotes *)
From Coq Require Import List ZArith Bool Arith Lia.
From Jiva Require Import Ctl.Model Ctl.Corr Ctl.Oracles Ctl.Proofs.
Import ListNotations.
Open Scope Z_scope.

(** ** the replica list in the oracles' words ([in_service], [rw_of], [is_mode]) against the model's ([writers],
    [readers], [aget]) *)

Lemma mem_in : forall a l, mem a l = true <-> In a l.
Proof.
  intros. unfold mem. rewrite existsb_exists. split.
  - intros [x [Hx He]]. apply Nat.eqb_eq in He. subst. exact Hx.
  - intros H. exists a. split; [exact H|apply Nat.eqb_refl].
Qed.

Lemma mem_false : forall a l, mem a l = false <-> ~ In a l.
Proof.
  intros. split.
  - intros H Hin. apply mem_in in Hin. congruence.
  - intros H. destruct (mem a l) eqn:E; [|reflexivity]. apply mem_in in E. contradiction.
Qed.

Lemma nodupb_NoDup : forall l, nodupb l = true <-> NoDup l.
Proof.
  induction l as [|h t IH]; cbn [nodupb]; [split; [constructor|reflexivity]|].
  rewrite andb_true_iff, negb_true_iff, NoDup_cons_iff, IH. exact (and_iff_compat_r _ (mem_false h t)).
Qed.

Lemma in_service_in : forall l a, In a (in_service l) <-> exists m, In (a, m) l /\ m <> ERR.
Proof.
  intros l a. unfold in_service. rewrite in_map_iff. split.
  - intros [[k m] [Hk Hin]]. cbn in Hk. subst k. apply filter_In in Hin. destruct Hin as [Hin Hm].
    exists m. split; [exact Hin|]. intro E. subst m. cbn in Hm. discriminate.
  - intros [m [Hin Hm]]. exists (a, m). split; [reflexivity|]. apply filter_In. split; [exact Hin|].
    cbn. destruct m; try reflexivity. contradiction.
Qed.

Lemma rw_of_in : forall l a, In a (rw_of l) <-> In (a, RW) l.
Proof.
  intros l a. unfold rw_of. rewrite in_map_iff. split.
  - intros [[k m] [Hk Hin]]. cbn in Hk. subst k. apply filter_In in Hin. destruct Hin as [Hin Hm].
    cbn in Hm. destruct m; try discriminate. exact Hin.
  - intros Hin. exists (a, RW). split; [reflexivity|]. apply filter_In. split; [exact Hin|reflexivity].
Qed.

Lemma rw_in_service : forall l a, In a (rw_of l) -> In a (in_service l).
Proof. intros l a H. apply rw_of_in in H. apply in_service_in. exists RW. split; [exact H|discriminate]. Qed.

Lemma in_service_keys : forall l a, In a (in_service l) -> In a (keys l).
Proof. intros l a H. apply in_service_in in H. destruct H as [m [H _]]. eapply in_keys. exact H. Qed.

Lemma filter_proj : forall (f : mode -> bool) b,
  map fst (filter (fun p => f (fst (snd p))) b) = map fst (filter (fun p => f (snd p)) (proj b)).
Proof.
  intros f. unfold proj. induction b as [|[k [m i]] t IH]; cbn; [reflexivity|]. destruct (f m); cbn; rewrite IH; reflexivity.
Qed.

Lemma writers_in_service : forall s, struct_ok s -> writers s = in_service (replicas s).
Proof. intros s H. rewrite <- (st_mirror s H). exact (filter_proj (fun m => negb (mode_eqb m ERR)) (backends s)). Qed.

Lemma readers_rw_of : forall s, struct_ok s -> readers s = rw_of (replicas s).
Proof. intros s H. rewrite <- (st_mirror s H). exact (filter_proj is_rw (backends s)). Qed.

Lemma avail_iff_rw : forall s, struct_ok s -> (avail s = true <-> exists x, In x (rw_of (replicas s))).
Proof.
  intros s H. rewrite (st_avail s H), <- (readers_rw_of s H), existsb_exists. unfold readers. split.
  - intros [p [Hin Hp]]. exists (fst p). apply in_map. apply filter_In. split; assumption.
  - intros [x Hx]. apply in_map_iff in Hx. destruct Hx as [p [_ Hp]]. apply filter_In in Hp. exists p. exact Hp.
Qed.

Lemma writers_nodup : forall s, struct_ok s -> NoDup (writers s).
Proof. intros s H. rewrite (writers_in_service s H). exact (nodup_filter_keys _ _ (st_nodup s H)). Qed.

Lemma rw_aget : forall s a, struct_ok s -> In a (rw_of (replicas s)) -> aget (replicas s) a = Some RW.
Proof.
  intros s a H Hin. apply rw_of_in in Hin. apply aget_in_nodup; [exact (st_nodup s H)|exact Hin].
Qed.

Lemma mode_eqb_eq : forall a b, mode_eqb a b = true -> a = b.
Proof. intros [] []; cbn; intros H; try discriminate; reflexivity. Qed.

Lemma is_mode_in : forall l a m, is_mode l a m = true -> In (a, m) l.
Proof.
  intros l a m H. unfold is_mode in H. apply existsb_exists in H. destruct H as [[k v] [Hin Hk]].
  cbn in Hk. apply andb_prop in Hk. destruct Hk as [K1 K2]. apply Nat.eqb_eq in K1. apply mode_eqb_eq in K2.
  subst. exact Hin.
Qed.

Lemma count_rw_le_length : forall l, (count_rw l <= length l)%nat.
Proof. intros. unfold count_rw. apply filter_length_le. Qed.

Lemma count_rw_length : forall l, count_rw l = length (rw_of l).
Proof. intros. unfold count_rw, rw_of. rewrite map_length. reflexivity. Qed.

Lemma count_rw_pos : forall l, (0 < count_rw l)%nat <-> exists a, In (a, RW) l.
Proof.
  intros l. rewrite count_rw_length. split.
  - destruct (rw_of l) as [|a t] eqn:E; [intros H; inversion H|]. intros _. exists a. apply rw_of_in. rewrite E. left. reflexivity.
  - intros [a H]. apply rw_of_in in H. destruct (rw_of l); [contradiction|apply Nat.lt_0_succ].
Qed.

Lemma count_rw_all : forall l, (forall a m, In (a, m) l -> m = RW) -> count_rw l = length l.
Proof.
  unfold count_rw. induction l as [|[a m] t IH]; intros Hall; cbn; [reflexivity|].
  rewrite (Hall a m (or_introl eq_refl)). cbn. f_equal. apply IH. intros x mx Hx. eapply Hall. right. exact Hx.
Qed.

Lemma count_rw_full : forall l, count_rw l = length l -> forall a m, In (a, m) l -> m = RW.
Proof.
  unfold count_rw. induction l as [|[k v] t IH]; intros Hc a m Hin; [contradiction|].
  cbn in Hc. pose proof (filter_length_le (fun p : addr * mode => is_rw (snd p)) t) as Hle.
  destruct (is_rw v) eqn:Ev; cbn in Hc.
  - destruct Hin as [Hin|Hin]; [inversion Hin; subst; destruct m; try discriminate; reflexivity|].
    apply (IH (eq_add_S _ _ Hc) a m Hin).
  - exfalso. rewrite Hc in Hle. exact (Nat.nle_succ_diag_l _ Hle).
Qed.

Lemma nodup_rw_of : forall l, NoDup (keys l) -> NoDup (rw_of l).
Proof. intros l H. unfold rw_of. apply (nodup_filter_keys (fun p => is_rw (snd p)) l H). Qed.

Lemma quorum_rw_exists : forall rf0 l, quorum_ok rf0 l = true -> exists x, In x (rw_of l).
Proof.
  intros rf0 l H. unfold quorum_ok in H. apply Nat.leb_le in H.
  assert (P : (0 < count_rw l)%nat) by (unfold quorum in H; lia).
  apply count_rw_pos in P. destruct P as [x Hx]. exists x. apply rw_of_in. exact Hx.
Qed.

Lemma quorum_not_ro : forall s rf0, status_ok s -> rf s = rf0 -> quorum_ok rf0 (replicas s) = true -> ro s = false.
Proof. intros s rf0 [_ Hr] Hrf Hq. rewrite Hr, Hrf. unfold quorum_ok in Hq. rewrite Hq. reflexivity. Qed.

Lemma rw_reached : forall rf0 s e x, status_ok s -> struct_ok s -> rf s = rf0 ->
  quorum_ok rf0 (replicas s) = true -> In x (rw_of (replicas s)) ->
  match e with Write _ off len _ => (0 <=? off) && (off + len <=? csize s) | _ => true end = true -> reached s e.
Proof.
  intros rf0 s e x Hst H Hrf Hq Hx Hr. split; [exact (quorum_not_ro s rf0 Hst Hrf Hq)|]. split; [exact (proj2 (avail_iff_rw s H) (ex_intro _ x Hx))|].
  destruct e; try exact I. apply andb_prop in Hr. destruct Hr as [Hr1 Hr2]. split; apply Z.leb_le; assumption.
Qed.

Lemma all_rw_writers : forall s x, struct_ok s -> count_rw (replicas s) = length (replicas s) ->
  In x (keys (replicas s)) -> In x (writers s).
Proof.
  intros s x H Hall Hx. rewrite (writers_in_service s H). apply rw_in_service. apply rw_of_in.
  apply keys_in in Hx. destruct Hx as [m Hm]. rewrite (count_rw_full _ Hall x m Hm) in Hm. exact Hm.
Qed.

Lemma full_rw_length : forall s, struct_ok s -> count_rw (replicas s) = rf s -> length (replicas s) = rf s.
Proof.
  intros s H E. pose proof (count_rw_le_length (replicas s)) as L. rewrite E in L. exact (Nat.le_antisymm _ _ (st_len s H) L).
Qed.

(** ** a mode change, and the marking of the replicas that failed a call *)

Lemma replicas_backend_set_mode : forall s a m, replicas (backend_set_mode s a m) = replicas s.
Proof.
  intros s a m. unfold backend_set_mode. destruct (aget (backends s) a) as [[mb ib]|]; [|reflexivity].
  destruct (mode_eqb m ERR); [|reflexivity]. rewrite stop_monitoring_shape. reflexivity.
Qed.

Lemma replicas_set_mode : forall s a m,
  replicas (set_mode_nolock s a m) = replicas s \/ replicas (set_mode_nolock s a m) = map (setm a m) (replicas s).
Proof.
  intros s a m. unfold set_mode_nolock. cbn [replicas update_vol_status upd_status].
  destruct (aget (replicas s) a) as [[]|]; try (left; reflexivity);
    right; rewrite replicas_backend_set_mode; reflexivity.
Qed.

Lemma keys_set_mode : forall s a m, keys (replicas (set_mode_nolock s a m)) = keys (replicas s).
Proof. intros. destruct (replicas_set_mode s a m) as [R|R]; rewrite R; [reflexivity|apply keys_setm]. Qed.

Lemma ck_set_mode : forall s a m, checkpoint (set_mode_nolock s a m) = checkpoint s.
Proof. intros s a m. destruct (set_mode_shape s a m) as (R & B & A & L & P & E). rewrite E. reflexivity. Qed.

Lemma aget_setm_other : forall l a m x, x <> a -> aget (map (setm a m) l) x = aget l x.
Proof.
  induction l as [|[k v] t IH]; intros a m x Hx; cbn; [reflexivity|].
  unfold setm at 1. cbn. destruct (Nat.eqb k a) eqn:E; cbn.
  - apply Nat.eqb_eq in E. subst k. destruct (Nat.eqb a x) eqn:E2; [apply Nat.eqb_eq in E2; subst; contradiction|apply IH; exact Hx].
  - destruct (Nat.eqb k x); [reflexivity|apply IH; exact Hx].
Qed.

Lemma aget_set_mode_other : forall s a m x, x <> a -> aget (replicas (set_mode_nolock s a m)) x = aget (replicas s) x.
Proof.
  intros s a m x Hx. destruct (replicas_set_mode s a m) as [R|R]; rewrite R; [reflexivity|].
  apply aget_setm_other. exact Hx.
Qed.

Lemma set_mode_keeps_err : forall s a m, aget (replicas s) a = Some ERR ->
  replicas (set_mode_nolock s a m) = replicas s.
Proof. intros s a m Hg. unfold set_mode_nolock. rewrite Hg. reflexivity. Qed.

Lemma set_mode_err_only_err : forall s a m, NoDup (keys (replicas s)) ->
  In (a, m) (replicas (set_mode_nolock s a ERR)) -> m = ERR.
Proof.
  intros s a m Hn Hin. unfold set_mode_nolock in Hin. cbn [replicas update_vol_status upd_status] in Hin.
  assert (M : In (a, m) (map (setm a ERR) (replicas s)) -> m = ERR).
  { intro Hm. apply in_map_iff in Hm. destruct Hm as [q [Hq _]]. unfold setm in Hq.
    destruct (Nat.eqb (fst q) a) eqn:E; [inversion Hq; reflexivity|].
    subst q. cbn in E. rewrite Nat.eqb_refl in E. discriminate. }
  destruct (aget (replicas s) a) as [[]|] eqn:Eg;
    try (rewrite replicas_backend_set_mode in Hin; cbn [replicas upd_replicas] in Hin; exact (M Hin));
    apply (aget_in_nodup _ _ _ Hn) in Hin; congruence.
Qed.

Lemma handle_error_keeps_others : forall errs s x, ~ In x errs ->
  aget (replicas (fst (handle_error_nolock s errs))) x = aget (replicas s) x.
Proof.
  intros errs s x Hn. apply (handle_error_ind (fun t => aget (replicas t) x = aget (replicas s) x)); [reflexivity|].
  intros t a Ha H. rewrite aget_set_mode_other; [exact H|]. intro E. subst. contradiction.
Qed.

Lemma suppressed_by_rw : forall s errs x, aget (replicas s) x = Some RW -> ~ In x errs -> errs <> [] ->
  snd (handle_error_nolock s errs) = true.
Proof.
  intros s errs x Hrw Hnx Hne.
  pose proof (handle_error_keeps_others errs s x Hnx) as K. rewrite Hrw in K.
  unfold handle_error_nolock in *. cbn [fst snd] in *.
  destruct errs as [|e es]; [contradiction|].
  apply Nat.ltb_lt. apply count_rw_pos. exists x. apply aget_in. exact K.
Qed.

Lemma w_handle_error : forall errs s, w (fst (handle_error_nolock s errs)) = w s.
Proof.
  intros errs s. apply (handle_error_ind (fun t => w t = w s)); [reflexivity|]. intros t a _ H. rewrite w_set_mode. exact H.
Qed.

Lemma keys_handle_error : forall errs s, keys (replicas (fst (handle_error_nolock s errs))) = keys (replicas s).
Proof.
  intros errs s. apply (handle_error_ind (fun t => keys (replicas t) = keys (replicas s))); [reflexivity|].
  intros t a _ Ht. rewrite keys_set_mode. exact Ht.
Qed.

Lemma csize_handle_error : forall errs s, csize (fst (handle_error_nolock s errs)) = csize s.
Proof.
  intros errs s. apply (handle_error_ind (fun t => csize t = csize s)); [reflexivity|].
  intros t a _ Ht. destruct (set_mode_shape t a ERR) as [R [B [A [L [P E]]]]]. rewrite E. exact Ht.
Qed.

(** ** what checkpoint updates and removals leave of a replica record *)

Definition cp_invariant {A} (g : frep -> A) : Prop :=
  forall f c k, g (f_set_cp f c k) = g f.

Lemma fold_world : forall (F : world -> addr * (mode * nat) -> world) (b : addr * (mode * nat) -> bool) (u : frep -> frep),
  (forall wacc p, F wacc p = if b p then wset wacc (fst p) (u (wget wacc (fst p))) else wacc) ->
  (forall f, u (u f) = u f) ->
  forall l w0 x, wget (fold_left F l w0) x
               = if existsb (fun p => b p && Nat.eqb (fst p) x) l then u (wget w0 x) else wget w0 x.
Proof.
  intros F b u HF Hu. induction l as [|p t IH]; intros w0 x; cbn [fold_left existsb]; [reflexivity|].
  rewrite IH, HF. destruct (b p); cbn [andb orb]; [|reflexivity]. rewrite wget_wset.
  destruct (Nat.eqb (fst p) x) eqn:E; cbn [orb]; [|reflexivity]. apply Nat.eqb_eq in E. subst x.
  rewrite Hu. destruct (existsb _ t); reflexivity.
Qed.

(** SetCheckpoint: with all backends RW, those that do not fail the call store [n]; otherwise the RW ones are
    left with a value that is not predicted *)
Definition cp_sel (s : cst) (fs : faults) (p : addr * (mode * nat)) : bool :=
  if all_rw_backends s then negb (flt fs (fst p) KSetCp) else is_rw (fst (snd p)).

Definition cp_upd (s : cst) (n : option nat) (f : frep) : frep :=
  if all_rw_backends s then f_set_cp f n true else f_set_cp f (f_cp f) false.

Lemma w_set_checkpoint : forall s fs n x,
  wget (w (fst (set_checkpoint s fs n))) x
  = if existsb (fun p => cp_sel s fs p && Nat.eqb (fst p) x) (backends s) then cp_upd s n (wget (w s) x) else wget (w s) x.
Proof.
  intros s fs n x. unfold set_checkpoint, cp_sel, cp_upd. destruct (all_rw_backends s); cbn [fst w upd_w];
    [apply (fold_world _ (fun p => negb (flt fs (fst p) KSetCp)) (fun f => f_set_cp f n true))
    |apply (fold_world _ (fun p => is_rw (fst (snd p))) (fun f => f_set_cp f (f_cp f) false))];
    try reflexivity; intros wacc p; destruct p as [k [m i]]; cbn [fst snd]; destruct (flt fs k KSetCp); destruct (is_rw m); reflexivity.
Qed.

Lemma cp_sel_rw : forall s fs p, In p (backends s) -> cp_sel s fs p = true -> is_rw (fst (snd p)) = true.
Proof.
  intros s fs p Hin. unfold cp_sel. destruct (all_rw_backends s) eqn:Ea; [intros _|auto].
  unfold all_rw_backends in Ea. rewrite forallb_forall in Ea. exact (Ea p Hin).
Qed.

Lemma set_checkpoint_keeps : forall {A} (g : frep -> A), cp_invariant g ->
  forall s fs n x, g (wget (w (fst (set_checkpoint s fs n))) x) = g (wget (w s) x).
Proof.
  intros A g Hg s fs n x. rewrite w_set_checkpoint. destruct (existsb _ (backends s)); [|reflexivity].
  unfold cp_upd. destruct (all_rw_backends s); apply Hg.
Qed.

Lemma update_checkpoint_keeps : forall {A} (g : frep -> A), cp_invariant g ->
  forall s fs x, g (wget (w (update_checkpoint s fs)) x) = g (wget (w s) x).
Proof.
  intros A g Hg s fs x. unfold update_checkpoint.
  destruct (Nat.eqb (count_rw (replicas s)) (rf s)); [|reflexivity].
  destruct (get_latest_snapshot s fs) as [n|]; [|reflexivity].
  pose proof (set_checkpoint_keeps g Hg s fs n x) as H.
  destruct (set_checkpoint s fs n) as [s1 ok]. exact H.
Qed.

Lemma cpi_rev : cp_invariant f_rev. Proof. intros f c k. reflexivity. Qed.
Lemma cpi_clone : cp_invariant f_clone. Proof. intros f c k. reflexivity. Qed.
Lemma cpi_chain : cp_invariant f_chain. Proof. intros f c k. reflexivity. Qed.
Lemma cpi_applied : cp_invariant f_applied. Proof. intros f c k. reflexivity. Qed.

Definition data_invariant {A} (g : frep -> A) : Prop :=
  cp_invariant g /\ (forall f b, g (f_set_open f b) = g f).

Lemma di_applied : data_invariant f_applied.
Proof. split; [exact cpi_applied|intros f b; reflexivity]. Qed.
Lemma di_clone : data_invariant f_clone.
Proof. split; [exact cpi_clone|intros f b; reflexivity]. Qed.
Lemma di_chain : data_invariant f_chain.
Proof. split; [exact cpi_chain|intros f b; reflexivity]. Qed.

Lemma keeps_remove_replica : forall {A} (g : frep -> A), data_invariant g ->
  forall s fs a x, g (wget (w (remove_replica_nolock s fs a)) x) = g (wget (w s) x).
Proof.
  intros A g [Hc Ho] s fs a x.
  apply (remove_ind (fun t => g (wget (w t) x) = g (wget (w s) x))); [reflexivity|intros _].
  rewrite (update_checkpoint_keeps g Hc).
  rewrite w_update_vol_status.
  assert (W0 : forall t, w (upd_replicas (upd_registered t (adel (registered t) a))
                               (adel (replicas (upd_registered t (adel (registered t) a))) a)) = w t) by reflexivity.
  (* the backend of [a], if there is one, is closed: [g] does not read the open flag *)
  assert (W : forall t, g (wget (w (remove_backend t a)) x) = g (wget (w t) x)).
  { intros t. unfold remove_backend. destruct (aget (backends t) a) as [[mb ib]|]; [|reflexivity].
    rewrite stop_monitoring_shape. cbn [w upd_backends upd_rep upd_w upd_mon]. rewrite wget_wset.
    destruct (Nat.eqb a x) eqn:Ex; [|reflexivity]. apply Nat.eqb_eq in Ex. subst. apply Ho. }
  unfold unlist. rewrite W, W0. destruct (Nat.eqb (length (replicas s)) 1 && fe_up s); reflexivity.
Qed.

Lemma keeps_remove_all : forall {A} (g : frep -> A), data_invariant g ->
  forall errs s fs x, g (wget (w (remove_all s fs errs)) x) = g (wget (w s) x).
Proof.
  intros A g Hg errs s fs x. apply (remove_all_ind (fun t => g (wget (w t) x) = g (wget (w s) x))); [reflexivity|].
  intros t y _ H. rewrite (keeps_remove_replica g Hg). exact H.
Qed.

(** ** a removal, and the reports that end in one *)

Lemma remove_replica_gone : forall s fs a, struct_ok s -> ~ In a (keys (replicas (remove_replica_nolock s fs a))).
Proof.
  intros s fs a H. destruct (has_replica s a) eqn:E.
  - destruct (remove_fields s fs a E) as [R _]. rewrite R. apply adel_not_in. exact (st_nodup s H).
  - rewrite remove_replica_absent by exact E. intro Hin. apply has_replica_listed in Hin. congruence.
Qed.

Lemma remove_replica_unregisters : forall s fs a, struct_ok s -> has_replica s a = true ->
  ~ In a (keys (registered (remove_replica_nolock s fs a))).
Proof.
  intros s fs a H Ha. destruct (remove_fields s fs a Ha) as [_ [_ [R _]]]. rewrite R. apply adel_not_in. exact (st_reg s H).
Qed.

Lemma reported_removed : forall s e, struct_ok s ->
  match e with
  | MonFire a fs | MonFail a fs | Remove a fs =>
      step s e = (s, RNone, noeff)
      \/ exists t, struct_ok t /\ keys (replicas t) = keys (replicas s) /\ checkpoint t = checkpoint s
                   /\ step s e = (remove_replica_nolock t fs a, ROk, noeff)
  | _ => True
  end.
Proof.
  intros s e H. destruct e; try exact I; cbn [step].
  - right. exists s. split; [exact H|repeat split].
  - unfold do_mon_fire. destruct (first_for (pend_mon s) (Nat.eqb a)) as [[i y]|]; [right|left; reflexivity].
    exists (upd_mon s (live_mon s) (adel (pend_mon s) i)).
    split; [eapply sst_struct; [apply sst_upd_mon|exact H]|repeat split].
  - unfold do_mon_fail. destruct (first_for (rev (live_mon s)) (Nat.eqb a)) as [[i y]|]; [right|left; reflexivity].
    exists (set_mode_nolock (upd_mon s (adel (live_mon s) i) (pend_mon s)) a ERR).
    split; [apply struct_set_mode; [discriminate|]; eapply sst_struct; [apply sst_upd_mon|exact H]|].
    split; [exact (keys_set_mode (upd_mon s (adel (live_mon s) i) (pend_mon s)) a ERR)|].
    split; [exact (ck_set_mode (upd_mon s (adel (live_mon s) i) (pend_mon s)) a ERR)|reflexivity].
Qed.

(** ** where an entry of the replica list comes from (C05, C07, C18, C19) *)

Definition entry_from (e : event) (s : cst) (x : addr) (m : mode) : Prop :=
  In (x, m) (replicas s)
  \/ ((In x (keys (replicas s)) \/ adds e x)
      /\ match m with ERR => may_fail e | RW => promotion e s x | WO => adds e x end).

Definition entries (e : event) (s t : cst) : Prop :=
  (forall a, f_clone (wget (w t) a) = f_clone (wget (w s) a))
  /\ forall x m, In (x, m) (replicas t) -> entry_from e s x m.

Lemma entries_refl : forall e s, entries e s s.
Proof. intros e s. split; [reflexivity|]. intros x m H. left. exact H. Qed.

Lemma entries_same : forall e s t, replicas t = replicas s -> (forall a, f_clone (wget (w t) a) = f_clone (wget (w s) a)) ->
  entries e s t.
Proof. intros e s t R C. split; [exact C|]. intros x m H. left. rewrite <- R. exact H. Qed.

Lemma entries_trans : forall e a b c, entries e a b -> entries e b c -> entries e a c.
Proof.
  intros e a b c [C1 P1] [C2 P2]. split; [intros z; rewrite C2; apply C1|].
  intros x m H. destruct (P2 x m H) as [K|[K1 K2]]; [exact (P1 x m K)|]. right. split.
  - destruct K1 as [K1|K1]; [|right; exact K1]. apply keys_in in K1. destruct K1 as [m' K1].
    destruct (P1 x m' K1) as [G|[G _]]; [left; eapply in_keys; exact G|exact G].
  - destruct m; try exact K2. destruct K2 as [K2 K3]. split; [exact K2|]. intros l fs E. rewrite <- C1. exact (K3 l fs E).
Qed.

Lemma entries_qop : forall e s t, qop e s t -> entries e s t.
Proof.
  intros e s t Q.
  destruct Q as [s t M|s a g Hg|s a src _ _|s a m Hm|s fs a|s|s Hr|s i a fs _ _|s i a fs _ _|s t _ R];
    try (apply entries_same; reflexivity).
  - destruct M; apply entries_same; reflexivity.
  - apply entries_same; [reflexivity|]. intros z. rewrite wget_upd_rep.
    destruct (Nat.eqb a z) eqn:E; [|reflexivity]. apply Nat.eqb_eq in E. subst z. destruct Hg; reflexivity.
  - apply entries_same; [reflexivity|]. intros z. rewrite wget_upd_rep.
    destruct (Nat.eqb a z) eqn:E; [|reflexivity]. apply Nat.eqb_eq in E. subst z. reflexivity.
  - split; [intros z; rewrite w_set_mode; reflexivity|]. intros x mx H.
    destruct (replicas_set_mode s a m) as [R|R]; rewrite R in H; [left; exact H|].
    apply in_setm in H. destruct H as [[Ex [Em Hk]]|H]; [|left; exact H]. subst x mx. right. split; [left; exact Hk|].
    destruct Hm as [[-> Hf]|[-> Hp]]; assumption.
  - split; [intros z; apply (keeps_remove_replica f_clone di_clone)|]. intros x m H. left.
    destruct (has_replica s a) eqn:E; [|rewrite remove_replica_absent in H; assumption].
    rewrite (proj1 (remove_fields s fs a E)) in H. eapply in_adel. exact H.
  - split; [reflexivity|]. intros x m [].
  - destruct R as (R' & M' & G & -> & _). apply entries_same; reflexivity.
Qed.

Lemma entries_quiet : forall e s t, quiet e s t -> entries e s t.
Proof. intros e s t H. induction H; [apply entries_qop; assumption|apply entries_refl|eapply entries_trans; eassumption]. Qed.

Theorem entries_step : forall s e, entries e s (fst (fst (step s e))).
Proof.
  intros s e. apply (ops_rel e (entries e) (entries_refl e) (entries_trans e) (entries_qop e)).
  - intros t a i Ha. split; [reflexivity|]. intros x m H.
    cbn [replicas append upd_mon upd_backends upd_replicas] in H. apply in_app_or in H.
    destruct H as [H|[H|[]]]; [left; exact H|]. inversion H; subst x m. right. split; [right; exact Ha|exact Ha].
  - intros t fs. apply entries_same; [exact (proj1 (sst_update_checkpoint (update_vol_status t) fs))|].
    intros z. exact (update_checkpoint_keeps f_clone cpi_clone (update_vol_status t) fs z).
Qed.

Lemma entry_listed : forall e s x m, entry_from e s x m -> In x (keys (replicas s)) \/ adds e x.
Proof. intros e s x m [H|[H _]]; [left; eapply in_keys; exact H|exact H]. Qed.

Lemma live_old : forall e s x m, entry_from e s x m -> (forall y, ~ adds e y) -> (forall y, ~ may_promote e y) -> m <> ERR ->
  In (x, m) (replicas s).
Proof.
  intros e s x m [H|[_ H]] Ha Hp Hm; [exact H|]. destruct m; [destruct (Ha x H)|destruct (Hp x (proj1 H))|contradiction].
Qed.

Lemma call_live : forall s e p, calls e -> In p (replicas (fst (fst (step s e)))) -> snd p <> ERR -> In p (replicas s).
Proof.
  intros s e [x m] He Hin Hm. apply (live_old e); [exact (proj2 (entries_step s e) x m Hin)| | |exact Hm];
    intros y F; destruct e; contradiction.
Qed.

Lemma in_replicas_handle_error : forall errs s p,
  In p (replicas (fst (handle_error_nolock s errs))) -> snd p <> ERR -> In p (replicas s).
Proof.
  intros errs s [x m] Hin Hm. apply (live_old (Sync [])); [|intros y []|intros y []|exact Hm].
  exact (proj2 (entries_quiet _ _ _ (quiet_handle_error (Sync []) errs s I)) x m Hin).
Qed.

Lemma handle_error_errs_err : forall errs s x m, NoDup (keys (replicas s)) -> In x errs ->
  In (x, m) (replicas (fst (handle_error_nolock s errs))) -> m = ERR.
Proof.
  induction errs as [|a t IH]; intros s x m H Hin Hm; [contradiction|].
  assert (Hs : NoDup (keys (replicas (set_mode_nolock s a ERR)))) by (rewrite keys_set_mode; exact H).
  change (fst (handle_error_nolock s (a :: t))) with (fst (handle_error_nolock (set_mode_nolock s a ERR) t)) in Hm.
  destruct (in_dec Nat.eq_dec x t) as [Ht|Ht]; [apply (IH _ x m Hs Ht Hm)|].
  destruct Hin as [E|Hi]; [subst a|contradiction].
  destruct m; try reflexivity; exfalso;
    (apply in_replicas_handle_error in Hm; [|discriminate]); pose proof (set_mode_err_only_err s x _ H Hm); discriminate.
Qed.

Lemma in_service_after_errors : forall errs s x, struct_ok s -> In x (in_service (replicas s)) ->
  (In x (in_service (replicas (fst (handle_error_nolock s errs)))) <-> ~ In x errs).
Proof.
  intros errs s x H Hx. split.
  - intros Hi He. apply in_service_in in Hi. destruct Hi as [m [Hi Hm]].
    apply Hm. eapply handle_error_errs_err; [exact (st_nodup s H)|eassumption|eassumption].
  - intros Hne. apply in_service_in in Hx. destruct Hx as [m [Hx Hm]].
    pose proof (aget_in_nodup _ _ _ (st_nodup s H) Hx) as G.
    rewrite <- (handle_error_keeps_others errs s x Hne) in G. apply aget_in in G.
    apply in_service_in. exists m. split; assumption.
Qed.

Lemma keys_step : forall s e x, In x (keys (replicas (fst (fst (step s e))))) -> In x (keys (replicas s)) \/ adds e x.
Proof.
  intros s e x H. apply keys_in in H. destruct H as [m H]. exact (entry_listed e s x m (proj2 (entries_step s e) x m H)).
Qed.

Lemma keys_quiet : forall e s t x, (forall y, ~ adds e y) -> quiet e s t -> In x (keys (replicas t)) -> In x (keys (replicas s)).
Proof.
  intros e s t x He Q H. apply keys_in in H. destruct H as [m H].
  destruct (entry_listed e s x m (proj2 (entries_quiet e s t Q) x m H)) as [G|G]; [exact G|destruct (He x G)].
Qed.

Theorem enter_only_by_add_or_start : forall s e x,
  In x (keys (replicas (fst (fst (step s e))))) -> ~ In x (keys (replicas s)) ->
  match e with AddCommit a _ => x = a | Start _ _ => replicas s = [] | _ => False end.
Proof.
  intros s e x Hin Hnot. destruct (keys_step s e x Hin) as [H|H]; [contradiction|].
  destruct e; try exact H.
  (* a start that finds replicas listed does nothing *)
  destruct (do_start_cases s addrs fs) as [E|(a0 & t & s1 & _ & Er & _)]; [|exact Er].
  exfalso. cbn [step] in Hin. rewrite E in Hin. exact (Hnot Hin).
Qed.

Lemma add_commit_new_is_wo : forall s a fs p,
  In p (replicas (fst (do_add_commit s a fs))) -> ~ In (fst p) (keys (replicas s)) -> p = (a, WO).
Proof.
  intros s a fs [x m] Hin Hnot. pose proof (proj2 (entries_step s (AddCommit a fs)) x m) as G. cbn [step] in G.
  rewrite fst_let_pair in G. destruct (G Hin) as [H|[[H|H] K]]; [destruct Hnot; eapply in_keys; exact H|destruct (Hnot H)|].
  cbn in H. subst x. destruct m; [reflexivity|destruct K as [[] _]|destruct K].
Qed.

Lemma remove_all_gone : forall errs s fs a, struct_ok s -> In a errs -> ~ In a (keys (replicas (remove_all s fs errs))).
Proof.
  unfold remove_all. induction errs as [|e t IH]; intros s fs a H Hin; [contradiction|].
  cbn. destruct Hin as [Hin|Hin].
  - subst. intro Hx. apply (keys_quiet (Sync []) _ _ a (fun y F => F) (quiet_remove_all _ t fs _)) in Hx.
    exact (remove_replica_gone s fs a H Hx).
  - apply IH; [apply struct_remove_replica; exact H|exact Hin].
Qed.

Lemma detach_gone : forall s fs errs a, struct_ok s -> In a errs -> ~ In a (keys (replicas (detach s fs errs))).
Proof. intros s fs errs a H Hin. unfold detach. apply remove_all_gone; [apply struct_handle_error; exact H|exact Hin]. Qed.

(** ** C01 / C16 (controller halves): range and size checks touch nothing *)

Lemma out_of_range : forall sz off len, (off < 0 \/ sz < off + len) -> (off <? 0) || (sz <? off + len) = true.
Proof. intros sz off len Hr. apply not_false_iff_true. rewrite in_range. lia. Qed.

Theorem write_out_of_range : forall s wid off len fs, ro s = false ->
  (off < 0 \/ csize s < off + len) -> do_write s wid off len fs = (s, RErr).
Proof.
  intros s wid off len fs Hro Hr. unfold do_write. rewrite Hro, (out_of_range _ _ _ Hr). reflexivity.
Qed.

Theorem read_out_of_range : forall s off len order fs,
  (off < 0 \/ csize s < off + len) -> do_read s off len order fs = (s, RErr, noeff).
Proof.
  intros s off len order fs Hr. unfold do_read. rewrite (out_of_range _ _ _ Hr). reflexivity.
Qed.

Theorem resize_not_growing_refused : forall s sz fs, sz <= csize s -> do_resize s sz fs = (s, RErr).
Proof.
  intros s sz fs H. unfold do_resize.
  destruct (sz <? csize s) eqn:E1; [reflexivity|].
  apply Z.ltb_ge in E1. assert (sz = csize s) by lia. subst. rewrite Z.eqb_refl. reflexivity.
Qed.

(** ** C02 / C05: write, sync and unmap: who is gone, when the request is acknowledged, who holds a write *)

Lemma struct_fan : forall g h ws s, struct_ok s -> struct_ok (fan g h ws s).
Proof. intros g h ws s H. eapply sst_struct; [apply sst_fan|exact H]. Qed.

Lemma io_fan_fields : forall s e, struct_ok s ->
  struct_ok (io_fan s e) /\ replicas (io_fan s e) = replicas s /\ avail (io_fan s e) = avail s.
Proof. intros s e H. destruct e; try (split; [exact H|split; reflexivity]). split; [apply struct_fan; exact H|split; apply sst_fan]. Qed.

(** replicas that applied the write: every writer that did not fail before applying it *)
Definition appliers (s : cst) (fs : faults) : list addr :=
  filter (fun a => negb (flt fs a KWrite)) (writers s).

Lemma writers_nonempty_of_avail : forall s, struct_ok s -> avail s = true -> (0 < length (writers s))%nat.
Proof.
  intros s H Hav. apply (avail_iff_rw s H) in Hav. destruct Hav as [x Hx]. apply rw_in_service in Hx.
  rewrite (writers_in_service s H). destruct (in_service (replicas s)); [contradiction|apply Nat.lt_0_succ].
Qed.

Lemma majority_ok_iff : forall nw nerr, majority_ok nw nerr = true <-> (nw < 2 * (nw - nerr))%nat.
Proof.
  intros nw nerr. unfold majority_ok. rewrite Nat.ltb_lt.
  pose proof (Nat.div_mod_eq nw 2) as Hd. pose proof (Nat.mod_upper_bound nw 2). lia.
Qed.

Lemma io_res_majority : forall s1 nw (errs : list addr),
  io_res s1 nw errs = ROk -> errs = [] \/ (nw < 2 * (nw - length errs))%nat.
Proof.
  intros s1 nw errs H. unfold io_res in H. destruct errs as [|e es]; [left; reflexivity|right].
  destruct (majority_ok nw (length (e :: es))) eqn:Em; [|discriminate]. apply majority_ok_iff. exact Em.
Qed.

Lemma io_res_ok : forall s1 nw (errs : list addr) (x : addr), aget (replicas s1) x = Some RW -> ~ In x errs ->
  (nw < 2 * (nw - length errs))%nat -> io_res s1 nw errs = ROk.
Proof.
  intros s1 nw errs x Hx Hn Hm. unfold io_res. destruct errs as [|e0 es]; [reflexivity|].
  rewrite (proj2 (majority_ok_iff _ _) Hm), (suppressed_by_rw s1 (e0 :: es) x Hx Hn) by discriminate. reflexivity.
Qed.

Theorem io_res_ok_iff : forall s1 nw (errs : list addr), struct_ok s1 -> avail s1 = true ->
  (io_res s1 nw errs = ROk <->
   (errs = [] \/ (nw < 2 * (nw - length errs))%nat) /\ exists x, In (x, RW) (replicas s1) /\ ~ In x errs).
Proof.
  intros s1 nw errs H Hav. split.
  - intros Hr. split; [exact (io_res_majority s1 nw errs Hr)|]. unfold io_res in Hr. destruct errs as [|e es].
    + destruct (proj1 (avail_iff_rw s1 H) Hav) as [x Hx]. exists x. split; [apply rw_of_in; exact Hx|intros []].
    + destruct (majority_ok nw (length (e :: es)) && snd (handle_error_nolock s1 (e :: es))) eqn:E; [|discriminate].
      apply andb_prop in E. destruct E as [_ E]. unfold handle_error_nolock in E. cbn [snd] in E.
      apply Nat.ltb_lt in E. apply count_rw_pos in E. destruct E as [x Hx].
      change (fold_left (fun acc a => set_mode_nolock acc a ERR) (e :: es) s1) with (fst (handle_error_nolock s1 (e :: es))) in Hx.
      exists x. split.
      * apply (in_replicas_handle_error (e :: es) s1 (x, RW)); [exact Hx|discriminate].
      * intro Hi. discriminate (handle_error_errs_err (e :: es) s1 x RW (st_nodup s1 H) Hi Hx).
  - intros [[->|Hm] [x [Hx Hn]]]; [reflexivity|].
    exact (io_res_ok s1 nw errs x (aget_in_nodup _ _ _ (st_nodup s1 H) Hx) Hn Hm).
Qed.

Lemma write_acked : forall s wid off len fs, snd (do_write s wid off len fs) = ROk ->
  reached s (Write wid off len fs)
  /\ io_res (fanout s wid fs) (length (writers s)) (io_failed s (Write wid off len fs)) = ROk.
Proof.
  intros s wid off len fs Hok. rewrite <- fst_step_write in Hok. pose proof (io_acked s (Write wid off len fs) eq_refl Hok) as R.
  split; [exact R|]. rewrite (io_step s (Write wid off len fs) eq_refl R) in Hok. exact Hok.
Qed.

Theorem write_ack_majority : forall s wid off len fs s',
  struct_ok s -> do_write s wid off len fs = (s', ROk) ->
  (length (writers s) < 2 * length (appliers s fs))%nat.
Proof.
  intros s wid off len fs s' H Hw. destruct (write_acked s wid off len fs) as [[_ [Hav _]] Hok]; [rewrite Hw; reflexivity|].
  pose proof (writers_nonempty_of_avail s H Hav) as Hne.
  pose proof (filter_split_length (fun a => flt fs a KWrite) (writers s)) as Hsp.
  assert (Hle : (length (filter (fun a => flt fs a KWrite) (writers s)) <= length (io_failed s (Write wid off len fs)))%nat).
  { apply filter_imp_length_in. intros x _ Hx. cbn [io_kind_fail]. rewrite Hx. reflexivity. }
  unfold appliers. destruct (io_res_majority _ _ _ Hok) as [E|Em]; [rewrite E in Hle; cbn [length] in Hle|]; lia.
Qed.

Theorem write_no_majority_fails : forall s wid off len fs,
  (2 * length (filter (fun a => negb (flt fs a KWrite || flt fs a KWriteAp)) (writers s)) <= length (writers s))%nat ->
  (0 < length (writers s))%nat ->
  snd (do_write s wid off len fs) <> ROk.
Proof.
  intros s wid off len fs Hm Hne Hok. destruct (write_acked s wid off len fs Hok) as [_ Hr].
  pose proof (filter_split_length (fun a => flt fs a KWrite || flt fs a KWriteAp) (writers s)) as Hsp.
  change (filter (fun a => flt fs a KWrite || flt fs a KWriteAp) (writers s)) with (io_failed s (Write wid off len fs)) in Hsp.
  destruct (io_res_majority _ _ _ Hr) as [E|Em]; [rewrite E in Hsp; cbn [length] in Hsp|]; lia.
Qed.

Lemma failed_gone : forall s e a, struct_ok s -> reached s e -> In a (in_service (replicas s)) ->
  io_kind_fail e a = true -> ~ In a (keys (replicas (fst (fst (step s e))))).
Proof.
  intros s e a H R Ha F. assert (Hio : is_io e = true) by (destruct e; try discriminate F; reflexivity).
  rewrite (io_step s e Hio R). cbn [fst]. apply detach_gone; [exact (proj1 (io_fan_fields s e H))|].
  apply filter_In. split; [rewrite (writers_in_service s H); exact Ha|exact F].
Qed.

Theorem write_failed_detached : forall s wid off len fs a,
  struct_ok s -> ro s = false -> avail s = true -> 0 <= off -> off + len <= csize s ->
  In a (writers s) -> (flt fs a KWrite || flt fs a KWriteAp) = true ->
  ~ In a (keys (replicas (fst (do_write s wid off len fs)))).
Proof.
  intros s wid off len fs a H Hro Hav Ho Hl Hin Hf. rewrite <- fst_step_write.
  apply (failed_gone s (Write wid off len fs) a H); [repeat split; assumption|rewrite <- (writers_in_service s H); exact Hin|exact Hf].
Qed.

Theorem write_survivors_hold_it : forall s wid off len fs x,
  struct_ok s -> ro s = false -> avail s = true -> 0 <= off -> off + len <= csize s ->
  In x (writers s) -> flt fs x KWrite = false ->
  In wid (f_applied (wget (w (fst (do_write s wid off len fs))) x)).
Proof.
  intros s wid off len fs x H Hro Hav Ho Hl Hin Hf.
  rewrite <- fst_step_write, (io_step s (Write wid off len fs) eq_refl) by (repeat split; assumption). cbn [fst io_fan]. unfold detach, fanout.
  rewrite (keeps_remove_all f_applied di_applied), w_handle_error, fan_in; [|apply writers_nodup; exact H|exact Hin|exact Hf].
  cbn. apply in_or_app. right. left. reflexivity.
Qed.

(** a failing minority does not surface *)
Lemma io_acked_iff : forall s e, struct_ok s -> is_io e = true -> reached s e ->
  let att := in_service (replicas s) in
  let good := filter (fun a => negb (io_kind_fail e a)) att in
  snd (fst (step s e)) = ROk <-> (length att < 2 * length good)%nat /\ exists x, In x good /\ In x (rw_of (replicas s)).
Proof.
  intros s e H Hio R att good. subst good att. rewrite <- (writers_in_service s H).
  pose proof (filter_split_length (io_kind_fail e) (writers s)) as Hsp. fold (io_failed s e) in Hsp.
  pose proof (writers_nonempty_of_avail s H (proj1 (proj2 R))) as Hne.
  destruct (io_fan_fields s e H) as (H1 & R1 & A1). rewrite (io_step s e Hio R). cbn [snd].
  rewrite (io_res_ok_iff _ _ _ H1) by (rewrite A1; exact (proj1 (proj2 R))). rewrite R1. split.
  - intros [Hm [x [Hx Hn]]]. split; [destruct Hm as [E|Hm]; [rewrite E in Hsp; cbn [length] in Hsp|]; lia|].
    assert (Hxw : In x (writers s)) by (rewrite (writers_in_service s H); apply rw_in_service, rw_of_in; exact Hx).
    exists x. split; [|apply rw_of_in; exact Hx]. apply filter_In. split; [exact Hxw|].
    destruct (io_kind_fail e x) eqn:F; [|reflexivity]. destruct Hn. apply filter_In. split; assumption.
  - intros [G4 [x [Hxg Hxr]]]. split; [right; lia|]. exists x. split; [apply rw_of_in; exact Hxr|].
    apply filter_In in Hxg. destruct Hxg as [_ Hxf]. apply negb_true_iff in Hxf.
    intro Hi. apply filter_In in Hi. destruct Hi as [_ Hi]. congruence.
Qed.

(** ** C04: who serves a read *)

Theorem read_without_rw_fails : forall s off len order fs,
  struct_ok s -> count_rw (replicas s) = 0%nat -> snd (fst (do_read s off len order fs)) <> ROk.
Proof.
  intros s off len order fs H Hc.
  assert (Hav : avail s = false).
  { apply not_true_is_false. intro E. apply (avail_iff_rw s H) in E. destruct E as [x Hx].
    rewrite count_rw_length in Hc. destruct (rw_of (replicas s)); [contradiction|discriminate]. }
  destruct (do_read_cases s off len order fs) as [E|E]; rewrite E; [discriminate|].
  unfold read_main. rewrite Hav. discriminate.
Qed.

(** what the model's read does, in the vocabulary of the oracle *)
Definition read_spec (s : cst) (order : list addr) (fs : faults) (out : cst * res * eff) : Prop :=
  match e_served (snd out) with
  | Some a =>
      snd (fst out) = ROk /\ In a (rw_of (replicas s))
      /\ (forall x, In x order -> In x (rw_of (replicas s)))
      /\ (forall x, In x order -> x <> a -> ~ In x (keys (replicas (fst (fst out)))))
  | None =>
      res_class (snd (fst out)) <> ROk
      /\ (snd (fst out) = RInvalid \/ forall x, In x (rw_of (replicas s)) -> flt fs x KRead = true)
  end.

Lemma read_main_spec : forall s order fs, struct_ok s -> read_spec s order fs (read_main s order fs).
Proof.
  intros s order fs H. unfold read_main.
  destruct (negb (avail s)) eqn:Eav.
  { apply negb_true_iff in Eav. unfold read_spec. cbn. split; [discriminate|]. right.
    intros x Hx. rewrite (proj2 (avail_iff_rw s H) (ex_intro _ x Hx)) in Eav. discriminate. }
  destruct (negb (read_order_ok s order fs)) eqn:Eo.
  { unfold read_spec. cbn. split; [discriminate|]. left. reflexivity. }
  apply negb_false_iff in Eo.
  assert (Hsub : forall x, In x order -> In x (rw_of (replicas s))).
  { intros x Hx. rewrite <- (readers_rw_of s H). exact (read_order_sub s order fs x Eo Hx). }
  unfold read_order_ok in Eo.
  apply andb_prop in Eo. destruct Eo as [Eo1 Eo3]. apply andb_prop in Eo1. destruct Eo1 as [Eo1 _].
  rewrite (readers_rw_of s H) in *.
  cbv zeta.
  destruct (rev order) as [|lst before] eqn:Er; [discriminate|].
  assert (Hlst : In lst order) by (apply in_rev; rewrite Er; left; reflexivity).
  apply andb_prop in Eo3. destruct Eo3 as [Eb El].
  assert (Hbefore : forall x, In x order -> x <> lst -> flt fs x KRead = true).
  { intros x Hx Hne. apply in_rev in Hx. rewrite Er in Hx. destruct Hx as [Hx|Hx]; [subst; contradiction|].
    rewrite forallb_forall in Eb. apply Eb. exact Hx. }
  set (errs := filter (fun a => flt fs a KRead) order).
  destruct (flt fs lst KRead) eqn:Ef.
  - (* everybody failed *)
    cbn [negb orb] in El. apply Nat.eqb_eq in El.
    assert (Hall : forall x, In x (rw_of (replicas s)) -> flt fs x KRead = true).
    { intros x Hx.
      assert (Hi : incl (rw_of (replicas s)) order).
      { apply NoDup_length_incl; [apply nodupb_NoDup; exact Eo1|rewrite El; apply Nat.le_refl|exact Hsub]. }
      specialize (Hi x Hx). destruct (Nat.eq_dec x lst) as [E|E]; [subst; exact Ef|apply Hbefore; assumption]. }
    assert (Hine : In lst errs) by (apply filter_In; split; assumption).
    destruct errs as [|e es] eqn:Ee; [contradiction|].
    destruct (handle_error_nolock s (e :: es)) as [s2 sup].
    unfold read_spec. cbn. split; [discriminate|]. right. exact Hall.
  - assert (Hnl : ~ In lst errs) by (intro Hi; apply filter_In in Hi; destruct Hi as [_ Hi]; congruence).
    destruct errs as [|e es] eqn:Ee.
    + unfold read_spec. cbn. split; [reflexivity|]. split; [apply Hsub; exact Hlst|]. split; [exact Hsub|].
      intros x Hx Hne. exfalso.
      assert (Hi : In x errs) by (apply filter_In; split; [exact Hx|apply Hbefore; assumption]).
      rewrite Ee in Hi. contradiction.
    + assert (Hsup : snd (handle_error_nolock s (e :: es)) = true).
      { apply (suppressed_by_rw s (e :: es) lst); [apply rw_aget; [exact H|apply Hsub; exact Hlst]|exact Hnl|discriminate]. }
      assert (Hd : remove_all (fst (handle_error_nolock s (e :: es))) fs (e :: es) = detach s fs (e :: es)) by reflexivity.
      destruct (handle_error_nolock s (e :: es)) as [s2 sup]. cbn [fst snd] in *. subst sup.
      unfold read_spec. cbn [fst snd e_served]. split; [reflexivity|]. split; [apply Hsub; exact Hlst|]. split; [exact Hsub|].
      intros x Hx Hne. rewrite Hd. apply detach_gone; [exact H|].
      rewrite <- Ee. apply filter_In. split; [exact Hx|apply Hbefore; assumption].
Qed.

Lemma do_read_spec : forall s off len order fs, struct_ok s ->
  (((off <? 0) || (csize s <? off + len)) = true /\ do_read s off len order fs = (s, RErr, noeff))
  \/ read_spec s order fs (do_read s off len order fs).
Proof.
  intros s off len order fs H. rewrite do_read_unfold.
  destruct ((off <? 0) || (csize s <? off + len)); [left; split; reflexivity|]. right.
  assert (Hnone : rw_of (replicas s) = [] -> read_spec s order fs (s, RErr, noeff)).
  { intros E. unfold read_spec. cbn. split; [discriminate|]. right. rewrite E. intros x []. }
  pose proof (read_main_spec s order fs H) as G.
  destruct (replicas s) as [|[a0 m0] t] eqn:Er; [apply Hnone; reflexivity|].
  destruct m0; destruct t; try exact G. apply Hnone. reflexivity.
Qed.

Theorem read_served_by_rw : forall s off len order fs s' ef,
  struct_ok s -> do_read s off len order fs = (s', ROk, ef) ->
  exists a, e_served ef = Some a /\ aget (replicas s) a = Some RW.
Proof.
  intros s off len order fs s' ef H Hr.
  destruct (do_read_spec s off len order fs H) as [[_ E]|Hs]; [rewrite E in Hr; discriminate|].
  unfold read_spec in Hs. rewrite Hr in Hs. cbn [fst snd] in Hs.
  destruct (e_served ef) as [a|]; [|exfalso; apply (proj1 Hs); reflexivity].
  exists a. split; [reflexivity|apply rw_aget; [exact H|exact (proj1 (proj2 Hs))]].
Qed.

(** ** C07 / C10 (controller halves): how a replica becomes RW *)

Theorem verify_promotes_after_check : forall s a fs s',
  aget (replicas s) a = Some WO -> do_verify s a fs = (s', ROk) ->
  exists r0 m0 k,
    find (fun p => is_rw (snd p)) (replicas s) = Some (r0, m0)
    /\ (k <= length (f_chain (wget (w s) a)))%nat
    /\ firstn k (f_chain (wget (w s) r0)) = firstn k (f_chain (wget (w s) a))
    /\ (match f_cp (wget (w s) a) with
        | None => k = length (f_chain (wget (w s) r0))
        | Some c => exists i, index_of (f_chain (wget (w s) r0)) c 0 = Some i /\ k = S i
        end)
    /\ f_rev (wget (w s') a) = f_rev (wget (w s) r0)
    /\ f_mode (wget (w s') a) = RRW.
Proof.
  intros s a fs s' Hwo Hv. pose proof (do_verify_spec s a fs) as V. rewrite Hv in V.
  inversion V as [r Hr| |r0 m0 k Hf Hk Hfirst Hcp]; subst; [rewrite Hwo in Hr; discriminate (Hr eq_refl)|].
  exists r0, m0, k. do 4 (split; [assumption|]).
  (* the world: set-rev and set-mode on a, then only checkpoint updates *)
  assert (W : forall {A} (g : frep -> A), cp_invariant g -> forall s2,
              g (wget (w (update_checkpoint (update_vol_status (set_mode_nolock s2 a RW)) fs)) a) = g (wget (w s2) a)).
  { intros A g Hg s2. rewrite (update_checkpoint_keeps g Hg).
    rewrite w_update_vol_status, w_set_mode. reflexivity. }
  split; [rewrite (W _ f_rev cpi_rev)|rewrite (W _ f_mode (fun f c k0 => eq_refl))];
    rewrite !wget_upd_rep, !Nat.eqb_refl; reflexivity.
Qed.

Theorem rw_origin : forall s e x,
  In (x, RW) (replicas (fst (fst (step s e)))) ->
  In (x, RW) (replicas s)
  \/ match e with
     | Verify a _ => a = x
     | SetMode a RW => a = x
     | Start _ _ => replicas s = []
     | _ => False
     end.
Proof.
  intros s e x Hin.
  assert (G : In (x, RW) (replicas s) \/ may_promote e x).
  { destruct (proj2 (entries_step s e) x RW Hin) as [G|[_ [G _]]]; [left|right]; exact G. }
  destruct e; try exact G.
  - (* a start on a list that is not empty changes nothing *)
    destruct (do_start_cases s addrs fs) as [E|(a0 & t & s1 & _ & Er & _)]; [left|right; exact Er].
    cbn [step] in Hin. rewrite E in Hin. exact Hin.
  - destruct G as [G|G]; [left; exact G|right; symmetry; exact G].
  - destruct G as [G|G]; [left; exact G|right]. destruct m; try contradiction; symmetry; exact G.
Qed.

Theorem promotion_only_by_verify : forall s e a, struct_ok s ->
  In (a, WO) (replicas s) -> In (a, RW) (replicas (fst (fst (step s e)))) ->
  match e with
  | Verify a' _ => a' = a
  | SetMode a' RW => a' = a
  | _ => False
  end.
Proof.
  intros s e a H Hwo Hrw.
  assert (Hno : ~ In (a, RW) (replicas s)) by (intro X; discriminate (nodup_same_key _ _ _ _ (st_nodup s H) X Hwo)).
  destruct (rw_origin s e a Hrw) as [X|X]; [contradiction|].
  destruct e; try contradiction; try exact X.
  rewrite X in Hwo. contradiction.
Qed.

(** ** C09: election *)

Theorem start_only_signalled_leader : forall s addrs fs,
  replicas s = [] -> snd (fst (do_start s addrs fs)) = ROk -> addrs <> [] ->
  signalled s = true /\ exists a t, addrs = a :: t /\ maxrev s = Some a.
Proof.
  intros s addrs fs Hr Hok Hne.
  destruct (do_start_cases s addrs fs) as [E|(a0 & t & s1 & El & _ & Hs & Hm & _)].
  - rewrite E, Hr in Hok. destruct addrs; [contradiction|discriminate].
  - split; [exact Hs|]. exists a0, t. split; assumption.
Qed.

Theorem start_refused_keeps_state : forall s addrs fs,
  replicas s = [] -> (signalled s = false \/ match addrs with a :: _ => maxrev s <> Some a | [] => False end) ->
  addrs <> [] -> do_start s addrs fs = (s, RErr, noeff).
Proof.
  intros s addrs fs Hr Hc Hne.
  destruct (do_start_cases s addrs fs) as [E|(a0 & t & s1 & El & _ & Hs & Hm & _)].
  - rewrite E, Hr. destruct addrs; [contradiction|reflexivity].
  - subst addrs. destruct Hc as [Hc|Hc]; [congruence|contradiction].
Qed.

Definition candidates (s : cst) : list (addr * rrec) :=
  filter (fun p => negb (rg_rebuilding (snd p))) (registered s).

Definition leader_from (s2 : cst) (a : addr) (m : addr) : Prop :=
  maxrev s2 = Some m \/ m = a \/ exists r, In (m, r) (registered s2) /\ rg_rebuilding r = false.

Definition signal_facts (s2 : cst) (a : addr) (s' : cst) (m : addr) : Prop :=
  leader_from s2 a m
  /\ (quorum (rf s2) <= length (registered s2))%nat
  /\ (forall q, In q (candidates s2) -> rg_rev (snd q) <= reg_rev s2 (Some m))
  /\ (registered s' = registered s2 \/ registered s' = adel (registered s2) m).

(** every request other than a registration only shrinks the registered set and may forget the leader ([rs_step]);
    inside a registration so do the StartSignalled switch and signalReplica ([reg_switch_spec], [signal_replica_spec]) *)
Definition reg_sub (s t : cst) : Prop :=
  (maxrev t = maxrev s \/ maxrev t = None) /\ incl (registered t) (registered s).

Lemma rs_refl : forall s, reg_sub s s.
Proof. intros s. split; [left; reflexivity|apply incl_refl]. Qed.

Lemma rs_trans : forall a b c, reg_sub a b -> reg_sub b c -> reg_sub a c.
Proof.
  intros a b c [M1 I1] [M2 I2]. split; [|eapply incl_tran; eassumption].
  destruct M2 as [M2|M2]; [|right; exact M2]. rewrite M2. exact M1.
Qed.

Lemma rs_eq : forall s t, registered t = registered s -> maxrev t = maxrev s -> reg_sub s t.
Proof. intros s t R M. split; [left; exact M|rewrite R; apply incl_refl]. Qed.

Lemma rs_keep : forall (P : addr -> Prop) s t, reg_sub s t -> (forall m, maxrev s = Some m -> P m) ->
  incl (registered t) (registered s) /\ forall m, maxrev t = Some m -> P m.
Proof. intros P s t [[M|M] I] Hs; (split; [exact I|intros m Hm]); [apply Hs; rewrite <- M; exact Hm|congruence]. Qed.

Lemma elected_top : forall s pick m, NoDup (keys (registered s)) -> elected s pick = Some (Some m) ->
  (maxrev s = Some m \/ exists r, In (m, r) (registered s) /\ rg_rebuilding r = false)
  /\ forall q, In q (candidates s) -> rg_rev (snd q) <= reg_rev s (Some m).
Proof.
  intros s pick m Hn. unfold elected. fold (candidates s).
  set (best := fold_left Z.max (map (fun p => rg_rev (snd p)) (candidates s)) 0).
  assert (Hbest : forall q, In q (candidates s) -> rg_rev (snd q) <= best).
  { intros q Hq. apply fold_max_ge. apply in_map_iff. exists q. split; [reflexivity|exact Hq]. }
  destruct (best <=? reg_rev s (maxrev s)) eqn:Eb.
  - intros El. inversion El as [Hl]. split; [left; reflexivity|]. intros q Hq.
    apply Z.leb_le in Eb. exact (Z.le_trans _ _ _ (Hbest q Hq) Eb).
  - destruct pick as [p|]; [|discriminate].
    destruct (existsb (fun q0 => Nat.eqb (fst q0) p && (rg_rev (snd q0) =? best)) (candidates s)) eqn:Ex; [|discriminate].
    intros El. inversion El; subst p. apply existsb_exists in Ex. destruct Ex as [[k r] [Hk Hkk]].
    cbn in Hkk. apply andb_prop in Hkk. destruct Hkk as [K1 K2]. apply Nat.eqb_eq in K1. apply Z.eqb_eq in K2. subst k.
    apply filter_In in Hk. destruct Hk as [Hk Hnr]. cbn in Hnr. apply negb_true_iff in Hnr.
    split; [right; exists r; split; assumption|].
    unfold reg_rev. rewrite (aget_in_nodup _ _ _ Hn Hk), K2. exact Hbest.
Qed.

Lemma signal_replica_spec : forall s fs s5 ok sg, signal_replica s fs = (s5, ok, sg) ->
  reg_sub s s5
  /\ match maxrev s with
     | None => sg = []
     | Some m => sg = [(m, true)] /\ (registered s5 = registered s \/ registered s5 = adel (registered s) m)
     end.
Proof.
  intros s fs s5 ok sg. unfold signal_replica.
  destruct (maxrev s) as [m|] eqn:E; [destruct (flt fs m KSignal)|]; intros [= <- <- <-].
  - split; [split; [right; reflexivity|intros p Hp; eapply in_adel; exact Hp]|]. split; [reflexivity|right; reflexivity].
  - split; [apply rs_eq; [reflexivity|symmetry; exact E]|]. split; [reflexivity|left; reflexivity].
  - split; [split; [right; reflexivity|apply incl_refl]|reflexivity].
Qed.

Lemma reg_elect_spec : forall s2 a pick fs, struct_ok s2 ->
  let out := reg_elect s2 a pick fs [] in
  let s' := fst (fst out) in
  incl (registered s') (registered s2)
  /\ (forall m, maxrev s' = Some m -> leader_from s2 a m)
  /\ (e_signals (snd out) = [] \/ exists m, e_signals (snd out) = [(m, true)] /\ signal_facts s2 a s' m).
Proof.
  intros s2 a pick fs H2. unfold reg_elect.
  set (s3 := match maxrev s2 with None => upd_leader s2 (Some a) (signalled s2) | Some _ => s2 end).
  assert (E3 : registered s3 = registered s2 /\ rf s3 = rf s2) by (subst s3; destruct (maxrev s2); split; reflexivity).
  destruct E3 as [R3 F3].
  assert (M3 : forall m, maxrev s3 = Some m -> leader_from s2 a m).
  { intros m Hm. subst s3. destruct (maxrev s2) as [x|] eqn:E; [left; exact Hm|]. inversion Hm. right. left. reflexivity. }
  pose proof (elected_top s3 pick) as HL. unfold candidates, reg_rev in HL. rewrite R3 in HL.
  (* every exit is [s3], [s4] (which is [s3] with the elected leader) or what [signal_replica] makes of [s4]: [rs_keep] *)
  destruct (elected s3 pick) as [l|]; cbn [fst snd e_signals]; apply and_assoc.
  2:{ split; [rewrite <- R3; exact (rs_keep _ s3 s3 (rs_refl s3) M3)|left; reflexivity]. }
  assert (Hl : forall m, l = Some m -> leader_from s2 a m).
  { intros m ->. destruct (HL m (st_reg s2 H2) eq_refl) as [[L|L] _]; [apply M3; exact L|right; right; exact L]. }
  set (s4 := upd_leader s3 l (signalled s3)).
  destruct (Nat.leb (quorum (rf s4)) (length (registered s4))) eqn:Eq.
  2:{ split; [rewrite <- R3; exact (rs_keep _ s4 s4 (rs_refl s4) Hl)|left; reflexivity]. }
  apply Nat.leb_le in Eq. change (quorum (rf s3) <= length (registered s3))%nat in Eq. rewrite F3, R3 in Eq.
  destruct (signal_replica s4 fs) as [[s5 ok] sg] eqn:E5. cbn [fst snd e_signals app].
  destruct (signal_replica_spec s4 fs s5 ok sg E5) as [S5 Sg]. change (maxrev s4) with l in Sg.
  split; [rewrite <- R3; exact (rs_keep _ s4 s5 S5 Hl)|].
  destruct l as [m|]; [|left; exact Sg]. destruct Sg as [Sg Rr]. change (registered s4) with (registered s3) in Rr. rewrite R3 in Rr.
  right. exists m. split; [exact Sg|]. split; [exact (Hl m eq_refl)|]. split; [exact Eq|].
  split; [exact (proj2 (HL m (st_reg s2 H2) eq_refl))|exact Rr].
Qed.

Lemma rs_remove_replica : forall s fs a, reg_sub s (remove_replica_nolock s fs a).
Proof.
  intros s fs a. destruct (has_replica s a) eqn:H; [|rewrite remove_replica_absent by exact H; apply rs_refl].
  destruct (remove_fields s fs a H) as [_ [_ [R M]]]. split; [exact M|].
  rewrite R. intros p Hp. eapply in_adel. exact Hp.
Qed.

Lemma rs_step : forall s e, match e with Register _ _ _ _ _ _ => False | _ => True end ->
  reg_sub s (fst (fst (step s e))).
Proof.
  intros s e He. apply (ops_rel e reg_sub rs_refl rs_trans).
  - intros x y Q.
    destruct Q as [x y M|x a g _|x a src _ _|x a m _|x fs a|x|x _|x i a fs _ _|x i a fs _ _|x y Hr _];
      try (apply rs_eq; reflexivity).
    + destruct M; try (apply rs_eq; reflexivity). split; [right; reflexivity|apply incl_refl].
    + destruct (set_mode_shape x a m) as [R [B [A [L [P E]]]]]. rewrite E. apply rs_eq; reflexivity.
    + apply rs_remove_replica.
    + destruct e; contradiction.
  - intros t a i _. apply rs_eq; reflexivity.
  - intros x fs. destruct (update_checkpoint_shape (update_vol_status x) fs) as [c [w' E]]. rewrite E. apply rs_eq; reflexivity.
Qed.

Lemma reg_switch_spec : forall s1 a fs, struct_ok s1 ->
  match reg_switch s1 a fs with
  | inr out => out = (s1, ROk, noeff)
  | inl None => False
  | inl (Some (s2, sg0)) => sg0 = [] /\ struct_ok s2 /\ rf s2 = rf s1 /\ reg_sub s1 s2
  end.
Proof.
  intros s1 a fs H1. pose proof (reg_switch_cases s1 a fs) as C.
  destruct (reg_switch s1 a fs) as [[[s2 sg0]|]|out]; try exact C.
  destruct C as [Hs [R [Hi M]]]. split; [exact Hs|]. split; [|split; [destruct R as (R' & M' & G & -> & _); reflexivity|split; assumption]].
  exact (struct_qop _ s1 s2 (q_register (Register a 0%nat 0 false None fs) s1 s2 I R) H1).
Qed.

(** the registrations after the first two statements of registerReplica *)
Lemma in_reg_s1 : forall s a u rev reb x r, struct_ok s ->
  In (x, r) (registered (reg_s1 s a u rev reb)) ->
  (x = a /\ r = mkrrec u rev reb) \/ (In (x, r) (registered s) /\ Nat.eqb a x = false /\ rg_uuid r <> u).
Proof.
  intros s a u rev reb x r H Hx. unfold reg_s1 in Hx. cbn [registered upd_registered] in Hx.
  apply in_aset_nodup in Hx; [|apply nodup_filter_keys; exact (st_reg s H)].
  destruct Hx as [Hx|[Hx Hne]].
  - inversion Hx; subst. left. split; reflexivity.
  - cbn [fst] in Hne. apply filter_In in Hx. destruct Hx as [Hin Hf]. cbn [fst snd] in Hf.
    apply Nat.eqb_neq in Hne. rewrite Hne in Hf. cbn [negb] in Hf. rewrite andb_true_r in Hf.
    right. split; [exact Hin|]. split; [rewrite Nat.eqb_sym; exact Hne|].
    apply negb_true_iff in Hf. apply Nat.eqb_neq. exact Hf.
Qed.

(** [leader_from] for the whole registration; [s1] is the state that holds the new record *)
Definition leader_from1 (s s1 : cst) (a : addr) (reb : bool) (m : addr) : Prop :=
  maxrev s = Some m \/ (reb = false /\ m = a) \/ exists r, In (m, r) (registered s1) /\ rg_rebuilding r = false.

Lemma do_register_spec : forall s a u rev reb pick fs, struct_ok s -> Nat.eqb u 0 = false ->
  let s1 := reg_s1 s a u rev reb in
  let out := do_register s a u rev reb pick fs in
  let s' := fst (fst out) in
  incl (registered s') (registered s1)
  /\ (forall m, maxrev s' = Some m -> leader_from1 s s1 a reb m)
  /\ (e_signals (snd out) = [] \/
      exists m, e_signals (snd out) = [(m, true)] /\ replicas s = [] /\ leader_from1 s s1 a reb m
        /\ exists s2, incl (registered s2) (registered s1) /\ NoDup (keys (registered s2))
           /\ (quorum (rf s) <= length (registered s2))%nat
           /\ (forall q, In q (candidates s2) -> rg_rev (snd q) <= reg_rev s2 (Some m))
           /\ (registered s' = registered s2 \/ registered s' = adel (registered s2) m)).
Proof.
  intros s a u rev reb pick fs H Hu. rewrite do_register_unfold, Hu. cbv zeta.
  set (s1 := reg_s1 s a u rev reb).
  assert (H1 : struct_ok s1) by exact (struct_qop _ s s1 (q_register (Register a u rev reb pick fs) s s1 I (regframe_s1 s a u rev reb)) H).
  (* below [s1] in [reg_sub] the leader, if any, is still that of [s] *)
  pose proof (fun t S => rs_keep (leader_from1 s s1 a reb) s1 t S (fun m Hm => or_introl Hm)) as Keep.
  assert (R1 : replicas s1 = replicas s) by reflexivity.
  destruct (replicas s1) eqn:Er.
  2:{ cbn [fst snd e_signals noeff]. apply and_assoc. split; [exact (Keep s1 (rs_refl s1))|left; reflexivity]. }
  pose proof (reg_switch_spec s1 a fs H1) as Hsw.
  destruct (reg_switch s1 a fs) as [[[s2 sg0]|]|out]; [|contradiction|].
  2:{ subst out. cbn [fst snd e_signals noeff]. apply and_assoc. split; [exact (Keep s1 (rs_refl s1))|left; reflexivity]. }
  destruct Hsw as [Hsg0 [H2 [F2 S2]]]. subst sg0.
  destruct reb.
  { cbn [fst snd e_signals]. apply and_assoc. split; [exact (Keep s2 S2)|left; reflexivity]. }
  pose proof (reg_elect_spec s2 a pick fs H2) as He. cbv zeta in He.
  destruct He as [E1 [E2 E3]]. destruct S2 as [M2 I2].
  assert (LF : forall m, leader_from s2 a m -> leader_from1 s s1 a false m).
  { intros m [Hm|[Hm|[r [Hr Hn]]]].
    - left. destruct M2 as [M2|M2]; [rewrite M2 in Hm; exact Hm|congruence].
    - right. left. split; [reflexivity|exact Hm].
    - right. right. exists r. split; [apply I2; exact Hr|exact Hn]. }
  split; [eapply incl_tran; eassumption|]. split; [intros m Hm; apply LF; apply E2; exact Hm|].
  destruct E3 as [E3|[m [Hs [L [Q [C Rr]]]]]]; [left; exact E3|].
  right. exists m. split; [exact Hs|]. split; [symmetry; exact R1|]. split; [apply LF; exact L|].
  exists s2. split; [exact I2|]. split; [exact (st_reg s2 H2)|].
  split; [rewrite F2 in Q; exact Q|]. split; [exact C|exact Rr].
Qed.

Theorem register_signal_rule : forall s a u r pick fs s' res ef m,
  struct_ok s ->
  do_register s a u r false pick fs = (s', res, ef) -> In (m, true) (e_signals ef) ->
  replicas s = []
  /\ exists s4, (quorum (rf s) <= length (registered s4))%nat
     /\ maxrev s4 = Some m
     /\ (forall q, In q (candidates s4) -> rg_rev (snd q) <= reg_rev s4 (Some m))
     /\ e_signals ef = [(m, true)].
Proof.
  intros s a u r pick fs s' res ef m Hst Hreg Hin.
  destruct (Nat.eqb u 0) eqn:Hu; [rewrite do_register_unfold, Hu in Hreg; inversion Hreg; subst; destruct Hin|].
  destruct (do_register_spec s a u r false pick fs Hst Hu) as [_ [_ S]]. rewrite Hreg in S. cbn [fst snd] in S.
  destruct S as [E|[m0 [E [Hr [_ [s2 [_ [_ [Q [C _]]]]]]]]]]; rewrite E in Hin; [destruct Hin|].
  destruct Hin as [Hin|[]]. inversion Hin; subst m0. split; [exact Hr|].
  exists (upd_leader s2 (Some m) false). repeat split; [exact Q|exact C|exact E].
Qed.

(** ** C13: the snapshot gate and when a checkpoint is recorded *)

Theorem snapshot_gate : forall s n fs, status_ok s -> count_rw (replicas s) <> rf s ->
  do_snapshot s n fs = (s, RErr).
Proof.
  intros s n fs [Hc _] Hne. unfold do_snapshot. rewrite Hc.
  destruct (Nat.eqb (count_rw (replicas s)) (rf s)) eqn:E; [apply Nat.eqb_eq in E; contradiction|reflexivity].
Qed.

Lemma same_heads_sound : forall chains cur n, same_heads chains cur = Some (Some n) ->
  (match cur with Some c => c = n | None => True end)
  /\ forall c, In c chains -> exists t, c = n :: t.
Proof.
  induction chains as [|c t IH]; intros cur n H; cbn in H.
  - inversion H; subst. split; [reflexivity|intros c []].
  - destruct c as [|h ct]; [discriminate|].
    destruct cur as [c0|].
    + destruct (Nat.eqb c0 h) eqn:E; [|discriminate]. apply Nat.eqb_eq in E. subst.
      destruct (IH _ _ H) as [Hc Hall]. cbn in Hc. subst. split; [reflexivity|].
      intros c [Hc|Hc]; [subst; exists ct; reflexivity|apply Hall; exact Hc].
    + destruct (IH _ _ H) as [Hc Hall]. cbn in Hc. subst. split; [exact I|].
      intros c [Hc|Hc]; [subst; exists ct; reflexivity|apply Hall; exact Hc].
Qed.

Theorem checkpoint_recorded_sound : forall s fs n,
  checkpoint (update_checkpoint s fs) = Some n ->
  count_rw (replicas s) = rf s
  /\ all_rw_backends s = true
  /\ (forall p, In p (backends s) -> exists t, f_chain (wget (w s) (fst p)) = n :: t)
  /\ (forall p, In p (backends s) -> flt fs (fst p) KSetCp = false /\ flt fs (fst p) KChain = false).
Proof.
  intros s fs n H. unfold update_checkpoint in H.
  destruct (Nat.eqb (count_rw (replicas s)) (rf s)) eqn:E; [|cbn in H; discriminate].
  apply Nat.eqb_eq in E. split; [exact E|].
  unfold get_latest_snapshot in H.
  destruct (all_rw_backends s) eqn:Ea; cbn [negb] in H; [|cbn in H; discriminate].
  split; [reflexivity|].
  destruct (existsb (fun p => flt fs (fst p) KChain) (backends s)) eqn:Ec; [cbn in H; discriminate|].
  destruct (same_heads _ None) as [o|] eqn:Es; [|cbn in H; discriminate].
  unfold set_checkpoint in H. rewrite Ea in H.
  destruct (existsb (fun p => flt fs (fst p) KSetCp) (backends s)) eqn:Ek; cbn in H; [discriminate|].
  subst o. destruct (same_heads_sound _ _ _ Es) as [_ Hall].
  split.
  - intros p Hp. apply Hall. apply in_map_iff. exists p. split; [reflexivity|exact Hp].
  - intros p Hp. split.
    + destruct (flt fs (fst p) KSetCp) eqn:F; [|reflexivity].
      assert (X : existsb (fun p0 => flt fs (fst p0) KSetCp) (backends s) = true) by (apply existsb_exists; exists p; split; assumption).
      congruence.
    + destruct (flt fs (fst p) KChain) eqn:F; [|reflexivity].
      assert (X : existsb (fun p0 => flt fs (fst p0) KChain) (backends s) = true) by (apply existsb_exists; exists p; split; assumption).
      congruence.
Qed.

Theorem checkpoint_withdrawn : forall s fs, count_rw (replicas s) <> rf s ->
  checkpoint (update_checkpoint s fs) = None.
Proof.
  intros s fs H. unfold update_checkpoint.
  destruct (Nat.eqb (count_rw (replicas s)) (rf s)) eqn:E; [apply Nat.eqb_eq in E; contradiction|reflexivity].
Qed.

(** a controller that lists at most RF replicas cannot have RF of them RW once one has left *)
Lemma unlist_below_rf : forall s a, struct_ok s -> has_replica s a = true ->
  count_rw (replicas (update_vol_status (unlist s a))) <> rf (update_vol_status (unlist s a)).
Proof.
  intros s a H Ha. destruct (unlist_fields s a) as [R [Rf _]].
  destruct (sst_update_vol_status (unlist s a)) as [R0 [_ [Rf0 _]]]. rewrite R0, Rf0, R, Rf.
  pose proof (length_adel_lt (replicas s) a (proj1 (has_replica_listed s a) Ha)) as L1.
  pose proof (count_rw_le_length (adel (replicas s) a)) as L2.
  intro E. rewrite E in L2.
  exact (Nat.lt_irrefl _ (Nat.lt_le_trans _ _ _ L1 (Nat.le_trans _ _ _ (st_len s H) L2))).
Qed.

Theorem checkpoint_withdrawn_on_removal : forall s fs a, struct_ok s -> has_replica s a = true ->
  checkpoint (remove_replica_nolock s fs a) = None.
Proof.
  intros s fs a H Ha. rewrite (remove_replica_unlist s fs a Ha).
  apply checkpoint_withdrawn, unlist_below_rf; assumption.
Qed.

(** ** C19 (controller half): a start makes a replica RW only after its clone status was read and is not "error" *)

Definition start_tail (s3 : cst) (fs : faults) (a : addr) : cst * res :=
  if flt fs a KClone then (remove_replica_nolock s3 fs a, RErr)
  else match f_clone (wget (w s3) a) with
       | CErr => (remove_replica_nolock s3 fs a, RErr)
       | _ =>
           if flt fs a KSetModeRW then (remove_replica_nolock s3 fs a, RErr)
           else (set_mode_nolock (upd_rep s3 a (fun f => f_set_mode f RRW)) a RW, ROk)
       end.

Lemma add_during_start_tail : forall s fs a s1 i s3,
  create_backend s fs a = Some (s1, i) -> flt fs a KSize = false ->
  let s2 := if csize s1 =? maxint then upd_csize s1 (f_size (wget (w s1) a)) else s1 in
  negb (csize s2 =? f_size (wget (w s1) a)) = false ->
  add_replica_nolock s2 fs a i false = (s3, ROk) ->
  add_during_start s fs a = start_tail s3 fs a.
Proof.
  intros s fs a s1 i s3 Hc Hs s2 Hz Ha. unfold add_during_start, start_tail.
  rewrite Hc, Hs. fold s2. rewrite Hz, Ha.
  destruct (flt fs a KClone); [reflexivity|].
  destruct (f_clone (wget (w s3) a)); reflexivity.
Qed.

Theorem clone_error_not_served : forall s3 fs a, struct_ok s3 ->
  (flt fs a KClone = true \/ f_clone (wget (w s3) a) = CErr) ->
  snd (start_tail s3 fs a) = RErr /\ has_replica (fst (start_tail s3 fs a)) a = false.
Proof.
  intros s3 fs a H Hc. unfold start_tail.
  assert (G : has_replica (remove_replica_nolock s3 fs a) a = false).
  { destruct (has_replica (remove_replica_nolock s3 fs a) a) eqn:E; [|reflexivity].
    apply has_replica_listed in E. exfalso. exact (remove_replica_gone s3 fs a H E). }
  destruct (flt fs a KClone) eqn:Fk; [split; [reflexivity|exact G]|].
  destruct Hc as [Hc|Hc]; [discriminate|]. rewrite Hc. split; [reflexivity|exact G].
Qed.

