(** * Ctl: every step of the controller is a sequence of primitive operations.

    [step_ops] walks the code of [step] once; an invariant or a preorder on states then takes one case per
    primitive ([qop]) and one for the refresh of status and checkpoint.  The one place where two primitives belong
    together is an add, where the instance id drawn by [create_backend] is used some operations later by the append
    of the new replica ([op_add]).  That the refresh is a request's last operation but for bookkeeping ([ends]) is
    what tells where a recorded checkpoint comes from.
    A new primitive (a constructor of [qop]) means one more case in each analysis of [qop]: [status_qop], [rf_qop],
    [struct_qop] (Proofs.v), [entries_qop], [rs_step] (Props.v), [cp_qop], [mon_qop], [ckn_qop], [chain_mono_step]
    (CheckpointInv.v); a new request means a path lemma and a line in [step_ops], and, if it calls replicas, a
    disjunct of [call_cases]. *)
From Coq Require Import List ZArith Bool Arith Relations Lia.
From Jiva Require Import Ctl.Model Ctl.AList Ctl.Corr Ctl.Oracles.
Import ListNotations.
Open Scope Z_scope.

(** ** normal forms of the model's functions *)

Lemma handle_error_ind : forall (P : cst -> Prop) errs s,
  P s -> (forall t x, In x errs -> P t -> P (set_mode_nolock t x ERR)) -> P (fst (handle_error_nolock s errs)).
Proof. intros P errs s H0 H1. unfold handle_error_nolock. cbn [fst]. apply fold_left_inv; assumption. Qed.

Lemma remove_all_ind : forall (P : cst -> Prop) errs fs s,
  P s -> (forall t x, In x errs -> P t -> P (remove_replica_nolock t fs x)) -> P (remove_all s fs errs).
Proof. intros P errs fs s H0 H1. unfold remove_all. apply fold_left_inv; assumption. Qed.

Lemma has_replica_listed : forall s a, has_replica s a = true <-> In a (map fst (replicas s)).
Proof.
  intros s a. unfold has_replica. rewrite existsb_exists. split.
  - intros [[k v] [Hin Hk]]. cbn in Hk. apply Nat.eqb_eq in Hk. rewrite <- Hk. change k with (fst (k, v)). apply in_map. exact Hin.
  - intros Hin. apply in_map_iff in Hin. destruct Hin as [[k v] [Hk Hin]]. cbn in Hk. subst.
    exists (a, v). split; [exact Hin|cbn; apply Nat.eqb_refl].
Qed.

Lemma has_replica_ext : forall s t a, replicas t = replicas s -> has_replica t a = has_replica s a.
Proof. intros s t a H. unfold has_replica. rewrite H. reflexivity. Qed.

Lemma upd_w_same : forall s, upd_w s (w s) = s.
Proof. intros s. destruct s. reflexivity. Qed.

(** StopMonitoring of instance [i] on the live and on the pending list: the entry moves over, once *)
Definition stopL (L : list (nat * addr)) (i : nat) : list (nat * addr) :=
  match aget L i with Some _ => adel L i | None => L end.

Definition stopP (L P : list (nat * addr)) (i : nat) : list (nat * addr) :=
  match aget L i with Some a => P ++ [(i, a)] | None => P end.

Lemma stop_monitoring_shape : forall s i,
  stop_monitoring s i = upd_mon s (stopL (live_mon s) i) (stopP (live_mon s) (pend_mon s) i).
Proof. intros s i. unfold stop_monitoring, stopL, stopP. destruct (aget (live_mon s) i); [reflexivity|]. destruct s. reflexivity. Qed.

Lemma update_checkpoint_shape : forall s fs, exists c w', update_checkpoint s fs = upd_checkpoint (upd_w s w') c.
Proof.
  intros s fs. unfold update_checkpoint.
  assert (N : exists c w', upd_checkpoint s None = upd_checkpoint (upd_w s w') c).
  { exists None, (w s). rewrite upd_w_same. reflexivity. }
  destruct (Nat.eqb (count_rw (replicas s)) (rf s)); [|exact N].
  destruct (get_latest_snapshot s fs) as [n|]; [|exact N].
  unfold set_checkpoint. destruct (all_rw_backends s); eexists; eexists; reflexivity.
Qed.

Definition relist (s : cst) R B A L P : cst :=
  mkcst (rf s) R B A (ro s) (rwc s) (registered s) (maxrev s) (signalled s) (checkpoint s) (csize s) (fe_up s)
        (pend_adds s) L P (ninst s) (nsnap s) (w s).

Lemma set_mode_shape : forall s a m, exists R B A L P,
  set_mode_nolock s a m = update_vol_status (relist s R B A L P).
Proof.
  intros s a m. unfold set_mode_nolock.
  assert (N : exists R B A L P, update_vol_status s = update_vol_status (relist s R B A L P)).
  { exists (replicas s), (backends s), (avail s), (live_mon s), (pend_mon s). destruct s. reflexivity. }
  assert (G : exists R B A L P,
    update_vol_status (backend_set_mode (upd_replicas s (map (fun p => if Nat.eqb (fst p) a then (fst p, m) else p) (replicas s))) a m)
    = update_vol_status (relist s R B A L P)).
  { unfold backend_set_mode. cbn [backends upd_replicas].
    destruct (aget (backends s) a) as [[mb ib]|]; [|do 5 eexists; reflexivity].
    destruct (mode_eqb m ERR); [rewrite stop_monitoring_shape|]; do 5 eexists; reflexivity. }
  destruct (aget (replicas s) a) as [[]|]; [exact G|exact G|exact N|exact N].
Qed.

Lemma w_update_vol_status : forall s, w (update_vol_status s) = w s.
Proof. reflexivity. Qed.

Lemma w_set_mode : forall s a m, w (set_mode_nolock s a m) = w s.
Proof. intros s a m. destruct (set_mode_shape s a m) as (R & B & A & L & P & E). rewrite E. reflexivity. Qed.

Definition unlist (s : cst) (a : addr) : cst :=
  let s1 := if Nat.eqb (length (replicas s)) 1 && fe_up s then upd_fe (upd_leader s None false) false else s in
  let s2 := upd_registered s1 (adel (registered s1) a) in
  remove_backend (upd_replicas s2 (adel (replicas s2) a)) a.

Lemma remove_replica_unlist : forall s fs a, has_replica s a = true ->
  remove_replica_nolock s fs a = update_checkpoint (update_vol_status (unlist s a)) fs.
Proof. intros s fs a H. unfold remove_replica_nolock, unlist. rewrite H. reflexivity. Qed.

Lemma remove_replica_absent : forall s fs a, has_replica s a = false -> remove_replica_nolock s fs a = s.
Proof. intros s fs a H. unfold remove_replica_nolock. rewrite H. reflexivity. Qed.

Lemma remove_ind : forall (P : cst -> Prop) s fs a,
  P s -> (has_replica s a = true -> P (update_checkpoint (update_vol_status (unlist s a)) fs)) ->
  P (remove_replica_nolock s fs a).
Proof.
  intros P s fs a H0 H1. destruct (has_replica s a) eqn:E;
    [rewrite (remove_replica_unlist s fs a E); exact (H1 eq_refl)|rewrite remove_replica_absent; assumption].
Qed.

Lemma remove_backend_shape : forall s a, exists B A L P w',
  remove_backend s a = upd_w (relist s (replicas s) B A L P) w'.
Proof.
  intros s a. unfold remove_backend. destruct (aget (backends s) a) as [[m i]|].
  - rewrite stop_monitoring_shape.
    exists (adel (backends s) a), (existsb (fun p => is_rw (fst (snd p))) (adel (backends s) a)),
      (stopL (live_mon s) i), (stopP (live_mon s) (pend_mon s) i), (wset (w s) a (f_set_open (wget (w s) a) false)).
    reflexivity.
  - exists (backends s), (avail s), (live_mon s), (pend_mon s), (w s). destruct s. reflexivity.
Qed.

Lemma unlist_fields : forall s a,
  replicas (unlist s a) = adel (replicas s) a /\ rf (unlist s a) = rf s
  /\ registered (unlist s a) = adel (registered s) a /\ (maxrev (unlist s a) = maxrev s \/ maxrev (unlist s a) = None).
Proof.
  intros s a. unfold unlist.
  match goal with |- replicas (remove_backend ?t a) = _ /\ _ => destruct (remove_backend_shape t a) as (B & A & L & P & w' & E) end.
  rewrite E. destruct (Nat.eqb (length (replicas s)) 1 && fe_up s); repeat split; try reflexivity; [right|left]; reflexivity.
Qed.

Lemma remove_fields : forall s fs x, has_replica s x = true ->
  let t := remove_replica_nolock s fs x in
  replicas t = adel (replicas s) x /\ rf t = rf s
  /\ registered t = adel (registered s) x /\ (maxrev t = maxrev s \/ maxrev t = None).
Proof.
  intros s fs x H. cbv zeta. rewrite (remove_replica_unlist s fs x H).
  destruct (update_checkpoint_shape (update_vol_status (unlist s x)) fs) as [c [w' E]]. rewrite E.
  (* equations about a variable [u]: conversion against [unlist s x] compares the two states, unfolded, before it projects *)
  assert (F : forall u, let t := upd_checkpoint (upd_w (update_vol_status u) w') c in
                        replicas t = replicas u /\ rf t = rf u /\ registered t = registered u /\ maxrev t = maxrev u)
    by (intros u; repeat split).
  destruct (F (unlist s x)) as (-> & -> & -> & ->). apply unlist_fields.
Qed.

Lemma has_replica_remove_other : forall s fs x a, has_replica s a = false -> has_replica (remove_replica_nolock s fs x) a = false.
Proof.
  intros s fs x a H.
  destruct (has_replica s x) eqn:Ex; [|rewrite remove_replica_absent; assumption].
  destruct (has_replica (remove_replica_nolock s fs x) a) eqn:E; [|reflexivity].
  exfalso. apply has_replica_listed in E. destruct (remove_fields s fs x Ex) as [R _]. rewrite R in E.
  apply keys_adel_subset in E. apply has_replica_listed in E. congruence.
Qed.

(** the fan-out of one call to the writers that do not fail it *)
Definition fan (g : addr -> bool) (h : frep -> frep) (ws : list addr) (s : cst) : cst :=
  fold_left (fun acc a => if g a then acc else upd_rep acc a h) ws s.

Lemma fan_shape : forall g h ws s, exists w', fan g h ws s = upd_w s w'.
Proof.
  intros g h. unfold fan. induction ws as [|a t IH]; intros s; cbn [fold_left].
  - exists (w s). symmetry. apply upd_w_same.
  - destruct (g a); [apply IH|]. destruct (IH (upd_rep s a h)) as [w' E]. exists w'. rewrite E. reflexivity.
Qed.

Lemma fan_other : forall g h ws s x, ~ In x ws -> wget (w (fan g h ws s)) x = wget (w s) x.
Proof.
  intros g h. unfold fan. induction ws as [|a t IH]; intros s x Hx; cbn [fold_left]; [reflexivity|].
  rewrite IH by (intro Hi; apply Hx; right; exact Hi).
  destruct (g a); [reflexivity|]. rewrite wget_upd_rep.
  destruct (Nat.eqb a x) eqn:E; [|reflexivity]. apply Nat.eqb_eq in E. exfalso. apply Hx. left. exact E.
Qed.

Lemma fan_in : forall g h ws s x, NoDup ws -> In x ws -> g x = false ->
  wget (w (fan g h ws s)) x = h (wget (w s) x).
Proof.
  intros g h. induction ws as [|a t IH]; intros s x Hn Hin Hg; [contradiction|].
  inversion Hn as [|y ys Hy Hd]; subst. change (fan g h (a :: t) s) with (fan g h t (if g a then s else upd_rep s a h)).
  destruct Hin as [Hin|Hin].
  - subst a. rewrite fan_other by exact Hy. rewrite Hg, wget_upd_rep, Nat.eqb_refl. reflexivity.
  - rewrite IH by assumption. destruct (g a); [reflexivity|]. rewrite wget_upd_rep.
    destruct (Nat.eqb a x) eqn:E; [|reflexivity]. apply Nat.eqb_eq in E. subst. contradiction.
Qed.

Lemma fan_none : forall h ws s, fan (fun _ => true) h ws s = s.
Proof. intros h. unfold fan. induction ws as [|a t IH]; intros s; [reflexivity|apply IH]. Qed.

Lemma snapshot_all_fan : forall s fs n,
  fst (snapshot_all s fs n) = fan (fun a => flt fs a KSnap) (fun f => f_snap f n) (writers s) s.
Proof. reflexivity. Qed.

(** ** write, sync and unmap in one form, in the words of the oracles ([is_io], [io_kind_fail], [ev_faults]) *)

Definition detach (s : cst) (fs : faults) (errs : list addr) : cst :=
  remove_all (fst (handle_error_nolock s errs)) fs errs.

Definition fanout (s : cst) (wid : nat) (fs : faults) : cst :=
  fan (fun a => flt fs a KWrite) (fun f => f_apply f wid) (writers s) s.

(** the answer to an I/O that was sent to [nw] replicas and failed on [errs], [s1] being the state after the fan-out *)
Definition io_res (s1 : cst) (nw : nat) (errs : list addr) : res :=
  match errs with
  | [] => ROk
  | _ => if majority_ok nw (length errs) && snd (handle_error_nolock s1 errs) then ROk else RErr
  end.

Lemma in_range : forall sz off len, (off <? 0) || (sz <? off + len) = false <-> 0 <= off /\ off + len <= sz.
Proof. intros sz off len. rewrite orb_false_iff, !Z.ltb_ge. reflexivity. Qed.

Definition reached (s : cst) (e : event) : Prop :=
  ro s = false /\ avail s = true
  /\ match e with Write _ off len _ => 0 <= off /\ off + len <= csize s | _ => True end.

Definition io_fan (s : cst) (e : event) : cst :=
  match e with Write wid _ _ fs => fanout s wid fs | _ => s end.

Definition io_failed (s : cst) (e : event) : list addr := filter (io_kind_fail e) (writers s).

Lemma io_step : forall s e, is_io e = true -> reached s e ->
  fst (step s e) = (detach (io_fan s e) (ev_faults e) (io_failed s e),
                    io_res (io_fan s e) (length (writers s)) (io_failed s e)).
Proof.
  intros s e Hio [Hro [Hav Hr]].
  assert (D : forall fs k, io_errs (writers s) fs k k = filter (fun a => flt fs a k) (writers s))
    by (intros; apply filter_ext; intros a; apply orb_diag).
  assert (G : forall (s1 : cst) errs,
            (let '(s2, r) := match errs with
                             | [] => (s1, ROk)
                             | _ => let '(s2, sup) := handle_error_nolock s1 errs in
                                    (remove_all s2 (ev_faults e) errs,
                                     if majority_ok (length (writers s)) (length errs) && sup then ROk else RErr)
                             end in (s2, r, noeff)) = (detach s1 (ev_faults e) errs, io_res s1 (length (writers s)) errs, noeff)).
  { intros s1 [|x t]; [reflexivity|]. unfold detach, io_res. destruct (handle_error_nolock s1 (x :: t)). reflexivity. }
  destruct e; try discriminate; cbn [step io_fan]; unfold io_failed, do_write, do_sync; cbn [io_kind_fail];
    rewrite Hro, Hav, ?D, ?(proj2 (in_range _ _ _) Hr); cbn [negb]; cbv zeta; rewrite G; reflexivity.
Qed.

Lemma io_gate : forall s e, is_io e = true ->
  reached s e \/ step s e = (s, (if ro s then RRefused else RErr), noeff).
Proof.
  intros s e He. destruct e; try discriminate; cbn [step]; unfold reached, do_write, do_sync;
    (destruct (ro s); [right; reflexivity|]).
  - destruct ((off <? 0) || (csize s <? off + len)) eqn:Er; [right; reflexivity|].
    destruct (avail s); [left|right; reflexivity]. split; [reflexivity|split; [reflexivity|apply in_range; exact Er]].
  - destruct (avail s); [left; repeat split|right; reflexivity].
  - destruct (avail s); [left; repeat split|right; reflexivity].
Qed.

Lemma io_acked : forall s e, is_io e = true -> snd (fst (step s e)) = ROk -> reached s e.
Proof.
  intros s e He Hok. destruct (io_gate s e He) as [R|E]; [exact R|]. rewrite E in Hok. destruct (ro s); discriminate.
Qed.

Lemma io_res_not_refused : forall s1 nw errs, io_res s1 nw errs <> RRefused.
Proof. intros s1 nw errs. unfold io_res. destruct errs; [discriminate|]. destruct (_ && _); discriminate. Qed.

Lemma fst_step_write : forall s wid off len fs, fst (step s (Write wid off len fs)) = do_write s wid off len fs.
Proof. intros. cbn [step]. destruct (do_write s wid off len fs). reflexivity. Qed.

(** ** read, snapshot, resize; add; register; start; verify *)

Definition read_main (s : cst) (order : list addr) (fs : faults) : cst * res * eff :=
  if negb (avail s) then (s, RErr, noeff)
  else if negb (read_order_ok s order fs) then (s, RInvalid, noeff)
  else
    let errs := filter (fun a => flt fs a KRead) order in
    let served := match rev order with lst :: _ => if flt fs lst KRead then None else Some lst | [] => None end in
    match errs with
    | [] => (s, ROk, mkeff [] served)
    | _ =>
        let '(s2, suppressed) := handle_error_nolock s errs in
        let s3 := remove_all s2 fs errs in
        (s3, match served with Some _ => if suppressed then ROk else RErr | None => RErr end, mkeff [] served)
    end.

Lemma do_read_unfold : forall s off len order fs,
  do_read s off len order fs =
  if (off <? 0) || (csize s <? off + len) then (s, RErr, noeff)
  else match replicas s with
       | [] => (s, RErr, noeff)
       | [(_, WO)] => (s, RErr, noeff)
       | _ => read_main s order fs
       end.
Proof. reflexivity. Qed.

Lemma do_read_cases : forall s off len order fs,
  do_read s off len order fs = (s, RErr, noeff) \/ do_read s off len order fs = read_main s order fs.
Proof.
  intros s off len order fs. rewrite do_read_unfold.
  destruct ((off <? 0) || (csize s <? off + len)); [left; reflexivity|].
  destruct (replicas s) as [|[a0 m0] t]; [left; reflexivity|].
  destruct m0; destruct t; (right; reflexivity) || (left; reflexivity).
Qed.

Lemma read_order_sub : forall s order fs x, read_order_ok s order fs = true -> In x order -> In x (readers s).
Proof.
  intros s order fs x Eo Hx. unfold read_order_ok in Eo. apply andb_prop in Eo. destruct Eo as [Eo _].
  apply andb_prop in Eo. destruct Eo as [_ Eo]. rewrite forallb_forall in Eo. specialize (Eo x Hx).
  apply existsb_exists in Eo. destruct Eo as [y [Hy Hey]]. apply Nat.eqb_eq in Hey. subst y. exact Hy.
Qed.

Lemma readers_writers : forall s x, In x (readers s) -> In x (writers s).
Proof.
  intros s x H. unfold readers in H. apply in_map_iff in H. destruct H as [p [Hp Hin]].
  apply filter_In in Hin. destruct Hin as [Hin Hrw]. subst x. unfold writers. apply in_map. apply filter_In.
  split; [exact Hin|]. destruct (fst (snd p)); try discriminate; reflexivity.
Qed.

Lemma step_snapshot : forall s n fs,
  step s (Snapshot n fs) = (fst (do_snapshot s n fs), snd (do_snapshot s n fs), noeff).
Proof. intros. cbn [step]. destruct (do_snapshot s n fs). reflexivity. Qed.

Lemma do_snapshot_cases : forall s n fs,
  (fst (do_snapshot s n fs) = s /\ snd (do_snapshot s n fs) <> ROk)
  \/ fst (do_snapshot s n fs)
     = fst (handle_error_nolock (fan (fun a => flt fs a KSnap) (fun f => f_snap f n) (writers s) s)
                                (filter (fun a => flt fs a KSnap) (writers s))).
Proof.
  intros s n fs. unfold do_snapshot.
  destruct (negb (Nat.eqb (rwc s) (rf s))); [left; split; [reflexivity|discriminate]|].
  destruct (Nat.eqb (length (backends s)) 0); [left; split; [reflexivity|discriminate]|].
  destruct (negb (remain_ok s)); [left; split; [reflexivity|discriminate]|].
  destruct (last_rw s) as [r0|]; [|left; split; [reflexivity|discriminate]].
  destruct (flt fs r0 KHttp); [left; split; [reflexivity|discriminate]|].
  destruct (existsb (Nat.eqb n) (f_chain (wget (w s) r0))); [left; split; [reflexivity|discriminate]|].
  right. unfold snapshot_all, fan. cbv zeta.
  destruct (filter (fun a => flt fs a KSnap) (writers s)) as [|x t]; [reflexivity|].
  destruct (handle_error_nolock _ (x :: t)) as [s2 sup]. reflexivity.
Qed.

Definition resize_fan (s : cst) (sz : Z) (fs : faults) : cst :=
  fan (fun a => flt fs a KResize) (fun f => f_set_size f sz) (writers s) s.

Definition resize_errs (s : cst) (fs : faults) : list addr := filter (fun a => flt fs a KResize) (writers s).

Lemma do_resize_unfold : forall s sz fs, (sz <=? csize s) = false ->
  do_resize s sz fs =
  let s1 := resize_fan s sz fs in
  let errs := resize_errs s fs in
  let s2 := fst (handle_error_nolock s1 errs) in
  if match errs with [] => false | _ => negb (snd (handle_error_nolock s1 errs)) end then (s2, RErr)
  else if flt fs 0%nat KFeResize then (s2, RErr)
  else (upd_csize s2 sz, ROk).
Proof.
  intros s sz fs H. apply Z.leb_gt in H. unfold do_resize.
  destruct (sz <? csize s) eqn:E1; [apply Z.ltb_lt in E1; lia|].
  destruct (sz =? csize s) eqn:E2; [apply Z.eqb_eq in E2; lia|].
  unfold resize_fan, fan. cbv zeta. fold (resize_errs s fs).
  destruct (resize_errs s fs) as [|e0 es]; [reflexivity|].
  destruct (handle_error_nolock _ (e0 :: es)) as [s2 sup]. reflexivity.
Qed.

Lemma can_add_cases : forall s fs a,
  can_add s fs a = (s, false)
  \/ (can_add s fs a = (s, true) /\ has_replica s a = false
      /\ find (fun p => mode_eqb (snd p) WO) (replicas s) = None)
  \/ (exists wo m, can_add s fs a = (remove_replica_nolock s fs wo, true) /\ has_replica s a = false
      /\ find (fun p => mode_eqb (snd p) WO) (replicas s) = Some (wo, m) /\ has_replica s wo = true).
Proof.
  intros s fs a. unfold can_add.
  destruct (has_replica s a) eqn:Eh; [left; reflexivity|].
  destruct (find (fun p => mode_eqb (snd p) WO) (replicas s)) as [[wo m]|] eqn:Ef; [|right; left; repeat split].
  destruct (negb (amem (backends s) wo) || flt fs wo KRev || flt fs a KHttp); [left; reflexivity|].
  destruct (f_rev (wget (w s) wo) <? f_rev (wget (w s) a)); [|left; reflexivity].
  right. right. exists wo, m. repeat split.
  apply has_replica_listed. apply find_some in Ef. destruct Ef as [Hin _].
  change wo with (fst (wo, m)). apply in_map. exact Hin.
Qed.

(** the replica list an accepted newcomer finds: canAdd has removed the rebuilding replica, if any *)
Definition vacated (l : list (addr * mode)) : list (addr * mode) :=
  match find (fun p => mode_eqb (snd p) WO) l with Some (x, _) => adel l x | None => l end.

Lemma vacated_cases : forall l,
  (find (fun p => mode_eqb (snd p) WO) l = None /\ vacated l = l)
  \/ exists wo m, find (fun p => mode_eqb (snd p) WO) l = Some (wo, m) /\ vacated l = adel l wo.
Proof.
  intros l. unfold vacated. destruct (find (fun p : addr * mode => mode_eqb (snd p) WO) l) as [[wo m]|];
    [right; exists wo, m|left]; split; reflexivity.
Qed.

Lemma create_backend_cases : forall s fs a,
  create_backend s fs a = None
  \/ create_backend s fs a = Some (upd_ninst (upd_rep s a (fun f => f_set_open f true)) (S (ninst s)), ninst s).
Proof.
  intros s fs a. unfold create_backend.
  destruct (flt fs a KCreate || f_open (wget (w s) a)); [left|right]; reflexivity.
Qed.

Lemma fst_let_pair : forall (X : cst * res), fst (fst (let '(s1, r) := X in (s1, r, noeff))) = fst X.
Proof. intros [s1 r]. reflexivity. Qed.

(** registerReplica in three pieces: the record is entered, the StartSignalled switch, the election *)
Definition reg_s1 (s : cst) (a : addr) (u : nat) (rev : Z) (reb : bool) : cst :=
  upd_registered s
    (aset (filter (fun p => negb (Nat.eqb (rg_uuid (snd p)) u && negb (Nat.eqb (fst p) a))) (registered s))
          a (mkrrec u rev reb)).

Definition reg_switch (s1 : cst) (a : addr) (fs : faults) : option (cst * list (addr * bool)) + (cst * res * eff) :=
  if signalled s1 then
    if match maxrev s1 with Some m => Nat.eqb m a | None => false end then inl (Some (s1, []))
    else if match maxrev s1 with Some m => flt fs m KAlive | None => true end then
      let s2 := match maxrev s1 with
                | Some m => upd_registered s1 (adel (registered s1) m)
                | None => s1 end in
      inl (Some (upd_leader s2 None false, []))
    else inr (s1, ROk, noeff)
  else inl (Some (s1, [])).

(** the loop of registerReplica that moves the candidate; None: [pick] names no replica with the highest revision
    count, the observation is not a possible one *)
Definition elected (s3 : cst) (pick : option addr) : option (option addr) :=
  let cand := filter (fun p => negb (rg_rebuilding (snd p))) (registered s3) in
  let best := fold_left Z.max (map (fun p => rg_rev (snd p)) cand) 0 in
  if best <=? reg_rev s3 (maxrev s3) then Some (maxrev s3)
  else match pick with
       | Some p => if existsb (fun q => Nat.eqb (fst q) p && (rg_rev (snd q) =? best)) cand
                   then Some (Some p) else None
       | None => None
       end.

Definition reg_elect (s2 : cst) (a : addr) (pick : option addr) (fs : faults) (sg0 : list (addr * bool)) : cst * res * eff :=
  let s3 := match maxrev s2 with None => upd_leader s2 (Some a) (signalled s2) | Some _ => s2 end in
  match elected s3 pick with
  | None => (s3, RInvalid, mkeff sg0 None)
  | Some l =>
      let s4 := upd_leader s3 l (signalled s3) in
      if Nat.leb (quorum (rf s4)) (length (registered s4)) then
        let '(s5, ok, sg) := signal_replica s4 fs in
        (s5, if ok then ROk else RErr, mkeff (sg0 ++ sg) None)
      else (s4, ROk, mkeff sg0 None)
  end.

Lemma do_register_unfold : forall s a u rev reb pick fs,
  do_register s a u rev reb pick fs =
  if Nat.eqb u 0 then (s, ROk, noeff)
  else
    let s1 := reg_s1 s a u rev reb in
    match replicas s1 with
    | _ :: _ => (s1, ROk, noeff)
    | [] =>
        match reg_switch s1 a fs with
        | inr out => out
        | inl None => (s1, ROk, noeff)
        | inl (Some (s2, sg0)) =>
            if reb then (s2, ROk, mkeff sg0 None) else reg_elect s2 a pick fs sg0
        end
    end.
Proof. reflexivity. Qed.

(** the marking of the replicas behind at the end of a start is [handle_error_nolock]: its lemmas apply *)
Lemma start_fold_errors : forall exp (l : list (addr * Z)) s,
  fold_left (fun acc p => if snd p =? exp then acc else set_mode_nolock acc (fst p) ERR) l s
  = fst (handle_error_nolock s (map fst (filter (fun p => negb (snd p =? exp)) l))).
Proof.
  intros exp. unfold handle_error_nolock. cbn [fst]. induction l as [|p t IH]; intros s; cbn [fold_left filter]; [reflexivity|].
  destruct (snd p =? exp); cbn [negb map fold_left]; apply IH.
Qed.

Definition reset (s : cst) : cst := upd_csize (upd_backends (upd_replicas s []) []) maxint.

Definition behind (s1 : cst) : list addr :=
  let revs := map (fun p => (fst p, f_rev (wget (w s1) (fst p)))) (replicas s1) in
  map fst (filter (fun p => negb (snd p =? fold_left Z.max (map snd revs) 0)) revs).

Definition do_start_tail (s1 : cst) (fs : faults) : cst :=
  start_frontend (update_checkpoint (update_vol_status (fst (handle_error_nolock s1 (behind s1)))) fs).

Lemma do_start_cases : forall s l fs,
  do_start s l fs = (s, match l, replicas s with _ :: _, [] => RErr | _, _ => ROk end, noeff)
  \/ exists a0 t s1, l = a0 :: t /\ replicas s = [] /\ signalled s = true /\ maxrev s = Some a0
       /\ s1 = fst (start_adds (reset s) fs l)
       /\ ((exists r, r <> ROk /\ do_start s l fs = (start_frontend s1, r, noeff))
           \/ exists ef, (forall p, In p (e_signals ef) -> snd p = false) /\ do_start s l fs = (do_start_tail s1 fs, ROk, ef)).
Proof.
  intros s l fs. remember (do_start s l fs) as out eqn:D. revert D. unfold do_start.
  destruct l as [|a0 t]; [intros ->; left; reflexivity|].
  destruct (replicas s) eqn:Er; [|intros ->; left; reflexivity].
  destruct (signalled s); [|intros ->; left; reflexivity]. destruct (maxrev s) as [m|]; [|intros ->; left; reflexivity].
  destruct (Nat.eqb m a0) eqn:E; [|intros ->; left; reflexivity]. apply Nat.eqb_eq in E. subst m. cbn [negb orb].
  fold (reset s). intros D. right. exists a0, t, (fst (start_adds (reset s) fs (a0 :: t))). do 5 (split; [reflexivity|]).
  revert D. destruct (start_adds (reset s) fs (a0 :: t)) as [s1 r]. cbn [fst].
  destruct r; try (intros ->; left; eexists; split; [|reflexivity]; discriminate).
  destruct (existsb _ (replicas s1)); [intros ->; left; exists RErr; split; [discriminate|reflexivity]|].
  intros ->. right. eexists. split; [|unfold do_start_tail, behind; cbv zeta; rewrite <- start_fold_errors; reflexivity].
  cbn [e_signals]. intros p Hp. apply in_map_iff in Hp. destruct Hp as [q [Hq _]]. subst p. reflexivity.
Qed.

(** VerifyRebuildReplica: nothing done, the replica told its mode and the revision not set, or promoted after the
    chains were compared from the checkpoint upward *)
Inductive verify_out (s : cst) (a : addr) (fs : faults) : cst * res -> Prop :=
| vo_same r : (r = ROk -> aget (replicas s) a = Some RW) -> verify_out s a fs (s, r)
| vo_mode : verify_out s a fs (upd_rep s a (fun f => f_set_mode f RRW), RErr)
| vo_promoted r0 m0 k :
    find (fun p => is_rw (snd p)) (replicas s) = Some (r0, m0) ->
    (k <= length (f_chain (wget (w s) a)))%nat ->
    firstn k (f_chain (wget (w s) r0)) = firstn k (f_chain (wget (w s) a)) ->
    match f_cp (wget (w s) a) with
    | None => k = length (f_chain (wget (w s) r0))
    | Some c => exists i, index_of (f_chain (wget (w s) r0)) c 0 = Some i /\ k = S i
    end ->
    verify_out s a fs
      (update_checkpoint (update_vol_status (set_mode_nolock
         (upd_rep (upd_rep s a (fun f => f_set_mode f RRW)) a (fun f => f_set_rev f (f_rev (wget (w s) r0)))) a RW)) fs, ROk).

Lemma do_verify_spec : forall s a fs, verify_out s a fs (do_verify s a fs).
Proof.
  intros s a fs. unfold do_verify.
  assert (No : forall r, r <> ROk -> verify_out s a fs (s, r)) by (intros r Hr; apply vo_same; intros E; contradiction).
  destruct (aget (replicas s) a) as [m|] eqn:Ea; [|apply No; discriminate].
  destruct (find (fun p => is_rw (snd p)) (replicas s)) as [[r0 m0]|] eqn:Ef; [|destruct m; apply No; discriminate].
  destruct m; [|apply vo_same; intros _; exact Ea|apply No; discriminate].
  destruct (flt fs r0 KHttp || flt fs a KHttp); [apply No; discriminate|].
  match goal with |- context [match ?K with Some k => _ | None => _ end] => destruct K as [k|] eqn:Ek end; [|apply No; discriminate].
  destruct (Nat.ltb (length (f_chain (wget (w s) a))) k) eqn:El; [apply No; discriminate|].
  destruct (negb (list_eqb _ _)) eqn:Ee; [apply No; discriminate|].
  destruct (negb (amem (backends s) r0) || flt fs r0 KRev); [apply No; discriminate|].
  destruct (negb (amem (backends s) a) || flt fs a KSetModeRW); [apply No; discriminate|].
  destruct (flt fs a KSetRev); [apply vo_mode|].
  apply (vo_promoted s a fs r0 m0 k); [exact Ef|apply Nat.ltb_ge; exact El|apply list_eqb_eq; apply negb_false_iff; exact Ee|].
  destruct (f_cp (wget (w s) a)) as [c|]; [|inversion Ek; reflexivity].
  destruct (index_of (f_chain (wget (w s) r0)) c 0) as [i|]; [|discriminate]. inversion Ek. exists i. split; reflexivity.
Qed.

(** ** the primitive operations *)

Definition adds (e : event) (a : addr) : Prop :=
  match e with AddCommit x _ => a = x | Start l _ => In a l | _ => False end.

Definition may_promote (e : event) (a : addr) : Prop :=
  match e with Verify x _ | SetMode x RW => a = x | Start l _ => In a l | _ => False end.

(** a start does not promote a replica whose clone status is "error" (C19) *)
Definition promotion (e : event) (s : cst) (a : addr) : Prop :=
  may_promote e a /\ forall l fs, e = Start l fs -> f_clone (wget (w s) a) <> CErr.

Definition may_fail (e : event) : Prop :=
  match e with
  | Write _ _ _ _ | Sync _ | Unmap _ | Read _ _ _ _ | Snapshot _ _ | Resize _ _ | MonFail _ _ | Start _ _
  | SetMode _ ERR => True
  | _ => False
  end.

Definition calls (e : event) : Prop :=
  match e with
  | Write _ _ _ _ | Sync _ | Unmap _ | Read _ _ _ _ | Snapshot _ _ | Resize _ _ => True
  | _ => False
  end.

Definition is_register (e : event) : Prop := match e with Register _ _ _ _ _ _ => True | _ => False end.

Inductive meta (s : cst) : cst -> Prop :=
| meta_refl : meta s s
| meta_nsnap v : meta s (upd_nsnap s v)
| meta_pend_adds v : meta s (upd_pend_adds s v)
| meta_fe v : meta s (upd_fe s v)
| meta_csize v : meta s (upd_csize s v)
| meta_forget : meta s (upd_leader s None false).

Definition regframe (s t : cst) : Prop :=
  exists R M G, t = upd_leader (upd_registered s R) M G /\ (NoDup (map fst (registered s)) -> NoDup (map fst R)).

Inductive setter : (frep -> frep) -> Prop :=
| set_apply wid : setter (fun f => f_apply f wid)
| set_snap n : setter (fun f => f_snap f n)
| set_size z : setter (fun f => f_set_size f z)
| set_open b : setter (fun f => f_set_open f b)
| set_mode m : setter (fun f => f_set_mode f m)
| set_rev v : setter (fun f => f_set_rev f v).

Definition bump (s : cst) : cst := upd_ninst s (S (ninst s)).

Definition append (s : cst) (a : addr) (i : nat) : cst :=
  let s5 := upd_replicas s (replicas s ++ [(a, WO)]) in
  let s6 := upd_backends s5 (if amem (backends s5) a then backends s5 else backends s5 ++ [(a, (WO, i))]) in
  upd_mon s6 (live_mon s6 ++ [(i, a)]) (pend_mon s6).

Inductive qop (e : event) : cst -> cst -> Prop :=
| q_meta s t : meta s t -> qop e s t
| q_rep s a g : setter g -> qop e s (upd_rep s a g)
| q_copy s a src : e = SyncData a -> aget (replicas s) a = Some WO -> qop e s (upd_rep s a (fun f => f_copy_data f src))
| q_mode s a m : (m = ERR /\ may_fail e) \/ (m = RW /\ promotion e s a) -> qop e s (set_mode_nolock s a m)
| q_remove s fs a : qop e s (remove_replica_nolock s fs a)
| q_bump s : qop e s (bump s)
| q_reset s : replicas s = [] -> qop e s (reset s)
| q_unpend s i a fs : e = MonFire a fs -> In (i, a) (pend_mon s) -> qop e s (upd_mon s (live_mon s) (adel (pend_mon s) i))
| q_unlive s i a fs : e = MonFail a fs -> In (i, a) (live_mon s) -> qop e s (upd_mon s (adel (live_mon s) i) (pend_mon s))
| q_register s t : is_register e -> regframe s t -> qop e s t.

Lemma mode_guard : forall e s a m, (m = ERR /\ may_fail e) \/ (m = RW /\ promotion e s a) -> m <> WO.
Proof. intros e s a m [[H _]|[H _]]; subst; discriminate. Qed.

Definition quiet (e : event) : cst -> cst -> Prop := clos_refl_trans cst (qop e).

(** AddCommit has compared the list with the replication factor; Start (of one replica, which is what
    replicas send) has emptied it *)
Definition room (e : event) (s : cst) : Prop :=
  match e with
  | Start l _ => (length l <= 1)%nat -> replicas s = []
  | _ => Nat.eqb (rf s) (length (replicas s)) = false
  end.

(** An add draws the instance id in [s] and appends in [t]: in between the newcomer is accepted (which
    may remove the rebuilding replica), snapshots are taken, the new replica is told its mode. *)
Inductive op (e : event) : cst -> cst -> Prop :=
| op_quiet s t : qop e s t -> op e s t
| op_add s t a : quiet e (bump s) t -> room e s -> rf t = rf s -> replicas t = vacated (replicas s) ->
    has_replica t a = false -> adds e a -> op e s (append t a (ninst s)).

Definition path (e : event) : cst -> cst -> Prop := clos_refl_trans cst (op e).

Lemma quiet_then : forall e a b c, quiet e a b -> qop e b c -> quiet e a c.
Proof. intros e a b c H Q. eapply rt_trans; [exact H|apply rt_step; exact Q]. Qed.

Lemma path_quiet : forall e s t, quiet e s t -> path e s t.
Proof.
  intros e s t H. induction H as [x y Q|x|x y z _ IH1 _ IH2];
    [apply rt_step; apply op_quiet; exact Q|apply rt_refl|eapply rt_trans; eassumption].
Qed.

Lemma path_then : forall e a b c, path e a b -> qop e b c -> path e a c.
Proof. intros e a b c H Q. eapply rt_trans; [exact H|apply rt_step; apply op_quiet; exact Q]. Qed.

Lemma quiet_fan : forall e g h, setter h -> forall ws s, quiet e s (fan g h ws s).
Proof.
  intros e g h Hh. unfold fan. induction ws as [|a t IH]; intros s; cbn [fold_left]; [apply rt_refl|].
  destruct (g a); [apply IH|].
  eapply rt_trans; [apply rt_step; apply q_rep; exact Hh|apply IH].
Qed.

Lemma quiet_handle_error : forall e errs s, may_fail e -> quiet e s (fst (handle_error_nolock s errs)).
Proof.
  intros e errs s He. apply (handle_error_ind (quiet e s)); [apply rt_refl|].
  intros t x _ H. eapply quiet_then; [exact H|]. apply q_mode; left; split; [reflexivity|exact He].
Qed.

Lemma quiet_remove_all : forall e errs fs s, quiet e s (remove_all s fs errs).
Proof.
  intros e errs fs s. apply (remove_all_ind (quiet e s)); [apply rt_refl|].
  intros t x _ H. eapply quiet_then; [exact H|apply q_remove].
Qed.

Lemma quiet_can_add : forall e s fs a, quiet e s (fst (can_add s fs a)).
Proof.
  intros e s fs a. destruct (can_add_cases s fs a) as [E|[[E _]|[wo [m [E _]]]]]; rewrite E; cbn [fst];
    [apply rt_refl|apply rt_refl|apply rt_step; apply q_remove].
Qed.

Lemma can_add_admits : forall s fs a, snd (can_add s fs a) = true ->
  rf (fst (can_add s fs a)) = rf s /\ replicas (fst (can_add s fs a)) = vacated (replicas s)
  /\ has_replica (fst (can_add s fs a)) a = false.
Proof.
  intros s fs a. unfold vacated.
  destruct (can_add_cases s fs a) as [E|[[E [Hn Hf]]|[wo [m [E [Hn [Hf Hwo]]]]]]]; rewrite E; cbn [fst snd]; intros Hok.
  - discriminate Hok.
  - rewrite Hf. repeat split. exact Hn.
  - rewrite Hf. destruct (remove_fields s fs wo Hwo) as [R1 [R2 _]].
    split; [exact R2|]. split; [exact R1|]. apply has_replica_remove_other. exact Hn.
Qed.

Lemma add_replica_cases : forall e s fs a i b,
  quiet e s (fst (add_replica_nolock s fs a i b))
  \/ exists t, fst (add_replica_nolock s fs a i b) = append t a i /\ quiet e s t
       /\ rf t = rf s /\ replicas t = vacated (replicas s) /\ has_replica t a = false.
Proof.
  intros e s fs a i b. unfold add_replica_nolock.
  pose proof (can_add_admits s fs a) as Adm. pose proof (quiet_can_add e s fs a) as Q0.
  destruct (can_add s fs a) as [s0 ok]. cbn [fst snd] in Adm, Q0.
  destruct ok; cbn [negb]; [|left; exact Q0].
  destruct (Adm eq_refl) as [Hrf0 [Hrep0 Hnew0]]. clear Adm.
  (* whatever the snapshot phase hands on differs from [s0] by quiet operations that leave the list alone *)
  pose (P := fun s3 => quiet e s0 s3 /\ rf s3 = rf s0 /\ replicas s3 = replicas s0).
  set (o := if b then _ else Some (s0, ROk)).
  assert (Snap : match o with Some (s3, _) => P s3 | None => False end).
  { assert (P0 : P s0) by (split; [apply rt_refl|split; reflexivity]).
    subst o. destruct b; [|exact P0]. destruct (negb (remain_ok s0)); [exact P0|].
    pose proof (snapshot_all_fan (upd_nsnap s0 (S (nsnap s0))) fs (nsnap s0)) as Es.
    destruct (snapshot_all (upd_nsnap s0 (S (nsnap s0))) fs (nsnap s0)) as [s2 errs]. cbn [fst] in Es.
    assert (P2 : forall g, setter g -> P (upd_rep s2 a g)).
    { intros g Hg. rewrite Es. split.
      - eapply rt_trans; [apply rt_step; apply q_meta; apply meta_nsnap|].
        eapply quiet_then; [apply quiet_fan; apply set_snap|apply q_rep; exact Hg].
      - match goal with |- context [fan ?g ?h ?ws ?x] => destruct (fan_shape g h ws x) as [w' E] end.
        rewrite E. split; reflexivity. }
    destruct errs; [|exact (P2 _ (set_open false))].
    destruct (flt fs a KSnap); [exact (P2 _ (set_open false))|exact (P2 _ (set_snap _))]. }
  clearbody o. destruct o as [[s3 r]|]; [|contradiction]. destruct Snap as [Q3 [F3 R3]].
  assert (Q : quiet e s s3) by (eapply rt_trans; eassumption).
  destruct r; try (left; exact Q). destruct (flt fs a KSetModeWO); [left; exact Q|].
  right. eexists. split; [reflexivity|]. split; [|split; [|split]].
  - eapply quiet_then; [exact Q|]. apply q_rep; apply set_mode.
  - cbn [rf upd_rep upd_w]. rewrite F3. exact Hrf0.
  - cbn [replicas upd_rep upd_w]. rewrite R3. exact Hrep0.
  - rewrite <- Hnew0. apply has_replica_ext. cbn [replicas upd_rep upd_w]. exact R3.
Qed.

(** from the drawing of the instance id to the append, or to the exit that gives up *)
Lemma add_block : forall e fs a b s sb s1, path e s sb ->
  quiet e (bump sb) s1 -> rf s1 = rf sb -> replicas s1 = replicas sb -> room e sb -> adds e a ->
  path e s (fst (add_replica_nolock s1 fs a (ninst sb) b)).
Proof.
  intros e fs a b s sb s1 Pb Hq Hrf Hrep Hroom Hsub. eapply rt_trans; [exact Pb|].
  destruct (add_replica_cases e s1 fs a (ninst sb) b) as [Q|[t [E [Q [F [R N]]]]]].
  - eapply rt_trans; [apply rt_step; apply op_quiet; apply q_bump|].
    apply path_quiet. eapply rt_trans; eassumption.
  - rewrite E. apply rt_step. apply op_add; [eapply rt_trans; eassumption|exact Hroom|congruence|congruence|exact N|exact Hsub].
Qed.

(** how a request ends: the refresh of status and checkpoint, where a request makes one, is its last
    operation but for bookkeeping ([meta]: [start_frontend]) *)
Definition ends (e : event) (s u : cst) : Prop :=
  exists t, path e s t /\ (u = t \/ exists fs, meta (update_checkpoint (update_vol_status t) fs) u).

Lemma meta_start_frontend : forall u, meta u (start_frontend u).
Proof. intros u. unfold start_frontend. destruct (replicas u); [apply meta_refl|apply meta_fe]. Qed.

Lemma ends_path : forall e s t, path e s t -> ends e s t.
Proof. intros e s t H. exists t. split; [exact H|left; reflexivity]. Qed.

Lemma ends_refresh : forall e s t fs, path e s t -> ends e s (update_checkpoint (update_vol_status t) fs).
Proof. intros e s t fs H. exists t. split; [exact H|right; exists fs; apply meta_refl]. Qed.

(** ** every request is a path of them *)

(** a registration is the one primitive [q_register] *)
Lemma regframe_refl : forall s, regframe s s.
Proof. intros s. exists (registered s), (maxrev s), (signalled s). split; [destruct s; reflexivity|auto]. Qed.

Lemma regframe_trans : forall a b c, regframe a b -> regframe b c -> regframe a c.
Proof. intros a b c (R & M & G & -> & N) (R' & M' & G' & -> & N'). exists R', M', G'. split; [reflexivity|auto]. Qed.

Lemma regframe_registered : forall s v, (NoDup (map fst (registered s)) -> NoDup (map fst v)) ->
  regframe s (upd_registered s v).
Proof. intros s v H. exists v, (maxrev s), (signalled s). split; [reflexivity|exact H]. Qed.

Lemma regframe_leader : forall s m g, regframe s (upd_leader s m g).
Proof. intros s m g. exists (registered s), m, g. split; [reflexivity|auto]. Qed.

Lemma regframe_signal_replica : forall s fs, regframe s (fst (fst (signal_replica s fs))).
Proof.
  intros s fs. unfold signal_replica. destruct (maxrev s) as [m|]; [destruct (flt fs m KSignal)|]; cbn [fst];
    try apply regframe_leader.
  eapply regframe_trans; [apply regframe_registered; apply nodup_adel|apply regframe_leader].
Qed.

Lemma reg_switch_cases : forall s1 a fs,
  match reg_switch s1 a fs with
  | inr out => out = (s1, ROk, noeff)
  | inl None => False
  | inl (Some (s2, sg0)) =>
      sg0 = [] /\ regframe s1 s2 /\ incl (registered s2) (registered s1) /\ (maxrev s2 = maxrev s1 \/ maxrev s2 = None)
  end.
Proof.
  intros s1 a fs. unfold reg_switch.
  assert (Same : [] = @nil (addr * bool) /\ regframe s1 s1 /\ incl (registered s1) (registered s1)
                 /\ (maxrev s1 = maxrev s1 \/ maxrev s1 = None)).
  { split; [reflexivity|]. split; [apply regframe_refl|]. split; [apply incl_refl|left; reflexivity]. }
  destruct (signalled s1); [|exact Same].
  destruct (match maxrev s1 with Some m => Nat.eqb m a | None => false end); [exact Same|].
  destruct (match maxrev s1 with Some m => flt fs m KAlive | None => true end); [|reflexivity].
  cbv zeta. split; [reflexivity|]. destruct (maxrev s1) as [m|].
  - split; [eapply regframe_trans; [apply regframe_registered; apply nodup_adel|apply regframe_leader]|].
    split; [intros p Hp; eapply in_adel; exact Hp|right; reflexivity].
  - split; [apply regframe_leader|]. split; [apply incl_refl|right; reflexivity].
Qed.

Lemma regframe_elect : forall s2 a pick fs sg0, regframe s2 (fst (fst (reg_elect s2 a pick fs sg0))).
Proof.
  intros s2 a pick fs sg0. unfold reg_elect.
  set (s3 := match maxrev s2 with None => _ | Some _ => s2 end).
  assert (H3 : regframe s2 s3) by (subst s3; destruct (maxrev s2); [apply regframe_refl|apply regframe_leader]).
  destruct (elected s3 pick) as [l|]; [|exact H3].
  set (s4 := upd_leader s3 l (signalled s3)).
  assert (H4 : regframe s2 s4) by (eapply regframe_trans; [exact H3|apply regframe_leader]).
  destruct (Nat.leb (quorum (rf s4)) (length (registered s4))); [|exact H4].
  pose proof (regframe_signal_replica s4 fs) as H5.
  destruct (signal_replica s4 fs) as [[s5 ok] sg]. cbn [fst] in *. eapply regframe_trans; eassumption.
Qed.

Lemma regframe_s1 : forall s a u r b, regframe s (reg_s1 s a u r b).
Proof. intros s a u r b. apply regframe_registered. intros Hn. apply nodup_aset. apply nodup_filter_keys. exact Hn. Qed.

Lemma regframe_do_register : forall s a u r b pick fs, regframe s (fst (fst (do_register s a u r b pick fs))).
Proof.
  intros s a u r b pick fs. rewrite do_register_unfold.
  destruct (Nat.eqb u 0); [apply regframe_refl|]. cbv zeta. pose proof (regframe_s1 s a u r b) as H1.
  destruct (replicas (reg_s1 s a u r b)); [|exact H1].
  pose proof (reg_switch_cases (reg_s1 s a u r b) a fs) as Hsw.
  destruct (reg_switch (reg_s1 s a u r b) a fs) as [[[s2 sg0]|]|out]; [|contradiction|subst out; exact H1].
  destruct Hsw as [_ [R2 _]]. eapply regframe_trans; [exact H1|]. eapply regframe_trans; [exact R2|].
  destruct b; [apply regframe_refl|apply regframe_elect].
Qed.

Lemma path_add_during_start : forall l0 fs0 s fs a, In a l0 -> ((length l0 <= 1)%nat -> replicas s = []) ->
  path (Start l0 fs0) s (fst (add_during_start s fs a)).
Proof.
  intros l0 fs0 s fs a Hsub Hroom. set (e := Start l0 fs0). unfold add_during_start.
  assert (Rm : forall x, path e s x -> path e s (rm_from_registered x)).
  { intros x Hx. eapply path_then; [exact Hx|]. apply q_meta. apply meta_forget. }
  destruct (create_backend_cases s fs a) as [E|E]; rewrite E; [apply Rm; apply rt_refl|].
  set (sb := upd_rep s a (fun f => f_set_open f true)) in *.
  assert (Pb : path e s sb) by (apply rt_step; apply op_quiet; apply q_rep; apply set_open).
  assert (P1 : path e s (bump sb)) by (eapply path_then; [exact Pb|apply q_bump]).
  change (upd_ninst sb (S (ninst s))) with (bump sb).
  destruct (flt fs a KSize); [apply Rm; exact P1|].
  set (s2 := if csize (bump sb) =? maxint then upd_csize (bump sb) (f_size (wget (w (bump sb)) a)) else bump sb).
  assert (Q2 : quiet e (bump sb) s2).
  { subst s2. destruct (csize (bump sb) =? maxint); [apply rt_step; apply q_meta; apply meta_csize|apply rt_refl]. }
  assert (F2 : rf s2 = rf sb /\ replicas s2 = replicas sb).
  { subst s2. destruct (csize (bump sb) =? maxint); split; reflexivity. }
  destruct F2 as [F2 R2].
  destruct (negb (csize s2 =? f_size (wget (w (bump sb)) a))).
  { apply Rm. eapply rt_trans; [exact P1|apply path_quiet; exact Q2]. }
  pose proof (add_block e fs a false s sb s2 Pb Q2 F2 R2 Hroom Hsub) as P3. change (ninst sb) with (ninst s) in P3.
  destruct (add_replica_nolock s2 fs a (ninst s) false) as [s3 r]. cbn [fst] in P3.
  destruct r; try (apply Rm; exact P3).
  assert (Gone : path e s (remove_replica_nolock s3 fs a)) by (eapply path_then; [exact P3|apply q_remove]).
  destruct (flt fs a KClone); [exact Gone|].
  assert (G : f_clone (wget (w s3) a) <> CErr ->
    path e s (fst (if flt fs a KSetModeRW then (remove_replica_nolock s3 fs a, RErr)
                  else (set_mode_nolock (upd_rep s3 a (fun f => f_set_mode f RRW)) a RW, ROk)))).
  { intros Hc. destruct (flt fs a KSetModeRW); cbn [fst]; [exact Gone|].
    eapply path_then; [eapply path_then; [exact P3|apply q_rep; apply set_mode]|].
    apply q_mode. right. split; [reflexivity|]. split; [exact Hsub|]. intros _ _ _.
    rewrite wget_upd_rep, Nat.eqb_refl. exact Hc. }
  destruct (f_clone (wget (w s3) a)); [apply G; discriminate|apply G; discriminate|exact Gone].
Qed.

(** [length l <= length l0] only serves to refute [length l0 <= 1] at a second add, where the list is
    no longer empty: [room] promises nothing for a start that names several replicas *)
Lemma path_start_adds : forall l0 fs0 fs l s,
  incl l l0 -> (length l <= length l0)%nat -> ((length l0 <= 1)%nat -> replicas s = []) ->
  path (Start l0 fs0) s (fst (start_adds s fs l)).
Proof.
  intros l0 fs0 fs. induction l as [|a t IH]; intros s Hi Hl Hr; cbn [start_adds]; [apply rt_refl|].
  assert (P1 : path (Start l0 fs0) s (fst (add_during_start s fs a))).
  { apply path_add_during_start; [apply Hi; left; reflexivity|exact Hr]. }
  destruct (add_during_start s fs a) as [s1 r]. cbn [fst] in P1.
  destruct r; try exact P1.
  destruct t as [|b t']; [exact P1|].
  eapply rt_trans; [exact P1|]. apply IH.
  - intros x Hx. apply Hi. right. exact Hx.
  - apply Nat.lt_le_incl. exact Hl.
  - intros H1. exfalso. exact (Nat.nle_succ_0 _ (le_S_n _ _ (Nat.le_trans _ _ _ Hl H1))).
Qed.

Lemma ends_do_start : forall s l fs, ends (Start l fs) s (fst (fst (do_start s l fs))).
Proof.
  intros s l fs.
  destruct (do_start_cases s l fs) as [E|(a0 & t & s1 & -> & Er & _ & _ & -> & C)]; [rewrite E; apply ends_path; apply rt_refl|].
  assert (P1 : path (Start (a0 :: t) fs) s (fst (start_adds (reset s) fs (a0 :: t)))).
  { eapply rt_trans; [apply rt_step; apply op_quiet; apply q_reset; exact Er|].
    apply path_start_adds; [apply incl_refl|apply Nat.le_refl|reflexivity]. }
  destruct C as [(r & _ & E)|(ef & _ & E)]; rewrite E; cbn [fst].
  - apply ends_path. eapply path_then; [exact P1|apply q_meta; apply meta_start_frontend].
  - eexists. split; [eapply rt_trans; [exact P1|apply path_quiet; apply quiet_handle_error; exact I]|].
    right. exists fs. apply meta_start_frontend.
Qed.

Lemma path_do_add_check : forall e s a fs, path e s (fst (do_add_check s a fs)).
Proof.
  intros e s a fs. unfold do_add_check.
  pose proof (quiet_can_add e s fs a) as Q. destruct (can_add s fs a) as [s1 ok]. cbn [fst] in Q.
  apply path_quiet.
  destruct (negb ok); [exact Q|]. destruct (Nat.eqb (rf s1) (length (replicas s1))); [exact Q|].
  eapply quiet_then; [exact Q|apply q_meta; apply meta_pend_adds].
Qed.

Lemma ends_do_add_commit : forall s a fs, ends (AddCommit a fs) s (fst (do_add_commit s a fs)).
Proof.
  intros s a fs. set (e := AddCommit a fs). unfold do_add_commit.
  destruct (negb (existsb (Nat.eqb a) (pend_adds s))); [apply ends_path; apply rt_refl|].
  set (s0 := upd_pend_adds s _).
  assert (P0 : path e s s0) by (apply rt_step; apply op_quiet; apply q_meta; apply meta_pend_adds).
  destruct (create_backend_cases s0 fs a) as [E|E]; rewrite E; [apply ends_path; exact P0|].
  set (sb := upd_rep s0 a (fun f => f_set_open f true)).
  assert (Pb : path e s sb) by (eapply path_then; [exact P0|apply q_rep; apply set_open]).
  change (upd_ninst sb (S (ninst s0))) with (bump sb).
  destruct (Nat.eqb (rf (bump sb)) (length (replicas (bump sb)))) eqn:Erf.
  { apply ends_path. eapply path_then; [eapply path_then; [exact Pb|apply q_bump]|]. apply q_rep; apply set_open. }
  pose proof (add_block e fs a true s sb (bump sb) Pb (rt_refl _ _ _) eq_refl eq_refl Erf eq_refl) as P2.
  change (ninst sb) with (ninst s0) in P2.
  destruct (add_replica_nolock (bump sb) fs a (ninst s0) true) as [s2 r]. cbn [fst] in P2.
  destruct r; try (apply ends_path; exact P2). cbn [fst]. apply ends_refresh. exact P2.
Qed.

Lemma ends_do_verify : forall s a fs, ends (Verify a fs) s (fst (do_verify s a fs)).
Proof.
  intros s a fs. set (e := Verify a fs).
  assert (P1 : path e s (upd_rep s a (fun f => f_set_mode f RRW))) by (apply rt_step; apply op_quiet; apply q_rep; apply set_mode).
  destruct (do_verify_spec s a fs) as [r _| |r0 m0 k _ _ _ _]; [apply ends_path; apply rt_refl|apply ends_path; exact P1|].
  cbn [fst]. apply ends_refresh. eapply path_then; [eapply path_then; [exact P1|apply q_rep; apply set_rev]|].
  apply q_mode. right. split; [reflexivity|]. split; [reflexivity|discriminate].
Qed.

Lemma path_do_mon_fire : forall s a fs, path (MonFire a fs) s (fst (do_mon_fire s a fs)).
Proof.
  intros s a fs. unfold do_mon_fire.
  destruct (first_for (pend_mon s) (Nat.eqb a)) as [[i x]|] eqn:Ef; [|apply rt_refl].
  unfold first_for in Ef. apply find_some in Ef. destruct Ef as [Hin Hx]. cbn [snd] in Hx.
  apply Nat.eqb_eq in Hx. subst x. cbn [fst].
  eapply path_then; [apply rt_step; apply op_quiet; exact (q_unpend _ s i a fs eq_refl Hin)|apply q_remove].
Qed.

Lemma path_do_mon_fail : forall s a fs, path (MonFail a fs) s (fst (do_mon_fail s a fs)).
Proof.
  intros s a fs. unfold do_mon_fail.
  destruct (first_for (rev (live_mon s)) (Nat.eqb a)) as [[i x]|] eqn:Ef; [|apply rt_refl].
  unfold first_for in Ef. apply find_some in Ef. destruct Ef as [Hin Hx]. cbn [snd] in Hx.
  apply Nat.eqb_eq in Hx. subst x. apply in_rev in Hin. cbn [fst].
  eapply path_then; [|apply q_remove].
  eapply path_then; [apply rt_step; apply op_quiet; exact (q_unlive _ s i a fs eq_refl Hin)|].
  apply q_mode; left; split; reflexivity.
Qed.

(** sync, unmap and read have no fan-out: they take the shape with a fan that reaches nobody ([fan_none]) *)
Theorem call_cases : forall s e, calls e ->
  fst (fst (step s e)) = s
  \/ exists g h errs, setter h /\ incl errs (writers s) /\
       let s2 := fst (handle_error_nolock (fan g h (writers s) s) errs) in
       fst (fst (step s e)) = s2 \/ (exists fs, fst (fst (step s e)) = remove_all s2 fs errs)
       \/ exists sz, fst (fst (step s e)) = upd_csize s2 sz.
Proof.
  intros s e He.
  destruct (is_io e) eqn:Hio.
  { destruct (io_gate s e Hio) as [R|E]; [right|left; rewrite E; reflexivity].
    exists (match e with Write _ _ _ fs => fun a => flt fs a KWrite | _ => fun _ => true end),
      (fun f => f_apply f (match e with Write wid _ _ _ => wid | _ => 0%nat end)), (io_failed s e).
    split; [apply set_apply|]. split; [apply incl_filter|].
    cbv zeta. right. left. exists (ev_faults e). rewrite (io_step s e Hio R). cbn [fst].
    destruct e; try discriminate Hio; cbn [io_fan]; rewrite ?fan_none; reflexivity. }
  destruct e; try contradiction; try discriminate Hio; cbn [step]; rewrite ?fst_let_pair.
  - destruct (do_read_cases s off len order fs) as [E|E]; rewrite E; [left; reflexivity|].
    unfold read_main. destruct (negb (avail s)); [left; reflexivity|].
    destruct (negb (read_order_ok s order fs)) eqn:Eo; [left; reflexivity|].
    apply negb_false_iff in Eo.
    right. exists (fun _ => true), (fun f => f_apply f 0%nat), (filter (fun a => flt fs a KRead) order).
    split; [apply set_apply|]. split.
    { intros a Ha. apply filter_In in Ha. apply readers_writers. exact (read_order_sub s order fs a Eo (proj1 Ha)). }
    cbv zeta. rewrite fan_none. destruct (filter (fun a => flt fs a KRead) order) as [|x t]; [left; reflexivity|].
    right. left. exists fs. destruct (handle_error_nolock s (x :: t)) as [s2 sup]. reflexivity.
  - destruct (do_snapshot_cases s name fs) as [[E _]|E]; [left; exact E|].
    right. exists (fun a => flt fs a KSnap), (fun f => f_snap f name), (filter (fun a => flt fs a KSnap) (writers s)).
    split; [apply set_snap|]. split; [apply incl_filter|]. left. exact E.
  - destruct (newsize <=? csize s) eqn:Hle.
    { left. unfold do_resize. destruct (newsize <? csize s) eqn:E1; [reflexivity|]. destruct (newsize =? csize s) eqn:E2; [reflexivity|].
      apply Z.leb_le in Hle. apply Z.ltb_ge in E1. apply Z.eqb_neq in E2. lia. }
    right. exists (fun a => flt fs a KResize), (fun f => f_set_size f newsize), (resize_errs s fs).
    split; [apply set_size|]. split; [apply incl_filter|].
    rewrite (do_resize_unfold s newsize fs Hle). cbv zeta.
    destruct (match resize_errs s fs with [] => false | _ :: _ => _ end); [left; reflexivity|].
    destruct (flt fs 0%nat KFeResize); [left; reflexivity|].
    right. right. exists newsize. reflexivity.
Qed.

Lemma path_call : forall s e, calls e -> path e s (fst (fst (step s e))).
Proof.
  intros s e He. destruct (call_cases s e He) as [E|[g [h [errs [Hh [_ E]]]]]]; [rewrite E; apply rt_refl|]. cbv zeta in E.
  assert (Q : quiet e s (fst (handle_error_nolock (fan g h (writers s) s) errs))).
  { eapply rt_trans; [apply quiet_fan; exact Hh|apply quiet_handle_error; destruct e; try contradiction; exact I]. }
  apply path_quiet. destruct E as [E|[[fs E]|[sz E]]]; rewrite E.
  - exact Q.
  - eapply rt_trans; [exact Q|apply quiet_remove_all].
  - eapply quiet_then; [exact Q|apply q_meta; apply meta_csize].
Qed.

Lemma path_do_sync_data : forall s a, path (SyncData a) s (fst (do_sync_data s a)).
Proof.
  intros s a. unfold do_sync_data.
  destruct (aget (replicas s) a) as [[]|] eqn:Ea; try apply rt_refl.
  destruct (find _ (replicas s)) as [[r0 m0]|]; [|apply rt_refl].
  cbn [fst]. apply rt_step. apply op_quiet. apply q_copy; [reflexivity|exact Ea].
Qed.

Theorem step_ops : forall s e, ends e s (fst (fst (step s e))).
Proof.
  intros s e. destruct e; try (apply ends_path; apply path_call; exact I); cbn [step]; rewrite ?fst_let_pair;
    [|apply ends_do_start| |apply ends_do_add_commit|apply ends_do_verify| | | | |]; apply ends_path.
  - apply rt_step. apply op_quiet. apply q_register; [exact I|apply regframe_do_register].
  - apply path_do_add_check.
  - cbn [fst]. apply rt_step. apply op_quiet. apply q_remove.
  - destruct m; cbn [fst]; [apply rt_refl| |]; apply rt_step; apply op_quiet; apply q_mode;
      [right; split; [reflexivity|split; [reflexivity|discriminate]]|left; split; reflexivity].
  - apply path_do_mon_fire.
  - apply path_do_mon_fail.
  - apply path_do_sync_data.
Qed.

(** ** from one case per primitive to every step and every reachable state *)

Lemma quiet_inv : forall e (P : cst -> Prop), (forall s t, qop e s t -> P s -> P t) ->
  forall s t, quiet e s t -> P s -> P t.
Proof. intros e P Hq s t H. induction H; [apply Hq; assumption|auto|auto]. Qed.

(** the add needs no case of its own: it is a [bump], quiet operations, an [append]; the append is asked for any
    instance id [i], since that [ninst s] is fresh is known only under the monitor invariant of CheckpointInv.v *)
Lemma path_rel : forall e (P : cst -> Prop) (R : cst -> cst -> Prop),
  (forall s t, op e s t -> P s -> P t) -> (forall s, R s s) -> (forall a b c, R a b -> R b c -> R a c) ->
  (forall s t, qop e s t -> P s -> R s t) -> (forall t a i, adds e a -> R t (append t a i)) ->
  forall s t, path e s t -> P s -> R s t /\ P t.
Proof.
  intros e P R Ho Hr Ht Hq Ha.
  assert (Q : forall s t, quiet e s t -> P s -> R s t /\ P t).
  { intros s t H. induction H as [x y Q|x|x y z _ IH1 _ IH2]; intros Hx.
    - split; [apply Hq; assumption|exact (Ho _ _ (op_quiet e _ _ Q) Hx)].
    - split; [apply Hr|exact Hx].
    - destruct (IH1 Hx) as [R1 Hy]. destruct (IH2 Hy) as [R2 Hz]. split; [eapply Ht; eassumption|exact Hz]. }
  intros s t H. induction H as [x y O|x|x y z _ IH1 _ IH2]; intros Hx.
  - split; [|exact (Ho _ _ O Hx)]. destruct O as [x y Q0|x t a Q0 _ _ _ _ Hs]; [apply Hq; assumption|].
    destruct (Q _ _ Q0 (Ho _ _ (op_quiet e _ _ (q_bump e x)) Hx)) as [R1 _].
    eapply Ht; [apply Hq; [apply q_bump|exact Hx]|]. eapply Ht; [exact R1|apply Ha; exact Hs].
  - split; [apply Hr|exact Hx].
  - destruct (IH1 Hx) as [R1 Hy]. destruct (IH2 Hy) as [R2 Hz]. split; [eapply Ht; eassumption|exact Hz].
Qed.

Theorem ops_rel : forall e (R : cst -> cst -> Prop),
  (forall s, R s s) -> (forall a b c, R a b -> R b c -> R a c) -> (forall s t, qop e s t -> R s t) ->
  (forall t a i, adds e a -> R t (append t a i)) ->
  (forall t fs, R t (update_checkpoint (update_vol_status t) fs)) ->
  forall s, R s (fst (fst (step s e))).
Proof.
  intros e R Hr Ht Hq Ha Hf s. destruct (step_ops s e) as [t [H E]].
  destruct (path_rel e (fun _ => True) R (fun _ _ _ _ => I) Hr Ht (fun x y Q _ => Hq x y Q) Ha s t H I) as [G _].
  destruct E as [E|[fs M]]; [rewrite E; exact G|].
  eapply Ht; [exact G|]. eapply Ht; [apply Hf|apply Hq; apply q_meta; exact M].
Qed.

Theorem ops_inv : forall e (P : cst -> Prop), (forall s t, op e s t -> P s -> P t) ->
  (forall t fs, P t -> P (update_checkpoint (update_vol_status t) fs)) ->
  forall s, P s -> P (fst (fst (step s e))).
Proof.
  intros e P Ho Hf s Hs. destruct (step_ops s e) as [t [H E]]. assert (G : P t) by (clear E; induction H; eauto).
  destruct E as [E|[fs M]]; [rewrite E; exact G|].
  exact (Ho _ _ (op_quiet e _ _ (q_meta e _ _ M)) (Hf t fs G)).
Qed.

Theorem run_inv : forall (P : cst -> Prop) (Q : event -> Prop),
  (forall s e, Q e -> P s -> P (fst (fst (step s e)))) ->
  forall es s, (forall e, In e es -> Q e) -> P s -> P (run s es).
Proof.
  intros P Q Hstep. induction es as [|e t IH]; intros s HQ Hs; cbn [run]; [exact Hs|].
  apply IH; [intros x Hx; apply HQ; right; exact Hx|]. apply Hstep; [apply HQ; left; reflexivity|exact Hs].
Qed.
