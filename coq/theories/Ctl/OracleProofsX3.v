(** * Ctl: the controller halves of C01 (range checks) and C16 (resize): rules and traces *)
From Coq Require Import List ZArith Bool Arith Lia.
From Jiva Require Import Ctl.Model Ctl.Corr Ctl.Oracles Ctl.Proofs Ctl.Props Ctl.OracleProofs
  Ctl.OracleProofs2 Ctl.OracleProofsX.
Import ListNotations.
Open Scope Z_scope.

Lemma c01_step_model : forall rf0 n s e prev,
  obs_of n s prev ->
  c01_step rf0 prev e
           (obs_after n s e) = true.
Proof.
  intros rf0 n s e prev [r0 ef0 r0']. unfold obs_after. destruct e; try reflexivity.
  - unfold c01_step. cbn [o_size observe with_res1].
    destruct ((off <? 0) || (csize s <? off + len)) eqn:Hr; [|reflexivity].
    destruct (io_gate s (Write wid off len fs) eq_refl) as [[_ [_ R]]|E]; [rewrite (proj2 (in_range _ _ _) R) in Hr; discriminate|].
    rewrite E. cbn [fst snd].
    rewrite not_ack by (destruct (ro s); discriminate). rewrite untouched_same_state. cbn [andb o_replicas observe with_res1]. apply lrep_eqb_refl.
  - unfold c01_step. cbn [o_size observe with_res1 step].
    destruct ((off <? 0) || (csize s <? off + len)) eqn:Hr; [|reflexivity].
    rewrite do_read_unfold, Hr. cbn [fst snd].
    rewrite not_ack by discriminate. rewrite untouched_same_state. cbn [andb o_replicas observe with_res1]. apply lrep_eqb_refl.
Qed.

Theorem c01_oracle_model_x : forall xs rf0 n w0,
  walk (lift (c01_step rf0) nopair) 0 (obs0 rf0 n w0) xs (trace n (init rf0 w0) xs) = None.
Proof.
  intros xs rf0 n w0.
  apply (walk_sound (lift (c01_step rf0) nopair) (fun _ _ => True) n); [|exact I|apply obs0_obs_of].
  intros s x t prev _ Hp. split; [|exact I]. destruct x as [e|a b]; [apply c01_step_model; exact Hp|reflexivity].
Qed.

Lemma do_resize_grow : forall s sz fs, (sz <=? csize s) = false ->
  let R := do_resize s sz fs in
  let s1 := resize_fan s sz fs in
  replicas (fst R) = replicas (fst (handle_error_nolock s1 (resize_errs s fs)))
  /\ w (fst R) = w s1
  /\ csize (fst R) = (if res_eqb (snd R) ROk then sz else csize s)
  /\ (flt fs 0%nat KFeResize = true -> snd R <> ROk).
Proof.
  intros s sz fs H. cbv zeta. rewrite (do_resize_unfold s sz fs H). cbv zeta.
  set (s1 := resize_fan s sz fs). set (errs := resize_errs s fs).
  assert (C2 : csize (fst (handle_error_nolock s1 errs)) = csize s).
  { rewrite csize_handle_error. unfold s1, resize_fan.
    destruct (fan_shape (fun a => flt fs a KResize) (fun f => f_set_size f sz) (writers s) s) as [w' E]. rewrite E. reflexivity. }
  assert (W2 : w (fst (handle_error_nolock s1 errs)) = w s1) by apply w_handle_error.
  destruct (match errs with [] => false | _ => negb (snd (handle_error_nolock s1 errs)) end);
    [|destruct (flt fs 0%nat KFeResize)]; cbn [fst snd res_eqb];
    (split; [reflexivity|split; [exact W2|split; [try exact C2; reflexivity|intros X; discriminate]]]).
Qed.

Lemma c16_step_model : forall rf0 n s e prev,
  struct_ok s -> keys_lt n s -> obs_of n s prev ->
  c16_step rf0 prev e
           (obs_after n s e) = true.
Proof.
  intros rf0 n s e prev H Hk [r0 ef0 r0']. unfold obs_after. destruct e; try reflexivity.
  unfold c16_step. cbn [o_size o_replicas observe with_res1 step].
  destruct (newsize <=? csize s) eqn:Hle.
  - rewrite (resize_not_growing_refused s newsize fs (proj1 (Z.leb_le _ _) Hle)). cbn [fst snd].
    rewrite not_ack by discriminate. rewrite untouched_same_state. cbn [andb o_size observe]. apply Z.eqb_refl.
  - pose proof (do_resize_grow s newsize fs Hle) as G. cbv zeta in G.
    destruct (do_resize s newsize fs) as [s' r]. cbn [fst snd] in *. destruct G as [Rs [Ws [Cs Fe]]].
    set (s1 := resize_fan s newsize fs) in *.
    assert (H1 : struct_ok s1) by (apply struct_fan; exact H).
    assert (R1 : replicas s1 = replicas s) by (apply sst_fan).
    apply andb_true_intro. split; [apply andb_true_intro; split; [apply andb_true_intro; split|]|].
    + (* the replicas that did not fail have the new size *)
      apply forallb_forall. intros a Ha. destruct (flt fs a KResize) eqn:F; [reflexivity|].
      assert (Hlt : (a < n)%nat) by (apply Hk; apply in_service_keys; exact Ha).
      unfold rsize_of. rewrite rep_of_observe by exact Hlt. cbn [o_rsize observe_rep].
      rewrite Ws. unfold s1, resize_fan.
      rewrite (fan_in (fun a0 => flt fs a0 KResize) (fun f => f_set_size f newsize));
        [cbn; apply Z.eqb_refl|apply writers_nodup; exact H|rewrite (writers_in_service s H); exact Ha|exact F].
    + (* the volume size *)
      rewrite is_ack_observe. cbn [o_size observe]. rewrite Cs.
      destruct r; cbn [res_class res_eqb]; apply Z.eqb_refl.
    + (* a grow the frontend refuses is not acknowledged *)
      destruct (flt fs 0%nat KFeResize) eqn:F; [|reflexivity]. apply not_ack. apply Fe. reflexivity.
    + (* who is still in service *)
      apply forallb_forall. intros a Ha. rewrite Rs.
      assert (Ha1 : In a (in_service (replicas s1))) by (rewrite R1; exact Ha).
      pose proof (in_service_after_errors (resize_errs s fs) s1 a H1 Ha1) as Q.
      destruct (flt fs a KResize) eqn:F; cbn [negb].
      * assert (M : mem a (in_service (replicas (fst (handle_error_nolock s1 (resize_errs s fs))))) = false).
        { apply mem_false. intro Hi. apply Q in Hi. apply Hi. unfold resize_errs. apply filter_In.
          split; [rewrite (writers_in_service s H); exact Ha|exact F]. }
        rewrite M. reflexivity.
      * assert (M : mem a (in_service (replicas (fst (handle_error_nolock s1 (resize_errs s fs))))) = true).
        { apply mem_in. apply Q. unfold resize_errs. intro Hi. apply filter_In in Hi. destruct Hi as [_ Hi]. congruence. }
        rewrite M. reflexivity.
Qed.

Theorem c16_oracle_model_x : forall xs rf0 n w0, (1 <= rf0)%nat -> forallb xev_wf xs = true ->
  forallb (xev_addrs_lt n) xs = true ->
  walk (lift (c16_step rf0) nopair) 0 (obs0 rf0 n w0) xs (trace n (init rf0 w0) xs) = None.
Proof.
  intros xs rf0 n w0 Hrf Hwf Hlt.
  apply (walk_sound (lift (c16_step rf0) nopair) (binv_lt rf0 n) n); [|apply binv_lt_init; assumption|apply obs0_obs_of].
  intros s x t prev Hi Hp. split; [|apply (binv_lt_cons rf0 n s x t Hi)].
  destruct Hi as [[_ [Ht _]] [Hk _]]. destruct x as [e|a b]; [apply c16_step_model; assumption|reflexivity].
Qed.

(** ** non-vacuity: a grow on two RW replicas where one fails the call: it is marked ERR (still listed),
    the other has the new size, the request is acknowledged; a grow whose frontend resize fails *)
Definition c16_fires : list xevent :=
  map One [Register 0%nat 1%nat 1 false None []; Register 1%nat 2%nat 1 false None []; Start [0%nat] [];
           AddCheck 1%nat []; AddCommit 1%nat []; SyncData 1%nat; Verify 1%nat [];
           Resize 10 [(0%nat, KResize)]; Resize 20 [(0%nat, KFeResize)]].
Example c16_grow_reached :
  walk (lift (c16_step 2) nopair) 0 (obs0 2 2 []) c16_fires (trace 2 (init 2 []) c16_fires) = None
  /\ map o_res (trace 2 (init 2 []) c16_fires) = [ROk; ROk; ROk; ROk; ROk; ROk; ROk; ROk; RErr]
  /\ map o_size (trace 2 (init 2 []) c16_fires) = [0; 0; 0; 0; 0; 0; 0; 10; 10]
  /\ o_replicas (last (trace 2 (init 2 []) c16_fires) (obs0 2 2 [])) = [(0%nat, ERR); (1%nat, RW)]
  /\ map o_rsize (o_reps (last (trace 2 (init 2 []) c16_fires) (obs0 2 2 []))) = [0; 20].
Proof. vm_compute. repeat split; reflexivity. Qed.
