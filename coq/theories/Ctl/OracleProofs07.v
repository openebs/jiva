(** * Ctl: the rules of the two clauses of the C07 oracle (control half), each a theorem of Props.v read on
    observations ([verify_promotes_after_check], [promotion_only_by_verify]); the traces are in OracleProofsX2.v *)
From Coq Require Import List ZArith Bool Arith Lia.
From Jiva Require Import Ctl.Model Ctl.Steps Ctl.Corr Ctl.Oracles Ctl.Proofs Ctl.Props Ctl.OracleProofs.
Import ListNotations.
Open Scope Z_scope.

Lemma find_rw_head : forall l r0 m0, find (fun p => is_rw (snd p)) l = Some (r0, m0) -> exists t, rw_of l = r0 :: t.
Proof.
  unfold rw_of. induction l as [|[k v] t IH]; intros r0 m0 H; cbn in *; [discriminate|].
  destruct (is_rw v).
  - inversion H; subst. cbn. eexists. reflexivity.
  - apply (IH _ _ H).
Qed.

Lemma verify_promoted_ok : forall s a fs, NoDup (keys (replicas s)) ->
  In (a, WO) (replicas s) -> In (a, RW) (replicas (fst (do_verify s a fs))) -> snd (do_verify s a fs) = ROk.
Proof.
  intros s a fs Hn Hwo Hrw.
  destruct (do_verify_spec s a fs) as [r _| |r0 m0 k _ _ _ _]; [| |reflexivity]; cbn [fst replicas upd_rep upd_w] in Hrw;
    discriminate (nodup_same_key _ _ _ _ Hn Hwo Hrw).
Qed.

Lemma c07_step_model : forall rf0 n s e prev,
  struct_ok s -> obs_of n s prev ->
  c07_step rf0 prev e
           (obs_after n s e) = true.
Proof.
  intros rf0 n s e prev H [r0 ef0 r0']. unfold obs_after. destruct e; try reflexivity.
  cbn [step]. unfold c07_step. cbn [o_replicas observe with_res1].
  destruct (do_verify s a fs) as [s' r] eqn:Ev. cbn [fst snd].
  destruct (is_mode (replicas s) a WO) eqn:Ewo; [|reflexivity].
  destruct (is_mode (replicas s') a RW) eqn:Erw; [|reflexivity]. cbn [andb].
  apply is_mode_in in Ewo. apply is_mode_in in Erw.
  pose proof (aget_in_nodup _ _ _ (st_nodup s H) Ewo) as Gwo.
  (* the answer is ok: otherwise the list is unchanged and a is still WO *)
  assert (Hr : r = ROk).
  { change r with (snd (s', r)). rewrite <- Ev. apply verify_promoted_ok; [exact (st_nodup s H)|exact Ewo|rewrite Ev; exact Erw]. }
  subst r. rewrite is_ack_observe. cbn [res_class res_eqb andb].
  destruct (verify_promotes_after_check s a fs s' Gwo Ev) as [x0 [m0 [k [Hf [Hk [Hfirst [Hcp [Hrev _]]]]]]]].
  destruct (find_rw_head _ _ _ Hf) as [t Ht]. rewrite Ht.
  rewrite !rep_of_with_res1.
  destruct (Nat.ltb x0 n) eqn:Ex0; [apply Nat.ltb_lt in Ex0|apply Nat.ltb_ge in Ex0; rewrite rep_of_observe_ge by exact Ex0; reflexivity].
  rewrite (rep_of_observe n s r0 ef0 x0 Ex0).
  destruct (Nat.ltb a n) eqn:Ea; [apply Nat.ltb_lt in Ea|apply Nat.ltb_ge in Ea; rewrite !rep_of_observe_ge by exact Ea; reflexivity].
  rewrite !rep_of_observe by exact Ea.
  cbn [o_rev o_cp o_chain observe_rep].
  rewrite Hrev, Z.eqb_refl. cbn [andb].
  assert (K : match f_cp (wget (w s) a) with
              | None => Some (length (f_chain (wget (w s) x0)))
              | Some c => match index_of (f_chain (wget (w s) x0)) c 0 with Some i => Some (S i) | None => None end
              end = Some k).
  { destruct (f_cp (wget (w s) a)) as [c|].
    - destruct Hcp as [i [Hi Hki]]. rewrite Hi, Hki. reflexivity.
    - rewrite Hcp. reflexivity. }
  rewrite K. apply andb_true_intro. split; [apply Nat.leb_le; exact Hk|].
  rewrite Hfirst. apply lnat_eqb_refl.
Qed.

(** [promotion_only_by_verify] (Props.v) on observations: the clause [c07_only_verify] that [check_case] runs beside
    [c07_step] *)
Lemma c07_only_verify_model : forall n s e prev,
  struct_ok s -> obs_of n s prev ->
  c07_only_verify prev e
                  (obs_after n s e) = true.
Proof.
  intros n s e prev H [r0 ef0 r0']. unfold obs_after. unfold c07_only_verify. cbn [o_replicas observe with_res1].
  apply forallb_forall. intros [x m] Hp. cbn [fst snd].
  destruct (is_mode (replicas s) x WO) eqn:Ewo; [|reflexivity].
  destruct (mode_eqb m RW) eqn:Em; [|reflexivity]. cbn [andb].
  apply mode_eqb_eq in Em. subst m. apply is_mode_in in Ewo.
  pose proof (promotion_only_by_verify s e x H Ewo Hp) as G.
  destruct e; try contradiction; try (subst; apply Nat.eqb_refl).
  destruct m; try contradiction. subst. apply Nat.eqb_refl.
Qed.

(** ** non-vacuity: a history on which verify promotes the rebuilt replica (the checked branch of the
    oracle is exercised), and the other way a WO replica becomes RW in the model: the set-mode request
    (Controller.SetReplicaMode), which compares nothing *)
Definition c07_promote : list event :=
  [Register 0%nat 1%nat 1 false None []; Register 1%nat 2%nat 1 false None []; Start [0%nat] [];
   AddCheck 1%nat []; AddCommit 1%nat []; SyncData 1%nat; Verify 1%nat []].
Example c07_promotion_reached :
  map o_replicas (trace 2 (init 2 []) (map One c07_promote))
  = [[]; []; [(0%nat, RW)]; [(0%nat, RW)]; [(0%nat, RW); (1%nat, WO)]; [(0%nat, RW); (1%nat, WO)]; [(0%nat, RW); (1%nat, RW)]]
  /\ walk (lift (c07_step 2) nopair) 0 (obs0 2 2 []) (map One c07_promote) (trace 2 (init 2 []) (map One c07_promote)) = None.
Proof. vm_compute. split; reflexivity. Qed.

Definition c07_setmode : list event :=
  [Register 0%nat 1%nat 1 false None []; Register 1%nat 2%nat 1 false None []; Start [0%nat] [];
   AddCheck 1%nat []; AddCommit 1%nat []; SetMode 1%nat RW].
Example c07_setmode_promotes_unchecked :
  map o_replicas (trace 2 (init 2 []) (map One c07_setmode))
  = [[]; []; [(0%nat, RW)]; [(0%nat, RW)]; [(0%nat, RW); (1%nat, WO)]; [(0%nat, RW); (1%nat, RW)]].
Proof. vm_compute. reflexivity. Qed.
