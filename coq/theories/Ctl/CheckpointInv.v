(** * Ctl: checkpoint soundness (C13) as an invariant of all reachable states, one case per primitive of Ctl.Steps.
    [cp_ok] says what holds of the listed replicas while the controller holds a checkpoint; [mon_ok] ([mon3] without
    exemption, both bounds at the instance counter) is the bookkeeping of the monitor goroutines, used here for:
    every replica marked ERR has an undelivered notification.  So at a point without pending notifications a
    recorded checkpoint implies that all RF replicas are RW. *)
From Coq Require Import List ZArith Bool Arith Lia Permutation.
From Jiva Require Import Ctl.Model Ctl.Proofs Ctl.Props.
Import ListNotations.
Open Scope Z_scope.

Definition cp_ok (s : cst) : Prop :=
  forall n, checkpoint s = Some n ->
    length (replicas s) = rf s
    /\ (forall a m, In (a, m) (replicas s) -> m <> WO)
    /\ forall a, In a (keys (replicas s)) ->
         In n (f_chain (wget (w s) a))
         /\ f_cp (wget (w s) a) = Some n /\ f_cpk (wget (w s) a) = true.

Lemma cp_ok_none : forall s, checkpoint s = None -> cp_ok s.
Proof. intros s H n Hn. congruence. Qed.

Lemma cp_ok_room : forall s, cp_ok s -> (length (replicas s) < rf s)%nat -> checkpoint s = None.
Proof.
  intros s Hc Hl. destruct (checkpoint s) as [n|] eqn:E; [|reflexivity].
  destruct (Hc n E) as [Hlen _]. rewrite Hlen in Hl. exfalso. exact (Nat.lt_irrefl _ Hl).
Qed.

Definition wrel (f g : frep) : Prop :=
  (forall n, In n (f_chain f) -> In n (f_chain g)) /\ f_cp g = f_cp f /\ f_cpk g = f_cpk f.

Lemma wrel_refl : forall f, wrel f f.
Proof. intros f. repeat split; auto. Qed.

Lemma wrel_setter : forall g, setter g -> forall f, wrel f (g f).
Proof. intros g [] f; repeat split; cbn; auto. Qed.

Lemma cp_ok_keep : forall s t, checkpoint t = checkpoint s -> rf t = rf s ->
  (replicas t = replicas s \/ exists a m, m <> WO /\ replicas t = map (setm a m) (replicas s)) ->
  (forall x, wrel (wget (w s) x) (wget (w t) x)) -> cp_ok s -> cp_ok t.
Proof.
  intros s t Ec Ef Er Hw Hc n Hn. rewrite Ec in Hn. destruct (Hc n Hn) as [Hl [Hwo Hall]]. rewrite Ef.
  assert (K : length (replicas t) = length (replicas s) /\ keys (replicas t) = keys (replicas s)
              /\ forall a, In (a, WO) (replicas t) -> In (a, WO) (replicas s)).
  { destruct Er as [->|(a & m & Hm & ->)]; [repeat split; auto|]. rewrite map_length, keys_setm. repeat split.
    intros x Hx. apply in_setm in Hx. destruct Hx as [[_ [E _]]|Hx]; [destruct Hm; symmetry; exact E|exact Hx]. }
  destruct K as [K1 [K2 K3]]. rewrite K1, K2. split; [exact Hl|]. split.
  - intros a m Hin Hm. subst m. exact (Hwo a WO (K3 a Hin) eq_refl).
  - intros a Ha. destruct (Hall a Ha) as [C1 [C2 C3]]. destruct (Hw a) as [W1 [W2 W3]].
    split; [apply W1; exact C1|]. split; congruence.
Qed.

(** update_checkpoint establishes the invariant from scratch *)
Lemma update_checkpoint_stored : forall s fs n p,
  checkpoint (update_checkpoint s fs) = Some n -> In p (backends s) ->
  f_cp (wget (w (update_checkpoint s fs)) (fst p)) = Some n
  /\ f_cpk (wget (w (update_checkpoint s fs)) (fst p)) = true.
Proof.
  intros s fs n p Hn Hp.
  destruct (checkpoint_recorded_sound s fs n Hn) as [_ [Ha [_ Hf]]].
  unfold update_checkpoint in *.
  destruct (Nat.eqb (count_rw (replicas s)) (rf s)); [|cbn in Hn; discriminate].
  destruct (get_latest_snapshot s fs) as [o|]; [|cbn in Hn; discriminate].
  pose proof (w_set_checkpoint s fs o (fst p)) as W.
  assert (Eo : o = Some n).
  { unfold set_checkpoint in Hn. rewrite Ha in Hn. destruct (negb _); cbn in Hn; [exact Hn|discriminate]. }
  destruct (set_checkpoint s fs o) as [s1 ok]. cbn [fst w upd_checkpoint] in *. rewrite W.
  replace (existsb _ (backends s)) with true; [unfold cp_upd; rewrite Ha, Eo; split; reflexivity|].
  symmetry. apply existsb_exists. exists p. split; [exact Hp|]. unfold cp_sel. rewrite Ha, (proj1 (Hf p Hp)), Nat.eqb_refl. reflexivity.
Qed.

Lemma cp_update_checkpoint : forall s fs, struct_ok s -> cp_ok (update_checkpoint s fs).
Proof.
  intros s fs H n Hn.
  destruct (checkpoint_recorded_sound s fs n Hn) as [Hc [Ha [Hch _]]].
  destruct (sst_update_checkpoint s fs) as [R [_ [Rf _]]].
  rewrite R, Rf.
  split.
  { exact (full_rw_length s H Hc). }
  split.
  { intros a m Hin Hm. subst m. apply (replicas_backends s a WO H) in Hin. destruct Hin as [i Hin].
    unfold all_rw_backends in Ha. rewrite forallb_forall in Ha. discriminate (Ha _ Hin). }
  intros a Hin. apply keys_in in Hin. destruct Hin as [m Hin].
  apply (replicas_backends s a m H) in Hin. destruct Hin as [i Hin].
  split.
  - rewrite (update_checkpoint_keeps f_chain cpi_chain). destruct (Hch _ Hin) as [t Ht]. cbn [fst] in Ht. rewrite Ht. left. reflexivity.
  - exact (update_checkpoint_stored s fs n _ Hn Hin).
Qed.

Lemma cp_qop : forall e s t, qop e s t -> struct_ok s -> cp_ok s -> cp_ok t.
Proof.
  intros e s t Q H Hc.
  destruct Q as [s t M|s a g Hg|s a src _ Ea|s a m Hm|s fs a|s|s Hr|s i a fs _ _|s i a fs _ _|s t _ R];
    try exact Hc.
  - destruct M; exact Hc.
  - apply (cp_ok_keep s); [reflexivity|reflexivity|left; reflexivity| |exact Hc].
    intros x. rewrite wget_upd_rep. destruct (Nat.eqb a x) eqn:E; [|apply wrel_refl].
    apply Nat.eqb_eq in E. subst. apply wrel_setter. exact Hg.
  - (* the sync agent rewrites the chain of a rebuilding replica only: none is listed while a checkpoint is held *)
    apply cp_ok_none. change (checkpoint (upd_rep s a (fun f => f_copy_data f src))) with (checkpoint s).
    destruct (checkpoint s) as [n|] eqn:En; [|reflexivity].
    destruct (Hc n En) as [_ [Hwo _]]. exfalso. exact (Hwo a WO (aget_in _ _ _ Ea) eq_refl).
  - apply (cp_ok_keep s); [apply ck_set_mode|apply rf_set_mode| |rewrite w_set_mode; intros x; apply wrel_refl|exact Hc].
    destruct (replicas_set_mode s a m) as [R|R]; [left; exact R|right; exists a, m; split; [exact (mode_guard e s a m Hm)|exact R]].
  - apply remove_ind; [exact Hc|intros _]. apply cp_update_checkpoint.
    eapply sst_struct; [apply sst_update_vol_status|apply struct_unlist; exact H].
  - apply cp_ok_none. change (checkpoint (reset s)) with (checkpoint s). apply cp_ok_room; [exact Hc|].
    rewrite Hr. exact (st_rf s H).
  - destruct R as (R' & M' & G & -> & _). exact Hc.
Qed.

Lemma cp_init : forall rf0 w0, cp_ok (init rf0 w0).
Proof. intros. apply cp_ok_none. reflexivity. Qed.

(** the converse of [aget_none_not_in] of AList.v *)
Lemma aget_none_notin : forall {V} (l : list (nat * V)) i, aget l i = None -> ~ In i (keys l).
Proof.
  intros V l i. induction l as [|[k v] t IH]; cbn; intros H; [auto|].
  destruct (Nat.eqb k i) eqn:E; [discriminate|]. apply Nat.eqb_neq in E.
  intros [Hk|Hin]; [contradiction|]. exact (IH H Hin).
Qed.

(** the bookkeeping of the monitors, with an exempted set [X] of addresses (used inside a monitor event, between the
    consumption of the notification and the removal of the replica), a strict bound [N] on all instance
    ids in use and a lower bound [B] of the instance counter.  [N] and [B] differ only inside an add:
    the id drawn by [create_backend] is [N], not yet in use, while the counter is already past it. *)
Record mon3 (X : addr -> Prop) (N B : nat) (s : cst) : Prop := mkmon3 {
  mo_live : forall a m i, aget (backends s) a = Some (m, i) ->
      (aget (live_mon s) i = Some a \/ aget (live_mon s) i = None)
      /\ (m <> ERR -> X a \/ aget (live_mon s) i = Some a);
  mo_err : forall a, In (a, ERR) (replicas s) -> X a \/ exists i, In (i, a) (pend_mon s);
  mo_nodup : NoDup (keys (live_mon s ++ pend_mon s));
  mo_bound : forall k, In k (keys (live_mon s ++ pend_mon s)) -> (k < N)%nat;
  mo_binst : forall a m i, aget (backends s) a = Some (m, i) -> (i < N)%nat;
  mo_ninst : (B <= ninst s)%nat
}.

Definition nobody (a : addr) : Prop := False.
Definition mon_ok (s : cst) : Prop := mon3 nobody (ninst s) (ninst s) s.

Lemma mon3_weaken : forall (X X' : addr -> Prop) N N' B B' s,
  mon3 X N B s -> (N <= N')%nat -> (B' <= B)%nat -> (forall a, X a -> X' a) -> mon3 X' N' B' s.
Proof.
  intros X X' N N' B B' s [M1 M2 M3 M4 M5 M6] HN HB HX. constructor.
  - intros a m i Hb. destruct (M1 a m i Hb) as [P1 P2]. split; [exact P1|].
    intros Hm. destruct (P2 Hm) as [P|P]; [left; apply HX; exact P|right; exact P].
  - intros a Ha. destruct (M2 a Ha) as [P|P]; [left; apply HX; exact P|right; exact P].
  - exact M3.
  - intros k Hk. eapply Nat.lt_le_trans; [apply M4; exact Hk|exact HN].
  - intros a m i Hb. eapply Nat.lt_le_trans; [eapply M5; exact Hb|exact HN].
  - eapply Nat.le_trans; [exact HB|exact M6].
Qed.

(** after a whole operation both bounds are again the instance counter *)
Lemma mon3_renorm : forall X N B s, mon3 X N B s -> (N <= B)%nat -> mon3 X (ninst s) (ninst s) s.
Proof.
  intros X N B s M HNB. pose proof (mo_ninst _ _ _ _ M) as Hn.
  assert (HN : (N <= ninst s)%nat) by (eapply Nat.le_trans; eauto).
  destruct (mon3_weaken X X N (ninst s) B B s M HN (Nat.le_refl _) (fun a H => H)) as [M1 M2 M3 M4 M5 M6].
  constructor; try assumption. apply Nat.le_refl.
Qed.

(** nothing of the bookkeeping changes and no replica is newly marked ERR *)
Lemma mon3_fewer : forall X N B s t,
  (forall x, In (x, ERR) (replicas t) -> In (x, ERR) (replicas s)) ->
  backends t = backends s -> live_mon t = live_mon s -> pend_mon t = pend_mon s -> ninst t = ninst s ->
  mon3 X N B s -> mon3 X N B t.
Proof.
  intros X N B s t A1 A2 A3 A4 A5 [M1 M2 M3 M4 M5 M6].
  constructor; rewrite ?A2, ?A3, ?A4, ?A5; try assumption. intros a Ha. exact (M2 a (A1 a Ha)).
Qed.

Lemma mon3_frame : forall X N B s t,
  replicas t = replicas s -> backends t = backends s -> live_mon t = live_mon s -> pend_mon t = pend_mon s ->
  ninst t = ninst s -> mon3 X N B s -> mon3 X N B t.
Proof. intros X N B s t A1. apply mon3_fewer. rewrite A1. auto. Qed.

Lemma mon3_meta : forall X N B s t, meta s t -> mon3 X N B s -> mon3 X N B t.
Proof. intros X N B s t []; apply mon3_frame; reflexivity. Qed.

Lemma mon3_refresh : forall X N B s fs, mon3 X N B s -> mon3 X N B (update_checkpoint (update_vol_status s) fs).
Proof.
  intros X N B s fs. destruct (update_checkpoint_shape (update_vol_status s) fs) as (c & w' & E). rewrite E.
  apply mon3_frame; reflexivity.
Qed.

Lemma stop_keys_perm : forall L P i, Permutation (keys (stopL L i ++ stopP L P i)) (keys (L ++ P)).
Proof.
  intros L P i. unfold stopL, stopP. destruct (aget L i) as [a|] eqn:E; [|apply Permutation_refl].
  rewrite !keys_app. cbn [keys map fst].
  pose proof (perm_adel L i a E) as Hp.
  eapply perm_trans; [|apply Permutation_app_tail; apply Permutation_sym; exact Hp].
  cbn [app]. rewrite app_assoc. apply Permutation_sym. apply Permutation_cons_append.
Qed.

(** the monitor of backend [a] is stopped; [a] is unlisted or marked ERR; nothing else changes *)
Lemma mon3_detach : forall X N B s t a m0 i,
  mon3 X N B s ->
  ninst t = ninst s ->
  aget (backends s) a = Some (m0, i) ->
  live_mon t = stopL (live_mon s) i -> pend_mon t = stopP (live_mon s) (pend_mon s) i ->
  (forall x, x <> a -> aget (backends t) x = aget (backends s) x) ->
  (forall m j, aget (backends t) a = Some (m, j) -> m = ERR /\ j = i) ->
  (forall x, In (x, ERR) (replicas t) -> In (x, ERR) (replicas s) \/ (x = a /\ m0 <> ERR)) ->
  mon3 X N B t.
Proof.
  intros X N B s t a m0 i [M1 M2 M3 M4 M5 M6] Hni Eb HL HP Hoth Ha Hrep.
  destruct (M1 a m0 i Eb) as [A1 A2].
  assert (NL : NoDup (keys (live_mon s))) by (rewrite keys_app in M3; eapply nodup_app_l; exact M3).
  assert (Pm : Permutation (keys (live_mon t ++ pend_mon t)) (keys (live_mon s ++ pend_mon s))).
  { rewrite HL, HP. apply stop_keys_perm. }
  assert (Hpg : forall e, In e (pend_mon s) -> In e (pend_mon t)).
  { intros e He. rewrite HP. unfold stopP. destruct (aget (live_mon s) i); [apply in_or_app; left; exact He|exact He]. }
  assert (Hlx : forall x mx ix, x <> a -> aget (backends s) x = Some (mx, ix) ->
                aget (live_mon t) ix = aget (live_mon s) ix).
  { intros x mx ix Hxa Hx. rewrite HL. unfold stopL. destruct (aget (live_mon s) i) as [y|] eqn:E; [|reflexivity].
    apply aget_adel_other. intro Ei. subst ix.
    destruct A1 as [A1|A1]; [|congruence]. destruct (M1 x mx i Hx) as [[B1|B1] _]; congruence. }
  assert (Hli : aget (live_mon t) i = None).
  { rewrite HL. unfold stopL. destruct (aget (live_mon s) i) eqn:E; [apply aget_adel_same; exact NL|exact E]. }
  constructor.
  - intros x mx ix Hx. destruct (Nat.eq_dec x a) as [Hxa|Hxa].
    + subst x. destruct (Ha mx ix Hx) as [-> ->]. split; [right; exact Hli|intros Hc; contradiction].
    + rewrite (Hoth x Hxa) in Hx. rewrite (Hlx x mx ix Hxa Hx). exact (M1 x mx ix Hx).
  - intros x Hx. destruct (Hrep x Hx) as [Hold|[-> Hm0]].
    + destruct (M2 x Hold) as [P|[j Hj]]; [left; exact P|right; exists j; apply Hpg; exact Hj].
    + destruct (A2 Hm0) as [P|P]; [left; exact P|].
      right. exists i. rewrite HP. unfold stopP. rewrite P. apply in_or_app. right. left. reflexivity.
  - eapply Permutation_NoDup; [apply Permutation_sym; exact Pm|exact M3].
  - intros k Hk. apply M4. eapply Permutation_in; [exact Pm|exact Hk].
  - intros x mx ix Hx. destruct (Nat.eq_dec x a) as [Hxa|Hxa].
    + subst x. destruct (Ha mx ix Hx) as [_ ->]. eapply M5; exact Eb.
    + rewrite (Hoth x Hxa) in Hx. eapply M5; exact Hx.
  - rewrite Hni. exact M6.
Qed.

(** the mode of backend [a] changes (not to ERR), its instance stays *)
Lemma mon3_promote : forall X N B s t a m m0 i,
  mon3 X N B s ->
  ninst t = ninst s -> live_mon t = live_mon s -> pend_mon t = pend_mon s ->
  aget (backends s) a = Some (m0, i) -> m0 <> ERR ->
  backends t = aset (backends s) a (m, i) ->
  (forall x, In (x, ERR) (replicas t) -> In (x, ERR) (replicas s)) ->
  mon3 X N B t.
Proof.
  intros X N B s t a m m0 i [M1 M2 M3 M4 M5 M6] Hni HL HP Eb Hm0 Hbk Hrep.
  constructor; rewrite ?HL, ?HP, ?Hni; try assumption.
  - intros x mx ix Hx. rewrite Hbk, aget_aset in Hx. destruct (Nat.eqb a x) eqn:E.
    + apply Nat.eqb_eq in E. subst x. inversion Hx; subst. destruct (M1 a m0 ix Eb) as [A1 A2].
      split; [exact A1|intros _; exact (A2 Hm0)].
    + exact (M1 x mx ix Hx).
  - intros x Hx. exact (M2 x (Hrep x Hx)).
  - intros x mx ix Hx. rewrite Hbk, aget_aset in Hx. destruct (Nat.eqb a x) eqn:E.
    + inversion Hx; subst. eapply M5; exact Eb.
    + eapply M5; exact Hx.
Qed.

Lemma mon_set_mode : forall X N B s a m, struct_ok s -> mon3 X N B s -> mon3 X N B (set_mode_nolock s a m).
Proof.
  intros X N B s a m H M.
  destruct (set_mode_cases s a m H) as [E|[m0 [i [Hm0 [Ea [Eb E]]]]]]; rewrite E;
    match goal with |- mon3 _ _ _ (update_vol_status ?x) => apply (mon3_frame X N B x); try reflexivity end; [exact M|].
  match goal with |- context [upd_backends ?u ?v] => set (s1 := upd_backends u v) end. cbv zeta.
  assert (R1 : replicas s1 = map (setm a m) (replicas s)) by reflexivity.
  assert (B1 : backends s1 = aset (backends s) a (m, i)) by reflexivity.
  assert (L1 : live_mon s1 = live_mon s /\ pend_mon s1 = pend_mon s /\ ninst s1 = ninst s) by (repeat split).
  destruct L1 as [L1 [P1 N1]].
  clearbody s1.
  destruct (mode_eqb m ERR) eqn:Em.
  - assert (m = ERR) by (destruct m; try discriminate; reflexivity). subst m.
    rewrite stop_monitoring_shape.
    eapply (mon3_detach X N B s _ a m0 i M); cbn [ninst live_mon pend_mon backends replicas upd_mon].
    + exact N1.
    + exact Eb.
    + rewrite L1. reflexivity.
    + rewrite L1, P1. reflexivity.
    + intros x Hx. rewrite B1, aget_aset.
      destruct (Nat.eqb a x) eqn:E'; [apply Nat.eqb_eq in E'; subst; contradiction|reflexivity].
    + intros mx ix Hx. rewrite B1, aget_aset, Nat.eqb_refl in Hx. inversion Hx. split; reflexivity.
    + intros x Hx. rewrite R1 in Hx. apply in_setm in Hx.
      destruct Hx as [[Hxa _]|Hx]; [right; split; assumption|left; exact Hx].
  - eapply (mon3_promote X N B s s1 a m m0 i M); try reflexivity; try assumption.
    intros x Hx. rewrite R1 in Hx. apply in_setm in Hx.
    destruct Hx as [[_ [Hmx _]]|Hx]; [subst m; discriminate|exact Hx].
Qed.

Lemma mon_remove_backend : forall X N B s t a, struct_ok s -> mon3 X N B s ->
  replicas t = adel (replicas s) a -> backends t = backends s -> live_mon t = live_mon s ->
  pend_mon t = pend_mon s -> ninst t = ninst s -> mon3 X N B (remove_backend t a).
Proof.
  intros X N B s t a H M G1 G2 G3 G4 G5.
  pose proof (backends_nodup s H) as Hk.
  assert (Hrep : forall u, replicas u = replicas t -> forall x, In (x, ERR) (replicas u) -> In (x, ERR) (replicas s)).
  { intros u Hu x Hx. rewrite Hu, G1 in Hx. eapply in_adel. exact Hx. }
  unfold remove_backend. rewrite G2.
  destruct (aget (backends s) a) as [[mb ib]|] eqn:Eb.
  - rewrite stop_monitoring_shape.
    eapply (mon3_detach X N B s _ a mb ib M); cbn [ninst live_mon pend_mon backends replicas upd_backends upd_rep upd_w upd_mon].
    + exact G5.
    + exact Eb.
    + rewrite G3. reflexivity.
    + rewrite G3, G4. reflexivity.
    + intros x Hx. rewrite G2. apply aget_adel_other. exact Hx.
    + intros m i Hx. rewrite G2, (aget_adel_same _ _ Hk) in Hx. discriminate.
    + intros x Hx. left. revert x Hx. apply Hrep. reflexivity.
  - apply (mon3_fewer X N B s); try assumption. apply Hrep. reflexivity.
Qed.

Lemma mon_remove_replica : forall X N B s fs a, struct_ok s -> mon3 X N B s ->
  mon3 X N B (remove_replica_nolock s fs a).
Proof.
  intros X N B s fs a H M. apply remove_ind; [exact M|intros _]. apply mon3_refresh. unfold unlist.
  apply (mon_remove_backend X N B s); try assumption; destruct (Nat.eqb (length (replicas s)) 1 && fe_up s); reflexivity.
Qed.

(** how [ck_inv_step] drops the target of a monitor event at the end of the request: it is no longer listed *)
Lemma mon3_shrink : forall (X' X : addr -> Prop) N B t, mon3 X' N B t -> struct_ok t ->
  (forall y, X' y -> X y \/ ~ In y (keys (replicas t))) -> mon3 X N B t.
Proof.
  intros X' X N B t [M1 M2 M3 M4 M5 M6] H HX. constructor; try assumption.
  - intros y my iy Hy. destruct (M1 y my iy Hy) as [A1 A2]. split; [exact A1|].
    intros Hm. destruct (A2 Hm) as [P|P]; [|right; exact P].
    destruct (HX y P) as [Q|Q]; [left; exact Q|]. exfalso. apply Q.
    eapply in_keys. apply (replicas_backends t y my H). exists iy. apply aget_in. exact Hy.
  - intros y Hy. destruct (M2 y Hy) as [P|P]; [|right; exact P].
    destruct (HX y P) as [Q|Q]; [left; exact Q|]. exfalso. apply Q. eapply in_keys. exact Hy.
Qed.

(** the append: the instance id [i] is fresh because every id in use is below it *)
Lemma mon_append : forall X t a i, struct_ok t -> has_replica t a = false -> mon3 X i (S i) t ->
  mon3 X (S i) (S i) (append t a i).
Proof.
  intros X t a i H Hnew [M1 M2 M3 M4 M5 M6].
  unfold append. cbn [backends upd_replicas]. rewrite (unlisted_no_backend t a H Hnew).
  assert (Hfresh : ~ In i (keys (live_mon t ++ pend_mon t))) by (intro Hin; exact (Nat.lt_irrefl _ (M4 i Hin))).
  assert (Hl : aget (live_mon t ++ [(i, a)]) i = Some a).
  { rewrite aget_app, aget_none_not_in; [cbn [aget]; rewrite Nat.eqb_refl; reflexivity|].
    intro Hin. apply Hfresh. rewrite keys_app. apply in_or_app. left. exact Hin. }
  assert (Pm : Permutation (keys ((live_mon t ++ [(i, a)]) ++ pend_mon t)) (i :: keys (live_mon t ++ pend_mon t))).
  { rewrite !keys_app. cbn [keys map fst].
    apply (Permutation_app_tail (map fst (pend_mon t)) (l := map fst (live_mon t) ++ [i]) (l' := i :: map fst (live_mon t))).
    apply Permutation_sym. apply Permutation_cons_append. }
  constructor; cbn [backends live_mon pend_mon replicas ninst upd_mon upd_backends upd_replicas].
  - intros x mx ix Hx. destruct (aget_snoc _ _ _ _ _ Hx) as [E1|[-> E]].
    + rewrite aget_snoc_other; [exact (M1 x mx ix E1)|]. intros ->. exact (Nat.lt_irrefl _ (M5 x mx i E1)).
    + inversion E. split; [left; exact Hl|intros _; right; exact Hl].
  - intros x Hx. apply in_app_or in Hx. destruct Hx as [Hx|[Hx|[]]]; [exact (M2 x Hx)|inversion Hx].
  - eapply Permutation_NoDup; [apply Permutation_sym; exact Pm|]. constructor; [exact Hfresh|exact M3].
  - intros k Hk. eapply Permutation_in in Hk; [|exact Pm].
    destruct Hk as [<-|Hk]; [apply Nat.lt_succ_diag_r|exact (Nat.lt_lt_succ_r _ _ (M4 k Hk))].
  - intros x mx ix Hx. destruct (aget_snoc _ _ _ _ _ Hx) as [E1|[_ E]].
    + exact (Nat.lt_lt_succ_r _ _ (M5 x mx ix E1)).
    + inversion E. apply Nat.lt_succ_diag_r.
  - exact M6.
Qed.

Lemma mon_start_frontend : forall X N B s, mon3 X N B s -> mon3 X N B (start_frontend s).
Proof.
  intros X N B s M. unfold start_frontend. destruct (replicas s) eqn:E; [exact M|].
  apply (mon3_frame X N B s); try reflexivity. exact M.
Qed.

Definition target (e : event) (a : addr) : Prop :=
  match e with MonFire x _ | MonFail x _ => a = x | _ => False end.

Lemma mon_qop : forall e (X : addr -> Prop) N B s t, (forall y, target e y -> X y) ->
  qop e s t -> struct_ok s -> mon3 X N B s -> mon3 X N B t.
Proof.
  intros e X N B s t HX Q H M.
  destruct Q as [s t Mt|s a g _|s a src _ _|s a m _|s fs a|s|s Hr|s i a fs He Hin|s i a fs He Hin|s t _ R].
  - exact (mon3_meta X N B s t Mt M).
  - apply (mon3_frame X N B s); try reflexivity. exact M.
  - apply (mon3_frame X N B s); try reflexivity. exact M.
  - apply mon_set_mode; assumption.
  - apply mon_remove_replica; assumption.
  - destruct M as [M1 M2 M3 M4 M5 M6]. constructor; try assumption.
    cbn [ninst bump upd_ninst]. apply Nat.le_trans with (ninst s); [exact M6|apply Nat.le_succ_diag_r].
  - destruct M as [M1 M2 M3 M4 M5 M6]. constructor; cbn [reset backends replicas live_mon pend_mon ninst upd_csize upd_backends upd_replicas];
      try assumption; [intros x m i Hx; discriminate|intros x []|intros x m i Hx; discriminate].
  - assert (Xa : X a) by (apply HX; subst e; reflexivity).
    destruct M as [M1 M2 M3 M4 M5 M6].
    assert (NP : NoDup (keys (pend_mon s))) by (rewrite keys_app in M3; eapply nodup_app_r; exact M3).
    pose proof (perm_app_adel_r (live_mon s) _ i a (aget_in_nodup _ _ _ NP Hin)) as Pm.
    constructor; cbn [backends replicas live_mon pend_mon ninst upd_mon]; try assumption.
    + intros y Hy. destruct (M2 y Hy) as [P|[j Hj]]; [left; exact P|].
      destruct (Nat.eq_dec y a) as [E|E]; [left; subst y; exact Xa|]. right. exists j.
      apply in_adel_other; [exact Hj|]. intro Ej. subst j. apply E. exact (nodup_same_key _ _ _ _ NP Hj Hin).
    + exact (proj2 (proj1 (NoDup_cons_iff _ _) (Permutation_NoDup Pm M3))).
    + intros k Hk. apply M4. apply (Permutation_in _ (Permutation_sym Pm)). right. exact Hk.
  - assert (Xa : X a) by (apply HX; subst e; reflexivity).
    destruct M as [M1 M2 M3 M4 M5 M6].
    assert (NL : NoDup (keys (live_mon s))) by (rewrite keys_app in M3; eapply nodup_app_l; exact M3).
    pose proof (aget_in_nodup _ _ _ NL Hin) as Hia. pose proof (perm_app_adel_l _ (pend_mon s) i a Hia) as Pm.
    constructor; cbn [backends replicas live_mon pend_mon ninst upd_mon]; try assumption.
    + intros y my iy Hy. destruct (M1 y my iy Hy) as [A1 A2].
      destruct (Nat.eq_dec iy i) as [E|E].
      * subst iy. rewrite (aget_adel_same _ _ NL). split; [right; reflexivity|].
        intros Hm. left. destruct (A2 Hm) as [P|P]; [exact P|]. replace y with a by congruence. exact Xa.
      * rewrite (aget_adel_other _ _ _ E). split; assumption.
    + exact (proj2 (proj1 (NoDup_cons_iff _ _) (Permutation_NoDup Pm M3))).
    + intros k Hk. apply M4. apply (Permutation_in _ (Permutation_sym Pm)). right. exact Hk.
  - destruct R as (R' & M' & G & -> & _). apply (mon3_frame X N B s); [reflexivity..|exact M].
Qed.

Lemma mon_init : forall rf0 w0, mon_ok (init rf0 w0).
Proof.
  intros rf0 w0. unfold mon_ok. constructor; cbn.
  - intros a m i Hx. discriminate.
  - intros a [].
  - constructor.
  - intros k [].
  - intros a m i Hx. discriminate.
  - apply Nat.le_refl.
Qed.

Definition ck_inv (s : cst) : Prop := struct_ok s /\ cp_ok s /\ mon_ok s.

Definition ck3 (X : addr -> Prop) (N B : nat) (s : cst) : Prop := struct_ok s /\ cp_ok s /\ mon3 X N B s.

Lemma ck3_qop : forall e (X : addr -> Prop) N B, (forall y, target e y -> X y) ->
  forall s t, qop e s t -> ck3 X N B s -> ck3 X N B t.
Proof.
  intros e X N B HX s t Q [H [C M]].
  split; [exact (struct_qop e s t Q H)|]. split; [exact (cp_qop e s t Q H C)|exact (mon_qop e X N B s t HX Q H M)].
Qed.

Lemma ck3_op : forall e (X : addr -> Prop), ev_wf e = true -> (forall y, target e y -> X y) ->
  forall s t, op e s t -> ck3 X (ninst s) (ninst s) s -> ck3 X (ninst t) (ninst t) t.
Proof.
  intros e X Hwf HX s t O K.
  destruct O as [s t Q|s t a Q Hroom Hrf Hrep Hnew Ha].
  - destruct (ck3_qop e X _ _ HX s t Q K) as [H [C M]]. split; [exact H|]. split; [exact C|].
    exact (mon3_renorm _ _ _ _ M (Nat.le_refl _)).
  - pose proof (struct_op e s _ Hwf (op_add e s t a Q Hroom Hrf Hrep Hnew Ha) (proj1 K)) as H'.
    destruct K as [H0 [C0 M0]].
    assert (Kb : ck3 X (ninst s) (S (ninst s)) (bump s)).
    { split; [exact (struct_qop e s _ (q_bump e s) H0)|]. split; [exact (cp_qop e s _ (q_bump e s) H0 C0)|].
      destruct M0 as [M1 M2 M3 M4 M5 M6]. constructor; try assumption. apply Nat.le_refl. }
    destruct (quiet_inv e _ (ck3_qop e X _ _ HX) _ _ Q Kb) as [Ht [Ct Mt]].
    split; [exact H'|]. split.
    + apply cp_ok_none. change (checkpoint (append t a (ninst s))) with (checkpoint t). apply cp_ok_room; [exact Ct|].
      rewrite Hrep, Hrf. eapply Nat.le_lt_trans; [apply length_vacated|exact (room_lt e s Hwf H0 Hroom)].
    + exact (mon3_renorm _ _ _ _ (mon_append X t a _ Ht Hnew Mt) (Nat.le_refl _)).
Qed.

Lemma ck3_refresh : forall (X : addr -> Prop) t fs, ck3 X (ninst t) (ninst t) t ->
  let u := update_checkpoint (update_vol_status t) fs in ck3 X (ninst u) (ninst u) u.
Proof.
  intros X t fs [H [C M]] u. split; [apply struct_refresh; exact H|].
  split; [apply cp_update_checkpoint; eapply sst_struct; [apply sst_update_vol_status|exact H]|].
  exact (mon3_renorm _ _ _ _ (mon3_refresh X _ _ t fs M) (Nat.le_refl _)).
Qed.

Lemma mon_event_gone : forall s e, struct_ok s ->
  fst (fst (step s e)) = s \/ forall y, target e y -> ~ In y (keys (replicas (fst (fst (step s e))))).
Proof.
  intros s e H. pose proof (reported_removed s e H) as G.
  destruct e; try (right; intros y Hy; exact (False_ind _ Hy));
    (destruct G as [E|(t & Ht & _ & _ & E)]; rewrite E; [left; reflexivity|right]);
    intros y Hy; cbn in Hy; subst y; apply remove_replica_gone; exact Ht.
Qed.

(** the monitor bookkeeping is proved with the target of a monitor event exempt ([mon3 (target e)]): the event takes
    the notification first and removes the replica afterwards, and in between the replica is marked ERR without a
    notification; at the end the target is unlisted ([mon_event_gone]) and the exemption is dropped ([mon3_shrink]) *)
Theorem ck_inv_step : forall s e, ck_inv s -> ev_wf e = true -> ck_inv (fst (fst (step s e))).
Proof.
  intros s e [H [C M]] Hwf.
  assert (K : ck3 (target e) (ninst s) (ninst s) s).
  { split; [exact H|]. split; [exact C|].
    eapply mon3_weaken; [exact M|apply Nat.le_refl|apply Nat.le_refl|intros a []]. }
  destruct (ops_inv e (fun t => ck3 (target e) (ninst t) (ninst t) t) (ck3_op e (target e) Hwf (fun y Hy => Hy))
              (ck3_refresh (target e)) s K)
    as [H' [C' M']].
  split; [exact H'|]. split; [exact C'|].
  destruct (mon_event_gone s e H) as [E|G]; [rewrite E; exact M|].
  apply (mon3_shrink (target e)); [exact M'|exact H'|]. intros y Hy. right. exact (G y Hy).
Qed.

Theorem ck_inv_reachable : forall es rf0 w0, (1 <= rf0)%nat -> forallb ev_wf es = true ->
  ck_inv (run (init rf0 w0) es).
Proof.
  intros es rf0 w0 H Hwf.
  apply (run_inv ck_inv (fun e => ev_wf e = true)); [intros s e He Hs; apply ck_inv_step; assumption| |].
  - apply forallb_forall. exact Hwf.
  - split; [apply struct_init; exact H|]. split; [apply cp_init|apply mon_init].
Qed.

Definition checkpoint_sound (s : cst) : Prop :=
  forall n, checkpoint s = Some n -> pend_mon s = [] ->
    count_rw (replicas s) = rf s /\ length (replicas s) = rf s
    /\ forall a, In a (keys (replicas s)) ->
         In n (f_chain (wget (w s) a)) /\ (f_cpk (wget (w s) a) = true -> f_cp (wget (w s) a) = Some n).

Lemma sound_of_inv : forall s, cp_ok s -> mon_ok s -> checkpoint_sound s.
Proof.
  intros s C M n Hn Hp. destruct (C n Hn) as [Hl [Hwo Hall]].
  assert (Hrw : forall a m, In (a, m) (replicas s) -> m = RW).
  { intros a m Hin. destruct m; [exfalso; exact (Hwo a WO Hin eq_refl)|reflexivity|].
    destruct (mo_err _ _ _ _ M a Hin) as [[]|[i Hi]]. rewrite Hp in Hi. destruct Hi. }
  split; [rewrite (count_rw_all _ Hrw); exact Hl|]. split; [exact Hl|].
  intros a Ha. destruct (Hall a Ha) as [A1 [A2 A3]]. split; [exact A1|intros _; exact A2].
Qed.

Theorem checkpoint_holders_reachable : forall (es : list event) (rf0 : nat) (w0 : world) (n : nat),
  (1 <= rf0)%nat -> forallb ev_wf es = true ->
  let s := run (init rf0 w0) es in
  checkpoint s = Some n ->
  length (replicas s) = rf s
  /\ (forall a m, In (a, m) (replicas s) -> m = RW \/ (m = ERR /\ exists i, In (i, a) (pend_mon s)))
  /\ forall a, In a (keys (replicas s)) ->
       In n (f_chain (wget (w s) a)) /\ f_cp (wget (w s) a) = Some n /\ f_cpk (wget (w s) a) = true.
Proof.
  intros es rf0 w0 n H Hwf s Hn. destruct (ck_inv_reachable es rf0 w0 H Hwf) as [_ [C M]].
  destruct (C n Hn) as [Hl [Hwo Hall]]. split; [exact Hl|]. split; [|exact Hall].
  intros a m Hin. destruct m; [exfalso; exact (Hwo a WO Hin eq_refl)|left; reflexivity|].
  right. split; [reflexivity|]. destruct (mo_err _ _ _ _ M a Hin) as [[]|P]. exact P.
Qed.

(** ** where a recorded checkpoint comes from *)

Definition ckn (s t : cst) : Prop := checkpoint t = checkpoint s \/ checkpoint t = None.
Lemma ckn_refl : forall s, ckn s s. Proof. intros; left; reflexivity. Qed.
Lemma ckn_trans : forall a b c, ckn a b -> ckn b c -> ckn a c.
Proof. intros a b c [H1|H1] [H2|H2]; unfold ckn; try (right; congruence). left; congruence. Qed.
Lemma ckn_remove_replica : forall s fs a, struct_ok s -> ckn s (remove_replica_nolock s fs a).
Proof.
  intros s fs a H. destruct (has_replica s a) eqn:E.
  - right. apply checkpoint_withdrawn_on_removal; assumption.
  - unfold remove_replica_nolock. rewrite E. apply ckn_refl.
Qed.

Lemma ckn_qop : forall e s t, qop e s t -> struct_ok s -> ckn s t.
Proof.
  intros e s t Q H.
  destruct Q as [s t M|s a g _|s a src _ _|s a m _|s fs a|s|s _|s i a fs _ _|s i a fs _ _|s t _ R];
    try (left; reflexivity).
  - left. destruct M; reflexivity.
  - left. apply ck_set_mode.
  - apply ckn_remove_replica. exact H.
  - left. destruct R as (R' & M' & G & -> & _). reflexivity.
Qed.

Definition heads (t : cst) (c : nat) : Prop :=
  forall a, In a (keys (replicas t)) -> exists tl, f_chain (wget (w t) a) = c :: tl.
Definition fresh (s t : cst) : Prop :=
  forall c, checkpoint t = Some c -> checkpoint s = Some c \/ (count_rw (replicas t) = rf t /\ heads t c).

Lemma fresh_ckn : forall s t, ckn s t -> fresh s t.
Proof. intros s t [H|H] c Hc; [left; congruence|congruence]. Qed.

Lemma fresh_update : forall s x fs, struct_ok x -> fresh s (update_checkpoint x fs).
Proof.
  intros s x fs H c Hc. right.
  destruct (checkpoint_recorded_sound x fs c Hc) as [Hcnt [_ [Hch _]]].
  destruct (sst_update_checkpoint x fs) as [R [_ [Rf _]]].
  split; [rewrite R, Rf; exact Hcnt|].
  intros a Ha. rewrite R in Ha. apply keys_in in Ha. destruct Ha as [m Ha].
  apply (replicas_backends x a m H) in Ha. destruct Ha as [i Hin].
  rewrite (update_checkpoint_keeps f_chain cpi_chain). exact (Hch _ Hin).
Qed.

Lemma fresh_meta : forall s t u, meta t u -> fresh s t -> fresh s u.
Proof. intros s t u [] Hf; exact Hf. Qed.

(** a request records a checkpoint only by the refresh that ends it ([step_ops]); up to there the checkpoint is
    kept or withdrawn, and after it only bookkeeping follows *)
Theorem checkpoint_fresh_step : forall s e, struct_ok s -> ev_wf e = true -> fresh s (fst (fst (step s e))).
Proof.
  intros s e H Hwf. destruct (step_ops s e) as [t [P E]].
  destruct (path_rel e struct_ok ckn (fun x y => struct_op e x y Hwf) ckn_refl ckn_trans (ckn_qop e)
              (fun x a i _ => or_introl eq_refl) s t P H) as [C Ht].
  destruct E as [E|[fs M]]; [rewrite E; apply fresh_ckn; exact C|].
  apply (fresh_meta s _ _ M). apply fresh_update. eapply sst_struct; [apply sst_update_vol_status|exact Ht].
Qed.

Theorem recorded_checkpoint_all_rw : forall s e c, ck_inv s -> ev_wf e = true ->
  checkpoint (fst (fst (step s e))) = Some c -> checkpoint s <> Some c ->
  count_rw (replicas (fst (fst (step s e)))) = rf (fst (fst (step s e)))
  /\ length (replicas (fst (fst (step s e)))) = rf (fst (fst (step s e)))
  /\ forall a, In a (keys (replicas (fst (fst (step s e))))) ->
       (exists tl, f_chain (wget (w (fst (fst (step s e)))) a) = c :: tl)
       /\ f_cp (wget (w (fst (fst (step s e)))) a) = Some c /\ f_cpk (wget (w (fst (fst (step s e)))) a) = true.
Proof.
  intros s e c Hi Hwf Hc Hne.
  pose proof (ck_inv_step s e Hi Hwf) as [_ [C1 _]]. destruct Hi as [Hst _].
  destruct (checkpoint_fresh_step s e Hst Hwf c Hc) as [P|[P0 P]]; [contradiction|].
  destruct (C1 c Hc) as [S2 [_ Hall]].
  split; [exact P0|]. split; [exact S2|].
  intros a Ha. destruct (Hall a Ha) as [_ [A2 A3]]. split; [exact (P a Ha)|]. split; assumption.
Qed.

(** ** snapshot chains only grow while no replica is rebuilding: an accepted snapshot outlives the request queued behind it *)

Lemma snapshot_ack_reaches : forall s n fs x, struct_ok s -> snd (do_snapshot s n fs) = ROk ->
  In x (writers s) -> flt fs x KSnap = false ->
  In n (f_chain (wget (w (fst (do_snapshot s n fs))) x)).
Proof.
  intros s n fs x H Hok Hin Hf. destruct (do_snapshot_cases s n fs) as [[_ E]|E]; [contradiction|]. rewrite E.
  rewrite w_handle_error, fan_in; [left; reflexivity|apply writers_nodup; exact H|exact Hin|exact Hf].
Qed.

Definition chm (s t : cst) : Prop :=
  forall x n, In n (f_chain (wget (w s) x)) -> In n (f_chain (wget (w t) x)).
Lemma chm_refl : forall s, chm s s. Proof. intros s x n H. exact H. Qed.
Lemma chm_trans : forall a b c, chm a b -> chm b c -> chm a c.
Proof. intros a b c H1 H2 x n H. apply H2. apply H1. exact H. Qed.
Lemma chm_keep : forall s t, (forall x, f_chain (wget (w t) x) = f_chain (wget (w s) x)) -> chm s t.
Proof. intros s t H x n Hin. rewrite H. exact Hin. Qed.

(** only the copy that ends a rebuild replaces a chain, and it is made for a WO replica *)
Theorem chain_mono_step : forall s e, (forall a, aget (replicas s) a <> Some WO) -> chm s (fst (fst (step s e))).
Proof.
  intros s e Hwo.
  assert (G : (forall a, e <> SyncData a) -> chm s (fst (fst (step s e)))).
  { apply (ops_rel e (fun x t => (forall a, e <> SyncData a) -> chm x t)).
    - intros x _. apply chm_refl.
    - intros a b c H1 H2 Hn. eapply chm_trans; [apply H1; exact Hn|apply H2; exact Hn].
    - intros x t Q Hn.
      destruct Q as [x t M|x a g Hg|x a src E _|x a m _|x fs a|x|x _|x i a fs _ _|x i a fs _ _|x t _ Hr];
        try (apply chm_keep; reflexivity).
      + apply chm_keep. destruct M; reflexivity.
      + intros z n Hin. rewrite wget_upd_rep. destruct (Nat.eqb a z) eqn:E; [|exact Hin].
        apply Nat.eqb_eq in E. subst z. exact (proj1 (wrel_setter g Hg _) n Hin).
      + destruct (Hn a E).
      + apply chm_keep. intros z. rewrite w_set_mode. reflexivity.
      + apply chm_keep. intros z. apply (keeps_remove_replica f_chain di_chain).
      + apply chm_keep. destruct Hr as (R' & M' & G & -> & _). reflexivity.
    - intros t a i _ _. apply chm_keep. reflexivity.
    - intros x fs _. apply chm_keep. intros z. exact (update_checkpoint_keeps f_chain cpi_chain (update_vol_status x) fs z). }
  destruct e; try (apply G; intros b E; discriminate).
  cbn [step]. unfold do_sync_data.
  destruct (aget (replicas s) a) as [[]|] eqn:Ea; try apply chm_refl. exfalso. exact (Hwo a Ea).
Qed.

Theorem snapshot_survives_second : forall s nm fs b x,
  struct_ok s -> count_rw (replicas s) = length (replicas s) ->
  snd (do_snapshot s nm fs) = ROk -> In x (keys (replicas s)) -> flt fs x KSnap = false ->
  In nm (f_chain (wget (w (fst (fst (step (fst (do_snapshot s nm fs)) b)))) x)).
Proof.
  intros s nm fs b x Hst Hall Hok Hx Hf.
  assert (Hrw : forall a m, In (a, m) (replicas s) -> m = RW) by (apply count_rw_full; exact Hall).
  apply chain_mono_step.
  - intros a Ea. apply aget_in in Ea. pose proof (call_live s (Snapshot nm fs) (a, WO) I) as L.
    cbn [step] in L. rewrite fst_let_pair in L. pose proof (Hrw a WO (L Ea ltac:(discriminate))). discriminate.
  - apply snapshot_ack_reaches; [exact Hst|exact Hok| |exact Hf].
    apply all_rw_writers; assumption.
Qed.

(** ** non-vacuity, and why the quiescence condition is needed *)
Definition ex_world : world := [(0%nat, mkfrep false RINIT [5%nat] 1 None true [] 100 CNA)].
Definition ex_boot : list event := [Register 0%nat 1%nat 1 false None []; Start [0%nat] []].

Example checkpoint_recorded_example :
  let s := run (init 1 ex_world) ex_boot in
  checkpoint s = Some 5%nat /\ pend_mon s = [] /\ replicas s = [(0%nat, RW)]
  /\ f_cp (wget (w s) 0%nat) = Some 5%nat.
Proof. vm_compute. repeat split. Qed.

(** the history: boot one replica (checkpoint 5 recorded), then its mode is set to ERR (by the
    SetReplicaMode request, or by a failed snapshot/resize call): the checkpoint is still held with no RW
    replica until the monitor goroutine delivers the removal *)
Example checkpoint_held_until_monitor_fires :
  let s := run (init 1 ex_world) (ex_boot ++ [SetMode 0%nat ERR]) in
  checkpoint s = Some 5%nat /\ count_rw (replicas s) = 0%nat /\ rf s = 1%nat /\ pend_mon s = [(0%nat, 0%nat)]
  /\ checkpoint (run s [MonFire 0%nat []]) = None.
Proof. vm_compute. repeat split. Qed.
