(** * Ctl: the control half of C19, rule and traces: a replica that a start makes RW has a clone status other than
    "error" ([c19_step_model], from the promotion clause of [entries_step] in Props.v), and no request changes the
    status, so the oracle may read it in the initial world ([clone_const], [c19_oracle_model_x]). *)
From Coq Require Import List ZArith Bool Arith Lia.
From Jiva Require Import Ctl.Model Ctl.Steps Ctl.Corr Ctl.Oracles Ctl.Proofs Ctl.Props Ctl.OracleProofs
  Ctl.OracleProofs2 Ctl.OracleProofsX.
Import ListNotations.
Open Scope Z_scope.

Definition clone_const (w0 : world) (s : cst) : Prop := forall a, f_clone (wget (w s) a) = f_clone (wget w0 a).

Lemma c19_step_model : forall w0 n s e prev,
  clone_const w0 s -> obs_of n s prev ->
  c19_step w0 prev e
           (obs_after n s e) = true.
Proof.
  intros w0 n s e prev Hc [r0 ef0 r0']. unfold obs_after. destruct e; try reflexivity.
  unfold c19_step. cbn [o_replicas observe with_res1 step].
  apply forallb_forall. intros [x m] Hp. cbn [fst snd].
  destruct (is_rw m && negb (mem x (addrs_of (replicas s)))) eqn:E; [|reflexivity].
  apply andb_prop in E. destruct E as [E1 E2]. destruct m; try discriminate.
  apply negb_true_iff in E2. apply mem_false in E2.
  destruct (proj2 (entries_step s (Start addrs fs)) x RW Hp) as [Hin|[_ [_ Hcl]]].
  - exfalso. apply E2. eapply in_keys. exact Hin.
  - rewrite <- (Hc x). specialize (Hcl addrs fs eq_refl). destruct (f_clone (wget (w s) x)); try reflexivity. contradiction.
Qed.

Theorem c19_oracle_model_x : forall xs rf0 n w0, (1 <= rf0)%nat -> forallb xev_wf xs = true ->
  walk (lift (c19_step w0) nopair) 0 (obs0 rf0 n w0) xs (trace n (init rf0 w0) xs) = None.
Proof.
  intros xs rf0 n w0 _ _.
  apply (walk_sound (lift (c19_step w0) nopair) (fun s _ => clone_const w0 s) n); [|intros a; reflexivity|apply obs0_obs_of].
  intros s x t prev Hc Hp. split.
  - destruct x as [e|a b]; [apply c19_step_model; assumption|reflexivity].
  - apply (after_inv (clone_const w0) (fun _ => true)); [|exact Hc|destruct x; reflexivity].
    intros s' e Hc' _ a. rewrite (proj1 (entries_step s' e) a). apply Hc'.
Qed.

(** non-vacuity: a start of a replica whose clone status is "error" is refused and the replica is not
    listed; with status "done" it becomes RW *)
Example c19_start_clone_error_and_done :
  let es := [One (Register 0%nat 1%nat 1 false None []); One (Start [0%nat] [])] in
  let werr := [(0%nat, mkfrep false RINIT [] 1 None true [] 0 CErr)] in
  let wdone := [(0%nat, mkfrep false RINIT [] 1 None true [] 0 CDone)] in
  map o_replicas (trace 1 (init 1 werr) es) = [[]; []]
  /\ map o_res (trace 1 (init 1 werr) es) = [ROk; RErr]
  /\ map o_replicas (trace 1 (init 1 wdone) es) = [[]; [(0%nat, RW)]]
  /\ walk (lift (c19_step wdone) nopair) 0 (obs0 1 1 wdone) es (trace 1 (init 1 wdone) es) = None.
Proof. vm_compute. repeat split; reflexivity. Qed.
