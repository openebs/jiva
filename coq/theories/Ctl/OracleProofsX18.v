(** * Ctl: the oracles of C13 and C18 accept every trace of the model; the pair rule of C13 rests on
    [snapshot_survives_second] of CheckpointInv.v.  The conditions on histories are written with [x_all] (equal to
    [xev_wf] / [xev_addrs_lt n] of OracleProofsX.v: [x_all_xev]) and [xqs_sound] (over [xnext], equal to [after]:
    [xnext_after]). *)
From Coq Require Import List ZArith Bool Arith Lia.
From Jiva Require Import Ctl.Model Ctl.Steps Ctl.Corr Ctl.Oracles Ctl.Proofs Ctl.Props Ctl.OracleProofs
  Ctl.OracleProofs2 Ctl.OracleProofsX Ctl.CheckpointInv Ctl.OracleProofs18.
Import ListNotations.
Open Scope Z_scope.

Definition xnext (s : cst) (x : xevent) : cst := fst (fst (fst (xstep s x))).

Lemma xnext_after : forall s x, xnext s x = after s x.
Proof.
  intros s [e|a b]; unfold xnext; cbn [xstep after]; unfold pair_state.
  - destruct (step s e) as [[s1 r] ef]. reflexivity.
  - destruct (step s a) as [[s1 r1] f1]. cbn [fst]. destruct (step s1 b) as [[s2 r2] f2]. reflexivity.
Qed.

Fixpoint xhist (P : cst -> xevent -> bool -> Prop) (s : cst) (xs : list xevent) (qs : list bool) : Prop :=
  match xs, qs with
  | x :: t, q :: qs' => P s x q /\ xhist P (xnext s x) t qs'
  | _, _ => True
  end.

Definition x_all (p : event -> bool) (x : xevent) : bool :=
  match x with One e => p e | Two a b => p a && p b end.

(** the quiescence flags are sound for the model: a flag is true only where no monitor notification is
    undelivered after the whole request (pair) *)
Fixpoint xqs_sound (s : cst) (xs : list xevent) (qs : list bool) : Prop :=
  match xs, qs with
  | x :: t, q :: qs' => (q = true -> pend_mon (xnext s x) = []) /\ xqs_sound (xnext s x) t qs'
  | _, _ => True
  end.

Lemma x_all_xev : x_all ev_wf = xev_wf /\ forall n, x_all (ev_addrs_lt n) = xev_addrs_lt n.
Proof. split; reflexivity. Qed.

Lemma xqs_sound_singles : forall es s qs, qs_sound s es qs -> xqs_sound s (map One es) qs.
Proof.
  induction es as [|e t IH]; intros s [|q qs] H; try exact I. cbn [map xqs_sound]. rewrite xnext_after.
  destruct H as [H1 H2]. split; [exact H1|apply IH; exact H2].
Qed.

Lemma xqs_any : forall s xs qs, xhist (fun _ _ _ => True) s xs qs.
Proof. intros s xs. revert s. induction xs as [|x t IH]; intros s [|q qs]; cbn [xhist]; auto. Qed.

Lemma xhist_and : forall (P Q : cst -> xevent -> bool -> Prop) xs s qs,
  xhist P s xs qs -> xhist Q s xs qs -> xhist (fun s x q => P s x q /\ Q s x q) s xs qs.
Proof.
  intros P Q. induction xs as [|x t IH]; intros s [|q qs] Hp Hq; cbn [xhist] in *; auto.
  destruct Hp as [Hp1 Hp2]. destruct Hq as [Hq1 Hq2]. split; [split; assumption|apply IH; assumption].
Qed.

Theorem c18_oracle_model_x_init : forall xs rf0 n w0 qs, (1 <= rf0)%nat ->
  forallb (x_all ev_wf) xs = true -> forallb (x_all (ev_addrs_lt n)) xs = true ->
  walk_q (fun q => lift (c18_step rf0 q) (fun prev a b cur => c18_step rf0 q prev (SetMode 0%nat WO) cur))
         0 (obs0 rf0 n w0) xs (trace n (init rf0 w0) xs) qs = None.
Proof.
  intros xs rf0 n w0 qs Hrf Hw Hl. rewrite (proj1 x_all_xev) in Hw. rewrite (proj2 x_all_xev) in Hl.
  apply (walk_q_sound (fun q => lift (c18_step rf0 q) (fun prev a b cur => c18_step rf0 q prev (SetMode 0%nat WO) cur))
           (fun _ => binv_lt rf0 n) n); [|apply binv_lt_init; assumption|apply obs0_obs_of].
  intros q _ s x t prev Hi Hp. destruct (binv_lt_cons rf0 n s x t Hi) as [Hxw [_ Hi']]. split; [|exact Hi'].
  destruct x as [e|a b]; cbn [lift xobs].
  - destruct Hi as [[Hs [Ht Hr]] [Hk _]]. apply c18_step_model; assumption.
  - destruct Hi' as [[Hs [Ht Hr]] _]. apply c18_pair_model; assumption.
Qed.

(** for whatever quiescence flags the harness supplies ([walk_q] checks nothing beyond the last flag); add and
    start requests name observed replicas because the clause on acknowledged writes reads [o_reps] *)
Corollary c18_oracle_model_init : forall es rf0 n w0 qs, (1 <= rf0)%nat -> forallb ev_wf es = true ->
  forallb (ev_addrs_lt n) es = true ->
  walk_q (fun q => lift (c18_step rf0 q) (fun prev a b cur => c18_step rf0 q prev (SetMode 0%nat WO) cur))
         0 (obs0 rf0 n w0) (map One es) (trace n (init rf0 w0) (map One es)) qs = None.
Proof.
  intros es rf0 n w0 qs H Hwf Hal. apply c18_oracle_model_x_init; [exact H| |].
  - exact (eq_trans (forallb_map_one ev_wf es) Hwf).
  - exact (eq_trans (forallb_map_one (ev_addrs_lt n) es) Hal).
Qed.

Lemma chain_of_with_res1 : forall o r a, chain_of (with_res1 o r) a = chain_of o a.
Proof. reflexivity. Qed.

Lemma c13_pair_model : forall rf0 n s a b prev r2 ef2,
  struct_ok s -> keys_lt n s -> obs_of n s prev ->
  c13_pair rf0 prev a b
           (with_res1 (observe n (fst (fst (step (fst (fst (step s a))) b))) r2 ef2)
                      (Some (res_class (snd (fst (step s a)))))) = true.
Proof.
  intros rf0 n s a b prev r2 ef2 Hst Hk [r0 ef0 r0']. destruct a; try reflexivity.
  rewrite step_snapshot. cbn [fst snd]. unfold c13_pair. cbn [o_replicas o_res1 with_res1 observe].
  destruct (Nat.eqb (count_rw (replicas s)) rf0 && Nat.eqb (length (replicas s)) rf0) eqn:Ec; [|reflexivity].
  apply andb_prop in Ec. destruct Ec as [Ec1 Ec2]. apply Nat.eqb_eq in Ec1. apply Nat.eqb_eq in Ec2.
  destruct (snd (do_snapshot s name fs)) eqn:Er; cbn [res_class]; try reflexivity.
  apply forallb_forall. intros x Hx.
  destruct (flt fs x KSnap) eqn:Ef; [reflexivity|].
  match goal with |- mem name (chain_of ?o x) = true =>
    change (chain_of o x) with (chain_of (observe n (fst (fst (step (fst (do_snapshot s name fs)) b))) r2 ef2) x) end.
  rewrite chain_of_observe by (apply Hk; exact Hx). apply mem_in.
  apply snapshot_survives_second; [exact Hst|congruence|exact Er|exact Hx|exact Ef].
Qed.

Theorem c13_oracle_model_x_init : forall xs rf0 n w0 qs, (1 <= rf0)%nat ->
  forallb (x_all ev_wf) xs = true -> forallb (x_all (ev_addrs_lt n)) xs = true ->
  xqs_sound (init rf0 w0) xs qs ->
  walk_q (fun q => lift (c13_step rf0 q) (c13_pair rf0))
         0 (obs0 rf0 n w0) xs (trace n (init rf0 w0) xs) qs = None.
Proof.
  intros xs rf0 n w0 qs Hrf Hw Hl Hq. rewrite (proj1 x_all_xev) in Hw. rewrite (proj2 x_all_xev) in Hl.
  apply (walk_q_sound (fun q => lift (c13_step rf0 q) (c13_pair rf0))
           (fun qs s xs => binv_lt rf0 n s xs /\ ck_inv s /\ xqs_sound s xs qs) n); [| |apply obs0_obs_of].
  2:{ split; [apply binv_lt_init; assumption|]. split; [|exact Hq].
      split; [apply struct_init; exact Hrf|split; [apply cp_init|apply mon_init]]. }
  intros q qs' s x t prev [Hi [Hc [Hq1 Hq2]]] Hp. rewrite xnext_after in Hq1, Hq2.
  destruct (binv_lt_cons rf0 n s x t Hi) as [Hxw [Hxl Hi']].
  split; [|split; [exact Hi'|split; [apply (after_inv ck_inv ev_wf ck_inv_step); assumption|exact Hq2]]].
  destruct Hi as [[Hs [Ht Hr]] [Hk _]]. destruct x as [e|a b]; cbn [lift xobs].
  - apply c13_step_model; assumption.
  - apply c13_pair_model; assumption.
Qed.

Corollary c13_oracle_model_init : forall es rf0 n w0 qs, (1 <= rf0)%nat ->
  forallb ev_wf es = true -> forallb (ev_addrs_lt n) es = true -> qs_sound (init rf0 w0) es qs ->
  walk_q (fun q => lift (c13_step rf0 q) (c13_pair rf0))
         0 (obs0 rf0 n w0) (map One es) (trace n (init rf0 w0) (map One es)) qs = None.
Proof.
  intros es rf0 n w0 qs H Hwf Hel Hqs. apply c13_oracle_model_x_init; [exact H| | |apply xqs_sound_singles; exact Hqs].
  - exact (eq_trans (forallb_map_one ev_wf es) Hwf).
  - exact (eq_trans (forallb_map_one (ev_addrs_lt n) es) Hel).
Qed.

(** non-vacuity: a snapshot accepted with the only replica RW, and the removal that was waiting behind it:
    the pair rule applies ([o_res1] is ok) and is satisfied although the replica is gone afterwards *)
Example c13_pair_example :
  let xs := map One ex_boot ++ [Two (Snapshot 7%nat []) (Remove 0%nat [])] in
  let tr := trace 1 (init 1 ex_world) xs in
  walk_q (fun q => lift (c13_step 1 q) (c13_pair 1)) 0 (obs0 1 1 ex_world) xs tr [true; true; false] = None
  /\ map o_res1 tr = [None; None; Some ROk]
  /\ map o_replicas tr = [[]; [(0%nat, RW)]; []].
Proof. vm_compute. repeat split. Qed.
