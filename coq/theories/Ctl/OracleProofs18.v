(** * Ctl: the rules of the oracles of C18 and C13, and C18's pair rule.  For C18 the structural conjuncts are
    [struct_ok] and the hard one is [call_frame]; the rule of C13 rests on [ck_inv_step], [checkpoint_fresh_step] and
    [sound_of_inv] of CheckpointInv.v. *)
From Coq Require Import List ZArith Bool Arith Lia.
From Jiva Require Import Ctl.Model Ctl.Corr Ctl.Oracles Ctl.Proofs Ctl.Props Ctl.CheckpointInv Ctl.OracleProofs Ctl.OracleProofs2.
Import ListNotations.
Open Scope Z_scope.

(** [calls] of Steps.v as a boolean *)
Definition is_call (e : event) : bool :=
  match e with
  | Write _ _ _ _ | Sync _ | Unmap _ | Read _ _ _ _ | Snapshot _ _ | Resize _ _ => true
  | _ => false
  end.

Lemma is_call_calls : forall e, is_call e = true -> calls e.
Proof. intros e H. destruct e; try discriminate; exact I. Qed.

(** the pair rule is [c18_step] at an event without clauses of its own *)
Lemma c18_pair_model : forall rf0 n q t prev r ef r1,
  struct_ok t -> status_ok t -> rf t = rf0 ->
  c18_step rf0 q prev (SetMode 0%nat WO) (with_res1 (observe n t r ef) r1) = true.
Proof.
  intros rf0 n q t prev r ef r1 H1 [Hc1 _] Hrf.
  unfold c18_step. cbn [o_replicas o_rwc with_res1 observe].
  assert (C1 : nodupb (addrs_of (replicas t)) = true) by (apply nodupb_NoDup; exact (st_nodup t H1)).
  assert (C2 : Nat.leb (length (replicas t)) rf0 = true).
  { apply Nat.leb_le. rewrite <- Hrf. exact (st_len t H1). }
  assert (C3 : Nat.leb (length (wo_of (replicas t))) 1 = true).
  { apply Nat.leb_le. unfold wo_of. rewrite map_length. exact (st_wo t H1). }
  assert (C4 : (if q then Nat.eqb (rwc t) (count_rw (replicas t)) else true) = true).
  { destruct q; [|reflexivity]. apply Nat.eqb_eq. exact Hc1. }
  rewrite C1, C2, C3, C4. reflexivity.
Qed.

Lemma c18_step_model : forall rf0 n q s e prev,
  struct_ok s -> status_ok s -> rf s = rf0 -> keys_lt n s -> ev_wf e = true -> obs_of n s prev ->
  c18_step rf0 q prev e
           (obs_after n s e) = true.
Proof.
  intros rf0 n q s e prev H Hst Hrf Hk Hwf [r0 ef0 r0']. unfold obs_after.
  assert (C6 : match e with
               | Write wid _ _ _ =>
                   if is_ack (obs_after n s e)
                   then forallb (fun a => holds (obs_after n s e) a wid) (in_service (o_replicas (obs_after n s e)))
                   else true
               | _ => true
               end = true).
  { destruct e; try reflexivity. destruct (is_ack _) eqn:Eack; [|reflexivity].
    apply forallb_forall. intros a Ha. apply acked_write_held; try assumption. apply res_class_ok. exact Eack. }
  pose proof (struct_step s e H Hwf) as H1.
  pose proof (rf_step s e) as Hrf1.
  set (s1 := fst (fst (step s e))) in *.
  unfold c18_step. cbn [o_replicas o_rwc o_reps observe with_res1].
  pose proof (c18_pair_model rf0 n q s1 (with_res1 (observe n s r0 ef0) r0') ROk noeff None H1 (status_step s e Hst) (eq_trans Hrf1 Hrf)) as P.
  unfold c18_step in P. cbn [o_replicas o_rwc with_res1 observe] in P. rewrite !andb_true_r in P. rewrite P. cbn [andb].
  apply andb_true_intro. split; [destruct e; try reflexivity; apply frame_clause; try exact I; exact H|exact C6].
Qed.

(** a replica that fails the snapshot call is marked ERR -- when the snapshot is fanned out at all.
    With the gate open (all RF replicas RW) [do_snapshot] still refuses before calling any replica when the
    name lookup on the last RW replica fails (KHttp) or the name is already in that replica's chain *)
Lemma snapshot_failed_not_in_service : forall s n fs r0 a,
  struct_ok s -> status_ok s -> count_rw (replicas s) = rf s ->
  last_rw s = Some r0 -> flt fs r0 KHttp = false -> existsb (Nat.eqb n) (f_chain (wget (w s) r0)) = false ->
  In a (keys (replicas s)) -> flt fs a KSnap = true ->
  ~ In a (in_service (replicas (fst (do_snapshot s n fs)))).
Proof.
  intros s n fs r0 a Hst [Hc _] Hcnt Hl Hh He Ha Hf. pose proof (full_rw_length s Hst Hcnt) as Hlen.
  assert (Hrw : forall x m, In (x, m) (replicas s) -> m = RW) by (apply count_rw_full; congruence).
  pose proof (st_rf s Hst) as Hrf.
  unfold do_snapshot. rewrite Hc, Hcnt, Nat.eqb_refl. cbn [negb].
  assert (Hb : Nat.eqb (length (backends s)) 0 = false).
  { apply Nat.eqb_neq. intro E. pose proof (f_equal (@length _) (st_mirror s Hst)) as L.
    unfold proj in L. rewrite map_length, E, Hlen in L. rewrite <- L in Hrf. inversion Hrf. }
  rewrite Hb.
  assert (Hr : remain_ok s = true).
  { unfold remain_ok. apply negb_true_iff. destruct (existsb _ (backends s)) eqn:Ex; [|reflexivity].
    apply existsb_exists in Ex. destruct Ex as [[k [m i]] [Hp Hm]].
    rewrite (Hrw k m (proj2 (replicas_backends s k m Hst) (ex_intro _ i Hp))) in Hm. discriminate. }
  rewrite Hr, Hl, Hh, He. cbn [negb].
  assert (Haw : In a (writers s)) by (apply all_rw_writers; [exact Hst|congruence|exact Ha]).
  pose proof (sst_snapshot_all s fs n) as Hs. unfold snapshot_all in *. cbn [fst] in Hs.
  set (s1 := fold_left _ (writers s) s) in *.
  assert (H1 : struct_ok s1) by (eapply sst_struct; [exact Hs|exact Hst]).
  assert (Hie : In a (filter (fun x => flt fs x KSnap) (writers s))) by (apply filter_In; split; assumption).
  destruct (filter (fun x => flt fs x KSnap) (writers s)) as [|e es]; [contradiction|].
  intro Hin. apply in_service_in in Hin. destruct Hin as [m [Hm Hne]]. apply Hne.
  apply (handle_error_errs_err (e :: es) s1 a m (st_nodup s1 H1) Hie).
  destruct (handle_error_nolock s1 (e :: es)) as [s2 sup]. exact Hm.
Qed.

(** the oracle's guard [snap_called], read on the model *)
Lemma snap_called_reaches : forall n s nm fs r0 ef0 r0', keys_lt n s ->
  snap_called (with_res1 (observe n s r0 ef0) r0') (Snapshot nm fs) = true ->
  exists rl, last_rw s = Some rl /\ flt fs rl KHttp = false /\ existsb (Nat.eqb nm) (f_chain (wget (w s) rl)) = false.
Proof.
  intros n s nm fs r0 ef0 r0' Hk Hg.
  unfold snap_called in Hg. cbn [o_replicas with_res1 observe] in Hg. unfold rw_of in Hg. rewrite <- map_rev in Hg.
  unfold last_rw.
  destruct (rev (filter (fun p => is_rw (snd p)) (replicas s))) as [|p l] eqn:Er; [discriminate|].
  exists (fst p). cbn [map] in Hg. apply andb_prop in Hg. destruct Hg as [G1 G2].
  apply negb_true_iff in G1. apply negb_true_iff in G2. split; [reflexivity|]. split; [exact G1|].
  assert (Hlt : (fst p < n)%nat).
  { apply Hk. assert (Hin : In p (rev (filter (fun q => is_rw (snd q)) (replicas s)))) by (rewrite Er; left; reflexivity).
    apply in_rev in Hin. apply filter_In in Hin. destruct Hin as [Hin _]. destruct p as [k v]. eapply in_keys. exact Hin. }
  rewrite (chain_of_observe n s r0 ef0 (fst p) Hlt : chain_of (with_res1 _ r0') _ = _) in G2. exact G2.
Qed.

Lemma c13_step_model : forall rf0 n q s e prev,
  ck_inv s -> status_ok s -> rf s = rf0 -> keys_lt n s -> ev_wf e = true -> ev_addrs_lt n e = true ->
  (q = true -> pend_mon (fst (fst (step s e))) = []) -> obs_of n s prev ->
  c13_step rf0 q prev e
           (obs_after n s e) = true.
Proof.
  intros rf0 n q s e prev Hi Hss Hrf Hlt Hwf Hel Hq [r0 ef0 r0']. unfold obs_after.
  pose proof (ck_inv_step s e Hi Hwf) as [H1 [C1 M1]].
  destruct Hi as [Hst [Hcp Hmon]].
  pose proof (rf_step s e) as Hrf1.
  pose proof (keys_lt_step n s e Hlt Hel) as Hlt1.
  pose proof (checkpoint_fresh_step s e Hst Hwf) as Hfr.
  unfold c13_step. apply andb_true_intro. split.
  - (* the snapshot gate *)
    destruct e; try reflexivity.
    rewrite step_snapshot. cbn [fst snd o_replicas with_res1 observe].
    destruct (Nat.eqb (count_rw (replicas s)) rf0 && Nat.eqb (length (replicas s)) rf0) eqn:Ec.
    + apply andb_prop in Ec. destruct Ec as [Ec1 Ec2]. apply Nat.eqb_eq in Ec1. apply Nat.eqb_eq in Ec2.
      apply andb_true_intro. split.
      2:{ (* whoever fails the call is not in service afterwards, when the request is fanned out *)
        destruct (snap_called (with_res1 (observe n s r0 ef0) r0') (Snapshot name fs)) eqn:Eg; [|reflexivity].
        apply forallb_forall. intros a Ha. destruct (flt fs a KSnap) eqn:Ef; [|reflexivity].
        apply negb_true_iff. apply mem_false.
        destruct (snap_called_reaches n s name fs r0 ef0 r0' Hlt Eg) as [rl [Hl [Hh He]]].
        apply (snapshot_failed_not_in_service s name fs rl a Hst Hss (eq_trans Ec1 (eq_sym Hrf)) Hl Hh He Ha Ef). }
      rewrite is_ack_observe.
      destruct (res_eqb (res_class (snd (do_snapshot s name fs))) ROk) eqn:Ea; [|reflexivity].
      apply res_class_ok in Ea. apply forallb_forall. intros a Ha.
      destruct (flt fs a KSnap) eqn:Ef; [reflexivity|].
      rewrite chain_of_observe by (apply Hlt; exact Ha). apply mem_in.
      apply snapshot_ack_reaches; [exact Hst|exact Ea| |exact Ef].
      apply all_rw_writers; [exact Hst|exact (eq_trans Ec1 (eq_sym Ec2))|exact Ha].
    + assert (Hne : count_rw (replicas s) <> rf s).
      { intro E. rewrite (full_rw_length s Hst E), E, Hrf, Nat.eqb_refl in Ec. discriminate. }
      rewrite (snapshot_gate s name fs Hss Hne). cbn [fst snd]. rewrite is_ack_observe. cbn [res_class res_eqb negb andb].
      apply untouched_same_state.
  - (* the recorded checkpoint: at quiescent points and at the moment it is recorded *)
    cbn [o_checkpoint observe with_res1].
    destruct (checkpoint (fst (fst (step s e)))) as [c|] eqn:Ec; [|reflexivity].
    destruct (q || negb (onat_eqb (checkpoint s) (Some c))) eqn:Eq; [|reflexivity].
    destruct (C1 c Ec) as [S2 [_ Hall]].
    assert (S1 : count_rw (replicas (fst (fst (step s e)))) = rf (fst (fst (step s e)))).
    { destruct q.
      - exact (proj1 (sound_of_inv _ C1 M1 c Ec (Hq eq_refl))).
      - cbn [orb] in Eq. apply negb_true_iff in Eq.
        destruct (Hfr c Ec) as [P|[P _]]; [rewrite P, onat_eqb_refl in Eq; discriminate|exact P]. }
    cbn [o_replicas observe]. rewrite S1, S2, Hrf1, Hrf, !Nat.eqb_refl. cbn [andb].
    apply forallb_forall. intros a Ha.
    pose proof (Hlt1 a Ha) as Han. destruct (Hall a Ha) as [A1 [A2 A3]].
    rewrite chain_of_observe, rep_of_observe by exact Han. rewrite (proj2 (mem_in _ _) A1). cbn [andb].
    cbn [o_cp observe_rep]. rewrite A2, onat_eqb_refl, andb_true_r.
    destruct (onat_eqb (checkpoint s) (Some c)) eqn:Eo; [reflexivity|].
    destruct (Hfr c Ec) as [P|[_ P]]; [rewrite P, onat_eqb_refl in Eo; discriminate|].
    destruct (P a Ha) as [tl Ht]. rewrite Ht. apply Nat.eqb_refl.
Qed.

(** the quiescence flags supplied with a history are sound for the model: a flag is true only at
    points where the model has no undelivered monitor notification *)
Fixpoint qs_sound (s : cst) (es : list event) (qs : list bool) : Prop :=
  match es, qs with
  | e :: t, q :: qs' =>
      (q = true -> pend_mon (fst (fst (step s e))) = []) /\ qs_sound (fst (fst (step s e))) t qs'
  | _, _ => True
  end.

(** the oracle sees listed replicas only through the [n] observed ones: with a listed replica outside
    that range (here n = 0) it rejects a trace of the model; histories of the check name addresses below
    [n] only ([ev_addrs_lt]) *)
Example c13_oracle_presupposes_observed_addresses :
  walk_q (fun q => lift (c13_step 1 q) (c13_pair 1)) 0 (obs0 1 0 ex_world) (map One ex_boot)
         (trace 0 (init 1 ex_world) (map One ex_boot)) [true; true] = Some 1%nat.
Proof. vm_compute. reflexivity. Qed.

(** and a flag claiming quiescence while a notification is undelivered makes it reject as well *)
Example c13_oracle_presupposes_sound_flags :
  walk_q (fun q => lift (c13_step 1 q) (c13_pair 1)) 0 (obs0 1 1 ex_world) (map One (ex_boot ++ [SetMode 0%nat ERR]))
         (trace 1 (init 1 ex_world) (map One (ex_boot ++ [SetMode 0%nat ERR]))) [true; true; true] = Some 2%nat
  /\ walk_q (fun q => lift (c13_step 1 q) (c13_pair 1)) 0 (obs0 1 1 ex_world) (map One (ex_boot ++ [SetMode 0%nat ERR]))
         (trace 1 (init 1 ex_world) (map One (ex_boot ++ [SetMode 0%nat ERR]))) [true; true; false] = None.
Proof. vm_compute. split; reflexivity. Qed.

(** with the gate open the model (as the code) refuses a snapshot before calling any replica when the
    name lookup on the last RW replica fails or the name already exists; a replica whose script says KSnap
    then stays in service.  The clause "a replica that failed the snapshot does not stay in service" of
    [c13_step] is guarded by [snap_called] for this reason: without the guard the oracle rejects these
    two traces of the model at step 2 *)
Example c13_accepts_refused_existing_name :
  let es := ex_boot ++ [Snapshot 5%nat [(0%nat, KSnap)]] in
  walk_q (fun q => lift (c13_step 1 q) (c13_pair 1)) 0 (obs0 1 1 ex_world) (map One es)
         (trace 1 (init 1 ex_world) (map One es)) [true; true; true] = None
  /\ map o_res (trace 1 (init 1 ex_world) (map One es)) = [ROk; ROk; RErr]
  /\ map o_replicas (trace 1 (init 1 ex_world) (map One es)) = [[]; [(0%nat, RW)]; [(0%nat, RW)]].
Proof. vm_compute. repeat split. Qed.

Example c13_accepts_refused_failed_lookup :
  let es := ex_boot ++ [Snapshot 7%nat [(0%nat, KHttp); (0%nat, KSnap)]] in
  walk_q (fun q => lift (c13_step 1 q) (c13_pair 1)) 0 (obs0 1 1 ex_world) (map One es)
         (trace 1 (init 1 ex_world) (map One es)) [true; true; true] = None
  /\ map o_res (trace 1 (init 1 ex_world) (map One es)) = [ROk; ROk; RErr]
  /\ map o_replicas (trace 1 (init 1 ex_world) (map One es)) = [[]; [(0%nat, RW)]; [(0%nat, RW)]].
Proof. vm_compute. repeat split. Qed.
