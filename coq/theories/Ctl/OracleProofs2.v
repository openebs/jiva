(** * Ctl: the conditions on histories that the theorems of Properties/ assume, then the rules on one request of the
    oracles of C04, C02, C05 and C09, each with the witnesses that show why a guard or a condition is there; the
    state-level facts the rules rest on are in Props.v *)
From Coq Require Import List ZArith Bool Arith Lia Permutation Relations.
From Jiva Require Import Ctl.Model Ctl.Steps Ctl.Corr Ctl.Oracles Ctl.Proofs Ctl.Props Ctl.OracleProofs.
Import ListNotations.
Open Scope Z_scope.

(** ** the conditions on histories that the theorems of Properties/ assume *)

(** [fixed_assign], [qs_sound] and [xqs_sound] are the same recursion written out with a memory or a list of flags
    beside the state *)
Fixpoint hist_ok (P : cst -> event -> Prop) (s : cst) (es : list event) : Prop :=
  match es with
  | [] => True
  | e :: t => P s e /\ hist_ok P (fst (fst (step s e))) t
  end.

Lemma hist_ok_imp : forall (P Q : cst -> event -> Prop) es s,
  (forall s e, P s e -> Q s e) -> hist_ok P s es -> hist_ok Q s es.
Proof.
  intros P Q. induction es as [|e t IH]; intros s H Hh; cbn in *; [exact I|].
  destruct Hh as [H1 H2]. split; [apply H; exact H1|apply IH; assumption].
Qed.

Lemma hist_ok_forallb : forall (p : event -> bool) es s, forallb p es = true -> hist_ok (fun _ e => p e = true) s es.
Proof.
  intros p. induction es as [|e t IH]; intros s H; cbn in *; [exact I|].
  apply andb_prop in H. destruct H as [H1 H2]. split; [exact H1|apply IH; exact H2].
Qed.

Definition wf_hist (es : list event) : Prop := forallb ev_wf es = true.

(** histories whose read orders (and register picks) the model accepts as possible observations *)
Definition no_invalid (s : cst) (es : list event) : Prop :=
  hist_ok (fun s e => snd (fst (step s e)) <> RInvalid) s es.

Definition ev_addrs_lt (n : nat) (e : event) : bool :=
  match e with
  | AddCommit a _ => Nat.ltb a n
  | Start l _ => forallb (fun a => Nat.ltb a n) l
  | _ => true
  end.

Definition keys_lt (n : nat) (s : cst) : Prop := forall x, In x (keys (replicas s)) -> (x < n)%nat.

Lemma keys_lt_step : forall n s e, keys_lt n s -> ev_addrs_lt n e = true -> keys_lt n (fst (fst (step s e))).
Proof.
  intros n s e Hk He x Hx.
  destruct (keys_step s e x Hx) as [Hi|Hs]; [apply Hk; exact Hi|].
  destruct e; try contradiction; cbn in He, Hs.
  - rewrite forallb_forall in He. apply Nat.ltb_lt. apply He. exact Hs.
  - subst x. apply Nat.ltb_lt. exact He.
Qed.

Lemma keys_lt_init : forall n rf0 w0, keys_lt n (init rf0 w0).
Proof. intros n rf0 w0 x Hx. cbn in Hx. contradiction. Qed.

Definition reg_consistent (g : regs) (e : event) : bool :=
  match e with
  | Register a u rev reb _ _ =>
      if Nat.eqb u 0 then true
      else (0 <=? rev)
           && match aget g a with Some (rv, rb) => (rev =? rv) && Bool.eqb reb rb | None => true end
  | _ => true
  end.

Fixpoint fixed_assign (g : regs) (es : list event) : bool :=
  match es with
  | [] => true
  | e :: t => reg_consistent g e && fixed_assign (regs_upd g e) t
  end.

(** ** C04: the rule of [c04_step]; [c04_step'] for histories with an impossible read order *)

Lemma c04_step_model : forall rf0 n s e prev,
  struct_ok s -> snd (fst (step s e)) <> RInvalid -> obs_of n s prev ->
  c04_step rf0 prev e
           (obs_after n s e) = true.
Proof.
  intros rf0 n s e prev H Hinv [r0 ef0 r0']. unfold obs_after. destruct e; try reflexivity.
  cbn [step] in *. unfold c04_step. cbn [o_served o_replicas o_size observe with_res1 o_res].
  rewrite is_ack_observe.
  destruct (do_read_spec s off len order fs H) as [[Hr Hd]|Hs].
  - rewrite Hd. cbn [fst snd e_served noeff res_class res_eqb negb andb]. rewrite Hr. reflexivity.
  - unfold read_spec in Hs. destruct (do_read s off len order fs) as [[s' r] ef]. cbn [fst snd] in *.
    destruct (e_served ef) as [a|].
    + destruct Hs as [Hr [Ha [Hsub Hgone]]]. subst r. cbn [res_class res_eqb andb].
      assert (M : mem a (rw_of (replicas s)) = true) by (apply mem_in; exact Ha). rewrite M. cbn [andb].
      apply andb_true_intro. split.
      * apply forallb_forall. intros x Hx. apply mem_in. apply Hsub. exact Hx.
      * apply forallb_forall. intros x Hx. destruct (Nat.eqb x a) eqn:E; [reflexivity|].
        apply negb_true_iff. apply mem_false. apply Nat.eqb_neq in E. exact (Hgone x Hx E).
    + destruct Hs as [Hr [Hi|Hall]]; [contradiction|].
      assert (N : res_eqb (res_class r) ROk = false) by (destruct r; cbn in *; try reflexivity; contradiction).
      rewrite N. cbn [negb andb].
      assert (F : forallb (fun x => flt fs x KRead) (rw_of (replicas s)) = true) by (apply forallb_forall; exact Hall).
      rewrite F. apply orb_true_r.
Qed.

(** on the model's trace of a history with an impossible read order (the order is an observation that
    the model validates: result RInvalid) the oracle as written is false *)
Definition c04_step' (rf0 : nat) (prev : obs) (e : event) (cur : obs) : bool :=
  res_eqb (o_res cur) RInvalid || c04_step rf0 prev e cur.

Lemma c04_step'_model : forall rf0 n s e prev,
  struct_ok s -> obs_of n s prev ->
  c04_step' rf0 prev e
            (obs_after n s e) = true.
Proof.
  intros rf0 n s e prev H Hp. unfold c04_step'.
  destruct (res_eqb (o_res (obs_after n s e)) RInvalid) eqn:E; [reflexivity|].
  cbn [orb]. apply c04_step_model; [exact H| |exact Hp].
  intro Hr. unfold obs_after in E. cbn [o_res observe] in E. rewrite Hr in E. cbn in E. discriminate.
Qed.

(** the discrepancy: one replica, started, then a read whose observed order is empty (impossible: the
    model answers RInvalid); [c04_step] rejects the model's own trace at step 2 *)
Definition c04_witness : list event :=
  [Register 0%nat 1%nat 1 false None []; Start [0%nat] []; Read 0 0 [] []].

Example c04_false_on_invalid_order :
  walk (lift (c04_step 1) nopair) 0 (obs0 1 1 []) (map One c04_witness) (trace 1 (init 1 []) (map One c04_witness)) = Some 2%nat
  /\ map o_res (trace 1 (init 1 []) (map One c04_witness)) = [ROk; ROk; RInvalid].
Proof. vm_compute. split; reflexivity. Qed.

(** ** C02 and C05: the clauses on write, sync and unmap, then the rules *)

(** the clause of C05 and C18: a request that calls replicas touches nobody outside the service *)
Lemma frame_clause : forall n s e r0 ef0 r0' l, struct_ok s -> calls e ->
  forallb (fun a => if mem a (in_service (replicas s)) then true
                    else same_reps (with_res1 (observe n s r0 ef0) r0') (obs_after n s e) a) l = true.
Proof.
  intros n s e r0 ef0 r0' l H He. apply forallb_forall. intros a _.
  destruct (mem a (in_service (replicas s))) eqn:M; [reflexivity|].
  apply mem_false in M. rewrite <- (writers_in_service s H) in M. apply same_reps_eq. exact (call_frame s e a He M).
Qed.

(** the clause of C02 and C05: whoever failed the request is no longer listed *)
Lemma gone_clause : forall s e, struct_ok s -> reached s e ->
  forallb (fun a => if io_kind_fail e a then negb (mem a (addrs_of (replicas (fst (fst (step s e)))))) else true)
          (in_service (replicas s)) = true.
Proof.
  intros s e H R. apply forallb_forall. intros a Ha. destruct (io_kind_fail e a) eqn:F; [|reflexivity].
  apply negb_true_iff. apply mem_false. exact (failed_gone s e a H R Ha F).
Qed.

Lemma write_held : forall n s wid off len fs x r ef, struct_ok s -> keys_lt n s ->
  snd (fst (step s (Write wid off len fs))) = ROk -> In x (writers s) -> flt fs x KWrite = false ->
  holds (observe n (fst (fst (step s (Write wid off len fs)))) r ef) x wid = true.
Proof.
  intros n s wid off len fs x r ef H Hk Hok Hx Hf. destruct (io_acked s (Write wid off len fs) eq_refl Hok) as [Hro [Hav [Hr1 Hr2]]].
  apply holds_observe.
  - apply Hk. apply in_service_keys. rewrite <- (writers_in_service s H). exact Hx.
  - rewrite fst_step_write. exact (write_survivors_hold_it s wid off len fs x H Hro Hav Hr1 Hr2 Hx Hf).
Qed.

Lemma acked_write_held : forall n s wid off len fs a r ef, struct_ok s -> keys_lt n s ->
  snd (fst (step s (Write wid off len fs))) = ROk ->
  In a (in_service (replicas (fst (fst (step s (Write wid off len fs)))))) ->
  holds (observe n (fst (fst (step s (Write wid off len fs)))) r ef) a wid = true.
Proof.
  intros n s wid off len fs a r ef H Hk Hok Ha. apply in_service_in in Ha. destruct Ha as [m [Hm Hne]].
  assert (Has : In a (in_service (replicas s))).
  { apply in_service_in. exists m. split; [exact (call_live s (Write wid off len fs) (a, m) I Hm Hne)|exact Hne]. }
  apply write_held; try assumption; [rewrite (writers_in_service s H); exact Has|].
  destruct (flt fs a KWrite) eqn:F; [|reflexivity].
  destruct (failed_gone s _ a H (io_acked s (Write wid off len fs) eq_refl Hok) Has); [cbn; rewrite F; reflexivity|eapply in_keys; exact Hm].
Qed.

Lemma c02_step_model : forall rf0 n s e prev,
  struct_ok s -> keys_lt n s -> obs_of n s prev ->
  c02_step rf0 prev e
           (obs_after n s e) = true.
Proof.
  intros rf0 n s e prev H Hk [r0 ef0 r0'].
  destruct (is_io e) eqn:Hio; [|destruct e; try discriminate Hio; reflexivity].
  destruct (is_ack (obs_after n s e)) eqn:Eack; [|destruct e; try discriminate Hio; unfold c02_step; rewrite Eack; reflexivity].
  assert (Hok : snd (fst (step s e)) = ROk) by (apply res_class_ok; exact Eack).
  pose proof (io_acked s e Hio Hok) as R. destruct (proj1 (io_acked_iff s e H Hio R) Hok) as [Hm [x [Hxg Hxr]]].
  pose proof (gone_clause s e H R) as Gone.
  destruct e; try discriminate Hio; unfold c02_step; rewrite Eack; cbv zeta; unfold obs_after;
    cbn [o_replicas observe with_res1 io_kind_fail] in *;
    [|rewrite Gone, andb_true_r; apply Nat.ltb_lt; exact Hm|rewrite Gone, andb_true_r; apply Nat.ltb_lt; exact Hm].
  (* a write: the replicas that did not fail it hold it *)
  assert (Held : forall a, In a (filter (fun a => negb (flt fs a KWrite || flt fs a KWriteAp)) (in_service (replicas s))) ->
            forall r ef, holds (observe n (fst (fst (step s (Write wid off len fs)))) r ef) a wid = true).
  { intros a Ha r ef. apply filter_In in Ha. destruct Ha as [Ha F]. apply negb_true_iff in F. apply orb_false_iff in F.
    apply write_held; try assumption; [rewrite (writers_in_service s H); exact Ha|exact (proj1 F)]. }
  rewrite Gone, andb_true_r. apply andb_true_intro. split; [apply andb_true_intro; split|].
  - apply Nat.ltb_lt. eapply Nat.lt_le_trans; [exact Hm|]. apply Nat.mul_le_mono_l. apply filter_imp_length_in.
    intros a Ha F. apply Held. apply filter_In. split; assumption.
  - apply existsb_exists. exists x. split; [|apply mem_in; exact Hxr].
    apply filter_In. split; [exact (proj1 (proj1 (filter_In _ _ _) Hxg))|apply Held; exact Hxg].
  - apply forallb_forall. intros a Ha. apply acked_write_held; assumption.
Qed.

(** the first clause of [c05_step] applies only when the I/O reached the replicas: the quorum gate is
    open, an RW replica exists and (for a write) the range lies inside the volume — a write outside the
    volume is rejected before any replica is called and detaches nobody.  Without the range guard the
    oracle rejects the model's own trace of
    [Register 0 ..; Start [0]; Write 7 5 1 [(0, KWrite)]] on a volume of size 0. *)
Definition c05_witness : list event :=
  [Register 0%nat 1%nat 1 false None []; Start [0%nat] []; Write 7%nat 5 1 [(0%nat, KWrite)]].

Example c05_out_of_range_write_detaches_nobody :
  walk (lift (c05_step 1) nopair) 0 (obs0 1 1 []) (map One c05_witness) (trace 1 (init 1 []) (map One c05_witness)) = None
  /\ map o_res (trace 1 (init 1 []) (map One c05_witness)) = [ROk; ROk; RErr]
  /\ map o_replicas (trace 1 (init 1 []) (map One c05_witness)) = [[]; [(0%nat, RW)]; [(0%nat, RW)]].
Proof. vm_compute. repeat split; reflexivity. Qed.

(** the first clause of [c05_step] on the model, its guard included *)
Lemma c05_detached : forall rf0 s e, status_ok s -> struct_ok s -> rf s = rf0 ->
  (if is_io e && quorum_ok rf0 (replicas s) && negb (Nat.eqb (length (rw_of (replicas s))) 0)
      && match e with Write _ off len _ => (0 <=? off) && (off + len <=? csize s) | _ => true end
   then forallb (fun a => if io_kind_fail e a then negb (mem a (addrs_of (replicas (fst (fst (step s e)))))) else true)
                (in_service (replicas s))
   else true) = true.
Proof.
  intros rf0 s e Hst H Hrf.
  match goal with |- (if ?c then _ else _) = true => destruct c eqn:G; [|reflexivity] end.
  apply andb_prop in G. destruct G as [G Hr]. apply andb_prop in G. destruct G as [G Hn].
  apply andb_prop in G. destruct G as [_ Hq].
  destruct (rw_of (replicas s)) as [|x t] eqn:Ex; [discriminate|].
  apply gone_clause; [exact H|]. apply (rw_reached rf0 s e x); try assumption. rewrite Ex. left. reflexivity.
Qed.

Lemma c05_enter : forall s e,
  forallb (fun p =>
        if mem (fst p) (addrs_of (replicas s)) then true
        else match e with
             | AddCommit a _ => Nat.eqb a (fst p) && mode_eqb (snd p) WO
             | Start _ _ => Nat.eqb (length (replicas s)) 0
             | _ => false
             end) (replicas (fst (fst (step s e)))) = true.
Proof.
  intros s e. apply forallb_forall. intros p Hp.
  destruct (mem (fst p) (addrs_of (replicas s))) eqn:M; [reflexivity|].
  apply mem_false in M. change (addrs_of (replicas s)) with (keys (replicas s)) in M.
  assert (Hk : In (fst p) (keys (replicas (fst (fst (step s e)))))) by (destruct p as [x m]; eapply in_keys; exact Hp).
  pose proof (enter_only_by_add_or_start s e (fst p) Hk M) as G.
  destruct e; try contradiction.
  - rewrite G. reflexivity.
  - cbn [step] in Hp.
    assert (Hp' : In p (replicas (fst (do_add_commit s a fs)))) by (destruct (do_add_commit s a fs); exact Hp).
    rewrite (add_commit_new_is_wo s a fs p Hp' M). cbn. rewrite Nat.eqb_refl. reflexivity.
Qed.

Lemma c05_not_revived : forall s e, struct_ok s ->
  match e with
  | SetMode a _ =>
      (if is_mode (replicas s) a ERR
       then is_mode (replicas (fst (fst (step s e)))) a ERR || negb (mem a (addrs_of (replicas (fst (fst (step s e))))))
       else true) = true
  | _ => True
  end.
Proof.
  intros s e H. destruct e; try exact I.
  destruct (is_mode (replicas s) a ERR) eqn:E; [|reflexivity].
  assert (R : replicas (fst (fst (step s (SetMode a m)))) = replicas s).
  { pose proof (aget_in_nodup _ _ _ (st_nodup s H) (is_mode_in _ _ _ E)) as Hg.
    cbn [step]. destruct m; cbn [fst]; [reflexivity|apply set_mode_keeps_err; exact Hg|apply set_mode_keeps_err; exact Hg]. }
  rewrite R, E. reflexivity.
Qed.

Lemma c05_reported_gone : forall s e, struct_ok s ->
  match e with
  | MonFire a _ | MonFail a _ | Remove a _ =>
      snd (fst (step s e)) = ROk -> ~ In a (keys (replicas (fst (fst (step s e)))))
  | _ => True
  end.
Proof.
  intros s e H. pose proof (reported_removed s e H) as G.
  destruct e; try exact I; intros Hok; (destruct G as [E|(t & Ht & _ & _ & E)]; rewrite E in *; [discriminate|]);
    apply remove_replica_gone; exact Ht.
Qed.

Lemma c05_step_model : forall rf0 n s e prev,
  status_ok s -> struct_ok s -> rf s = rf0 -> obs_of n s prev ->
  c05_step rf0 prev e
            (obs_after n s e) = true.
Proof.
  intros rf0 n s e prev Hst H Hrf [r0 ef0 r0']. unfold obs_after. unfold c05_step.
  cbn [o_replicas o_size observe with_res1].
  apply andb_true_intro. split; [apply andb_true_intro; split; [apply andb_true_intro; split; [apply andb_true_intro; split; [apply andb_true_intro; split|]|]|]|].
  - pose proof (c05_detached rf0 s e Hst H Hrf) as G.
    destruct e; try reflexivity; exact G.
  - cbv zeta. match goal with |- (if ?c then _ else _) = true => destruct c eqn:E; [|reflexivity] end.
    apply andb_prop in E. destruct E as [E G5]. apply andb_prop in E. destruct E as [E G4].
    apply andb_prop in E. destruct E as [E G3]. apply andb_prop in E. destruct E as [Hio G1].
    apply Nat.ltb_lt in G4. apply existsb_exists in G5. destruct G5 as [x [Hxg Hxr]]. apply mem_in in Hxr.
    assert (R : reached s e).
    { apply (rw_reached rf0 s e x Hst H Hrf G1 Hxr). destruct e; try reflexivity. exact G3. }
    rewrite is_ack_observe, (proj2 (io_acked_iff s e H Hio R) (conj G4 (ex_intro _ x (conj Hxg Hxr)))). reflexivity.
  - apply c05_enter.
  - destruct (is_io e) eqn:Eio; [|reflexivity]. apply frame_clause; [exact H|destruct e; try discriminate; exact I].
  - pose proof (c05_not_revived s e H) as G. destruct e; try reflexivity. exact G.
  - pose proof (c05_reported_gone s e H) as G. rewrite is_ack_observe.
    destruct e; try reflexivity;
      (destruct (res_eqb (res_class (snd (fst (step s _)))) ROk) eqn:Eack; [|reflexivity]);
      apply res_class_ok in Eack; apply negb_true_iff; apply mem_false; exact (G Eack).
Qed.

(** ** C09: the memory of the oracle agrees with the registered set; the rule of [c09_step] *)

Definition starts_of (o : obs) : list addr := map fst (filter (fun p => snd p) (o_signals o)).

Lemma no_start_signals : forall n s r ef, (forall p, In p (e_signals ef) -> snd p = false) ->
  starts_of (observe n s r ef) = [].
Proof.
  intros n s r ef H. unfold starts_of, observe. cbn [o_signals].
  rewrite filter_none; [reflexivity|]. intros p Hp. apply H. apply in_sort2. exact Hp.
Qed.

(** both C09 oracles remember a projection [p] of the record every address registered with last *)
Definition agrees {V} (p : rrec -> V) (m : list (addr * V)) (s : cst) : Prop :=
  forall x r, In (x, r) (registered s) -> aget m x = Some (p r).

Lemma agrees_init : forall {V} (p : rrec -> V) rf0 w0, agrees p [] (init rf0 w0).
Proof. intros V p rf0 w0 x r []. Qed.

Lemma agrees_incl : forall {V} (p : rrec -> V) m s s', incl (registered s') (registered s) -> agrees p m s -> agrees p m s'.
Proof. intros V p m s s' I A x r Hx. apply A. apply I. exact Hx. Qed.

Lemma agrees_s1 : forall {V} (p : rrec -> V) m s a u rev reb, struct_ok s -> agrees p m s ->
  agrees p (aset m a (p (mkrrec u rev reb))) (reg_s1 s a u rev reb).
Proof.
  intros V p m s a u rev reb H A x r Hx. rewrite aget_aset.
  destruct (in_reg_s1 s a u rev reb x r H Hx) as [[-> ->]|[Hin [Hne _]]];
    [rewrite Nat.eqb_refl; reflexivity|rewrite Hne; apply A; exact Hin].
Qed.

(** [regs_upd] and [uids_upd] of Oracles.v are [mem_upd] at their projections *)
Definition mem_upd {V} (p : rrec -> V) (m : list (addr * V)) (e : event) : list (addr * V) :=
  match e with
  | Register a u rev reb _ _ => if Nat.eqb u 0 then m else aset m a (p (mkrrec u rev reb))
  | _ => m
  end.

Lemma agrees_step : forall {V} (p : rrec -> V) m s e, struct_ok s -> agrees p m s ->
  agrees p (mem_upd p m e) (fst (fst (step s e))).
Proof.
  intros V p m s e H A.
  assert (Other : (match e with Register _ _ _ _ _ _ => False | _ => True end) -> mem_upd p m e = m ->
                  agrees p (mem_upd p m e) (fst (fst (step s e)))).
  { intros He Hm. rewrite Hm. exact (agrees_incl p m s _ (proj2 (rs_step s e He)) A). }
  destruct e; try (apply Other; [exact I|reflexivity]).
  cbn [step mem_upd]. destruct (Nat.eqb uuid 0) eqn:Hu.
  { rewrite do_register_unfold, Hu. exact A. }
  destruct (do_register_spec s a uuid rev rebuilding pick fs H Hu) as [S1 _].
  exact (agrees_incl p _ _ _ S1 (agrees_s1 p m s a uuid rev rebuilding H A)).
Qed.

Record reg_inv (g : regs) (s : cst) : Prop := mkreginv {
  ri_reg : agrees (fun r => (rg_rev r, rg_rebuilding r)) g s;
  ri_max : forall m, maxrev s = Some m -> exists rv, aget g m = Some (rv, false);
  ri_pos : forall x rv rb, aget g x = Some (rv, rb) -> 0 <= rv
}.

Lemma reg_inv_init : forall rf0 w0, reg_inv [] (init rf0 w0).
Proof. intros. constructor; cbn; [intros x r []|intros m Hm; discriminate|intros x rv rb Hx; discriminate]. Qed.

Lemma rs_inv : forall g s t, reg_sub s t -> reg_inv g s -> reg_inv g t.
Proof.
  intros g s t S [A B C]. constructor; [exact (agrees_incl _ _ _ _ (proj2 S) A)|exact (proj2 (rs_keep _ s t S B))|exact C].
Qed.

Lemma reg_inv_s1 : forall g s a u rev reb pick fs, struct_ok s -> reg_inv g s -> Nat.eqb u 0 = false ->
  reg_consistent g (Register a u rev reb pick fs) = true ->
  reg_inv (aset g a (rev, reb)) (reg_s1 s a u rev reb).
Proof.
  intros g s a u rev reb pick fs H [A B C] Hu Hc. cbn [reg_consistent] in Hc. rewrite Hu in Hc.
  apply andb_prop in Hc. destruct Hc as [Hpos Hsame]. apply Z.leb_le in Hpos.
  constructor; [exact (agrees_s1 _ g s a u rev reb H A)| |].
  - intros m Hm. change (maxrev (reg_s1 s a u rev reb)) with (maxrev s) in Hm.
    destruct (B m Hm) as [rv Hrv]. rewrite aget_aset. destruct (Nat.eqb a m) eqn:E; [|exists rv; exact Hrv].
    apply Nat.eqb_eq in E. subst m. rewrite Hrv in Hsame. apply andb_prop in Hsame. destruct Hsame as [_ Hb].
    apply eqb_prop in Hb. subst reb. exists rev. reflexivity.
  - intros x rv rb Hx. rewrite aget_aset in Hx. destruct (Nat.eqb a x); [inversion Hx; subst; exact Hpos|].
    eapply C. exact Hx.
Qed.

Lemma leader_nonreb : forall g s s1 a rev reb m, reg_inv (aset g a (rev, reb)) s1 -> maxrev s1 = maxrev s ->
  leader_from1 s s1 a reb m -> exists rv, aget (aset g a (rev, reb)) m = Some (rv, false).
Proof.
  intros g s s1 a rev reb m [A B C] Hm [L|[[L1 L2]|[r [L1 L2]]]].
  - apply B. rewrite Hm. exact L.
  - subst. exists rev. rewrite aget_aset, Nat.eqb_refl. reflexivity.
  - exists (rg_rev r). rewrite (A m r L1), L2. reflexivity.
Qed.

Lemma reg_inv_step : forall g s e, struct_ok s -> reg_inv g s -> reg_consistent g e = true ->
  reg_inv (regs_upd g e) (fst (fst (step s e))).
Proof.
  intros g s e H Hi Hc.
  assert (Other : (match e with Register _ _ _ _ _ _ => False | _ => True end) -> regs_upd g e = g ->
                  reg_inv (regs_upd g e) (fst (fst (step s e)))).
  { intros He Hg. rewrite Hg. eapply rs_inv; [apply rs_step; exact He|exact Hi]. }
  destruct e; try (apply Other; [exact I|reflexivity]).
  cbn [step regs_upd]. destruct (Nat.eqb uuid 0) eqn:Hu.
  { rewrite do_register_unfold, Hu. exact Hi. }
  pose proof (reg_inv_s1 g s a uuid rev rebuilding pick fs H Hi Hu Hc) as H1.
  destruct (do_register_spec s a uuid rev rebuilding pick fs H Hu) as [S1 [S2 _]].
  constructor.
  - intros x r Hx. apply (ri_reg _ _ H1). apply S1. exact Hx.
  - intros m Hm. eapply leader_nonreb; [exact H1|reflexivity|apply S2; exact Hm].
  - exact (ri_pos _ _ H1).
Qed.

Lemma c09_register : forall rf0 n g s a u rev reb pick fs r0 ef0 r0',
  struct_ok s -> rf s = rf0 -> reg_inv g s ->
  reg_consistent g (Register a u rev reb pick fs) = true ->
  c09_step rf0 g (with_res1 (observe n s r0 ef0) r0') (Register a u rev reb pick fs)
           (observe n (fst (fst (do_register s a u rev reb pick fs))) (snd (fst (do_register s a u rev reb pick fs)))
                    (snd (do_register s a u rev reb pick fs))) = true.
Proof.
  intros rf0 n g s a u rev reb pick fs r0 ef0 r0' H Hrf Hi Hc.
  unfold c09_step. cbn [o_signals observe o_registered o_replicas with_res1 regs_upd].
  destruct (Nat.eqb u 0) eqn:Hu.
  { rewrite do_register_unfold, Hu. reflexivity. }
  pose proof (reg_inv_s1 g s a u rev reb pick fs H Hi Hu Hc) as H1.
  destruct (do_register_spec s a u rev reb pick fs H Hu) as [S1 [S2 S3]].
  set (g1 := aset g a (rev, reb)) in *.
  set (out := do_register s a u rev reb pick fs) in *.
  set (s1 := reg_s1 s a u rev reb) in *.
  destruct S3 as [E|[m [E [Hr [L [t2 [I2 [N2 [Q [C Rr]]]]]]]]]].
  { rewrite E. reflexivity. }
  unfold candidates, reg_rev in C. set (R2 := registered t2) in *.
  rewrite E. cbn [sort2 fold_right insert2 filter snd map fst forallb length Nat.leb andb].
  rewrite !andb_true_r.
  destruct (leader_nonreb g s s1 a rev reb m H1 eq_refl L) as [rvm Hm]. fold g1 in Hm.
  assert (Rm : reg_of g1 m = (rvm, false)) by (unfold reg_of; rewrite Hm; reflexivity).
  set (R' := sort (map fst (registered (fst (fst out))))).
  set (pool := if mem m R' then R' else m :: R').
  assert (HR' : forall x, In x R' <-> In x (keys (registered (fst (fst out))))) by (intros x; apply in_sort).
  assert (Hsub : forall p, In p (registered (fst (fst out))) -> In p R2).
  { intros p Hp. destruct Rr as [Rr|Rr]; rewrite Rr in Hp; [exact Hp|eapply in_adel; exact Hp]. }
  assert (Hlen : (length R2 <= length pool)%nat).
  { assert (LR : length R' = length (registered (fst (fst out)))) by (unfold R'; rewrite length_sort, map_length; reflexivity).
    destruct Rr as [Rr|Rr].
    - rewrite Rr in LR. unfold pool. destruct (mem m R'); cbn [length]; rewrite LR; lia.
    - assert (Nm : mem m R' = false).
      { apply mem_false. intro Hx. apply HR' in Hx. rewrite Rr in Hx. exact (adel_not_in R2 m N2 Hx). }
      unfold pool. rewrite Nm. cbn [length]. rewrite LR, Rr. apply length_adel_ge. }
  apply andb_true_intro. split; [apply andb_true_intro; split; [apply andb_true_intro; split|]|].
  - apply Nat.leb_le. rewrite <- Hrf. eapply Nat.le_trans; [exact Q|exact Hlen].
  - rewrite Hr. reflexivity.
  - rewrite Rm. reflexivity.
  - apply forallb_forall. intros x Hx.
    assert (Hx' : x = m \/ In x R').
    { unfold pool in Hx. destruct (mem m R'); [right; exact Hx|]. destruct Hx as [Hx|Hx]; [left; symmetry; exact Hx|right; exact Hx]. }
    destruct Hx' as [Hx'|Hx'].
    + subst x. rewrite Rm. cbn [fst snd orb]. destruct (flt fs m KSignal || flt fs m KAlive); [reflexivity|apply Z.leb_refl].
    + apply HR' in Hx'. apply keys_in in Hx'. destruct Hx' as [r Hxr]. apply Hsub in Hxr.
      pose proof (ri_reg _ _ H1 x r (I2 _ Hxr)) as Gx.
      assert (Rx : reg_of g1 x = (rg_rev r, rg_rebuilding r)) by (unfold reg_of; rewrite Gx; reflexivity).
      rewrite Rx, Rm. cbn [fst snd].
      destruct (rg_rebuilding r) eqn:Er; [reflexivity|]. cbn [orb].
      destruct (flt fs x KSignal || flt fs x KAlive); [reflexivity|].
      apply Z.leb_le. specialize (C (x, r) (proj2 (filter_In _ _ _) (conj Hxr (f_equal negb Er)))). cbn [snd] in C.
      destruct (aget R2 m) as [rm|] eqn:Eg.
      * apply aget_in in Eg. pose proof (ri_reg _ _ H1 m rm (I2 _ Eg)) as Gm. rewrite Hm in Gm. inversion Gm. exact C.
      * (* [m] has no record left: its revision counts as 0, and revisions are not negative ([ri_pos]) *)
        pose proof (ri_pos _ _ H1 m rvm false Hm). lia.
Qed.

Lemma start_frontend_fields : forall s, replicas (start_frontend s) = replicas s /\ w (start_frontend s) = w s.
Proof. intros s. unfold start_frontend. destruct (replicas s) eqn:E; split; try reflexivity; exact E. Qed.

Lemma start_behind_err : forall s1 fs x md, let s' := do_start_tail s1 fs in
  NoDup (keys (replicas s')) -> In (x, md) (replicas s') ->
  f_rev (wget (w s') x) < fold_left Z.max (map (fun a => f_rev (wget (w s') a)) (keys (replicas s'))) 0 -> md = ERR.
Proof.
  intros s1 fs x md s' Hn Hp Hlt. unfold do_start_tail in s'.
  set (s2 := fst (handle_error_nolock s1 (behind s1))) in *.
  assert (Rs' : replicas s' = replicas s2).
  { unfold s'. rewrite (proj1 (start_frontend_fields _)).
    destruct (sst_update_checkpoint (update_vol_status s2) fs) as [Q _]. rewrite Q. reflexivity. }
  assert (Wrev : forall a, f_rev (wget (w s') a) = f_rev (wget (w s1) a)).
  { intros a. unfold s'. rewrite (proj2 (start_frontend_fields _)).
    rewrite (update_checkpoint_keeps f_rev cpi_rev). cbn [w update_vol_status upd_status].
    unfold s2. rewrite w_handle_error. reflexivity. }
  assert (K2 : keys (replicas s2) = keys (replicas s1)) by (unfold s2; apply keys_handle_error).
  rewrite Rs' in Hp. rewrite Rs', K2 in Hn, Hlt. rewrite Wrev, (map_ext _ _ Wrev) in Hlt.
  refine (handle_error_errs_err (behind s1) s1 x md Hn _ Hp).
  assert (Hx1 : In x (keys (replicas s1))) by (rewrite <- K2; eapply in_keys; exact Hp).
  apply keys_in in Hx1. destruct Hx1 as [m1 Hx1].
  unfold keys in Hlt. rewrite map_map in Hlt. unfold behind. cbv zeta. rewrite map_map. cbn [snd].
  apply in_map_iff. exists (x, f_rev (wget (w s1) x)). split; [reflexivity|].
  apply filter_In. split; [apply in_map_iff; exists (x, m1); split; [reflexivity|exact Hx1]|].
  cbn [snd]. apply negb_true_iff. apply Z.eqb_neq. exact (Z.lt_neq _ _ Hlt).
Qed.

(** the clause of [c09_step] on an acknowledged start, as the oracle writes it: a replica behind the highest revision
    counter is not RW *)
Lemma c09_start_revs : forall n s1 fs s' r ef, s' = do_start_tail s1 fs ->
  NoDup (keys (replicas s')) -> keys_lt n s' ->
  (let cur := observe n s' r ef in
   let revs := map (fun a => match rep_of cur a with Some r => o_rev r | None => 0 end) (addrs_of (o_replicas cur)) in
   let mx := fold_left Z.max revs 0 in
   forallb (fun p => match rep_of cur (fst p) with
                     | Some r => if o_rev r <? mx then negb (is_rw (snd p)) else true
                     | None => false end) (o_replicas cur)) = true.
Proof.
  intros n s1 fs s' r ef Es' Hn Hk. cbv zeta. cbn [o_replicas observe].
  assert (Erevs : map (fun a => match rep_of (observe n s' r ef) a with Some r1 => o_rev r1 | None => 0 end) (addrs_of (replicas s'))
                  = map (fun a => f_rev (wget (w s') a)) (keys (replicas s'))).
  { apply map_ext_in. intros a Ha. rewrite rep_of_observe by (apply Hk; exact Ha). reflexivity. }
  rewrite Erevs. apply forallb_forall. intros [x md] Hp. cbn [fst snd].
  rewrite rep_of_observe by (apply Hk; eapply in_keys; exact Hp). cbn [o_rev observe_rep].
  destruct (_ <? _) eqn:Elt; [|reflexivity]. apply Z.ltb_lt in Elt.
  subst s'. rewrite (start_behind_err s1 fs x md Hn Hp Elt). reflexivity.
Qed.

Lemma c09_start : forall rf0 n g s l fs r0 ef0 r0',
  struct_ok s -> keys_lt n s -> ev_wf (Start l fs) = true -> ev_addrs_lt n (Start l fs) = true ->
  c09_step rf0 g (with_res1 (observe n s r0 ef0) r0') (Start l fs)
           (observe n (fst (fst (do_start s l fs))) (snd (fst (do_start s l fs))) (snd (do_start s l fs))) = true.
Proof.
  intros rf0 n g s l fs r0 ef0 r0' H Hk Hwf Hlt.
  pose proof (struct_step s (Start l fs) H Hwf) as H'. pose proof (keys_lt_step n s (Start l fs) Hk Hlt) as Hk'.
  cbn [step] in H', Hk'.
  pose proof (do_start_cases s l fs) as C. destruct (do_start s l fs) as [[s' r] ef]. cbn [fst snd] in *.
  (* the new observation stays folded while the old one is read off: with [observe] unfolded in it the statement of
     [c09_start_revs] is dear to recognise in the goal *)
  set (cur := observe n s' r ef). unfold c09_step. fold (starts_of cur). cbn [o_replicas o_maxrev o_signalled observe with_res1].
  destruct C as [E|(a0 & t & s1 & El & Er & Hs & Hm & _ & [(r' & Hr & E)|(ef' & Hsig & E)])]; inversion E; subst s' r ef cur; clear E;
    (rewrite no_start_signals by (try exact Hsig; intros p []));
    cbn [length Nat.eqb andb]; rewrite andb_true_r.
  - cbn [o_replicas observe]. rewrite andb_negb_r. destruct (replicas s); [destruct (is_ack _ && _); reflexivity|rewrite andb_false_r; reflexivity].
  - assert (A : is_ack (observe n (start_frontend s1) r' noeff) = false)
      by (apply negb_true_iff, not_ack; exact Hr).
    rewrite A, El, Hm, Hs, Nat.eqb_refl. destruct (_ && negb _); reflexivity.
  - rewrite El, Hm, Hs, Nat.eqb_refl. apply andb_true_intro. split; [destruct (_ && negb _); reflexivity|].
    destruct (is_ack _ && _); [|reflexivity].
    apply (c09_start_revs n s1 fs _ _ _ eq_refl); [exact (st_nodup _ H')|exact Hk'].
Qed.

Lemma read_main_signals : forall s order fs, e_signals (snd (read_main s order fs)) = [].
Proof.
  intros. unfold read_main. destruct (negb (avail s)); [reflexivity|].
  destruct (negb (read_order_ok s order fs)); [reflexivity|]. cbv zeta.
  destruct (filter _ order) as [|e0 es]; [reflexivity|].
  destruct (handle_error_nolock s (e0 :: es)) as [s2 sup]. reflexivity.
Qed.

Lemma do_read_signals : forall s off len order fs, e_signals (snd (do_read s off len order fs)) = [].
Proof.
  intros. destruct (do_read_cases s off len order fs) as [E|E]; rewrite E; [reflexivity|apply read_main_signals].
Qed.

Lemma other_signals : forall s e,
  match e with Register _ _ _ _ _ _ | Start _ _ => False | _ => True end -> e_signals (snd (step s e)) = [].
Proof.
  intros s e He. destruct e; try contradiction; cbn [step];
    try match goal with |- context [let '(s1, r) := ?X in _] => destruct X; reflexivity end.
  - reflexivity.
  - destruct m; reflexivity.
  - apply do_read_signals.
Qed.

Lemma c09_removed_unregistered : forall s e, struct_ok s ->
  match e with
  | Remove a _ | MonFire a _ | MonFail a _ =>
      snd (fst (step s e)) = ROk -> In a (keys (replicas s)) -> ~ In a (keys (registered (fst (fst (step s e)))))
  | _ => True
  end.
Proof.
  intros s e H. pose proof (reported_removed s e H) as G.
  destruct e; try exact I; intros Hok Ha; (destruct G as [E|(t & Ht & K & _ & E)]; rewrite E in *; [discriminate|]);
    (apply remove_replica_unregisters; [exact Ht|apply has_replica_listed; change (In a (keys (replicas t))); rewrite K; exact Ha]).
Qed.

Lemma c09_step_model : forall rf0 n g s e prev,
  struct_ok s -> rf s = rf0 -> keys_lt n s -> reg_inv g s ->
  ev_wf e = true -> ev_addrs_lt n e = true -> reg_consistent g e = true -> obs_of n s prev ->
  c09_step rf0 g prev e
           (obs_after n s e) = true.
Proof.
  intros rf0 n g s e prev H Hrf Hk Hi Hwf Hlt Hc [r0 ef0 r0']. unfold obs_after.
  assert (Other : (match e with Register _ _ _ _ _ _ | Start _ _ => False | _ => True end) ->
            Nat.eqb (length (starts_of (obs_after n s e))) 0 = true).
  { intros He. unfold obs_after. rewrite no_start_signals; [reflexivity|]. rewrite (other_signals s e He). intros p []. }
  assert (Gone : forall a, (match e with Remove a' _ | MonFire a' _ | MonFail a' _ => a' = a | _ => False end) ->
            (if is_ack (obs_after n s e)
                && mem a (addrs_of (o_replicas (with_res1 (observe n s r0 ef0) r0')))
             then negb (mem a (o_registered (obs_after n s e)))
             else true) = true).
  { intros a He. unfold obs_after. pose proof (c09_removed_unregistered s e H) as G.
    match goal with |- (if ?c then _ else _) = true => destruct c eqn:E; [|reflexivity] end.
    apply andb_prop in E. destruct E as [E1 E2]. rewrite is_ack_observe in E1. apply res_class_ok in E1.
    cbn [o_replicas observe with_res1] in E2. apply mem_in in E2.
    apply negb_true_iff. apply mem_false. cbn [o_registered observe]. intro Hin. apply (proj1 (in_sort _ _)) in Hin.
    destruct e; try contradiction; subst; exact (G E1 E2 Hin). }
  destruct e; try (apply Other; exact I).
  - apply c09_register; assumption.
  - apply c09_start; assumption.
  - apply andb_true_intro. split; [apply Other; exact I|apply Gone; reflexivity].
  - apply andb_true_intro. split; [apply Other; exact I|apply Gone; reflexivity].
  - apply andb_true_intro. split; [apply Other; exact I|apply Gone; reflexivity].
Qed.

(** ** why the two conditions of [fixed_assign] are there (the oracle is false on these model traces), and that they can be met *)

(** replica 0 registers, registers again as rebuilding, then a second replica completes the majority:
    the model (as the controller) keeps 0 as leader and signals it, the oracle's memory says 0 is
    rebuilding *)
Definition c09_witness_flag : list event :=
  [Register 0%nat 7%nat 5 false None []; Register 0%nat 7%nat 5 true None []; Register 1%nat 8%nat 4 false None []].

Example c09_false_when_assignment_changes :
  walk_g (fun g => lift (c09_step 3 g) nopair) 0 [] (obs0 3 3 []) (map One c09_witness_flag)
         (trace 3 (init 3 []) (map One c09_witness_flag)) = Some 2%nat
  /\ map o_res (trace 3 (init 3 []) (map One c09_witness_flag)) = [ROk; ROk; ROk]
  /\ map o_signals (trace 3 (init 3 []) (map One c09_witness_flag)) = [[]; []; [(0%nat, true)]]
  /\ fixed_assign [] c09_witness_flag = false.
Proof. vm_compute. repeat split; reflexivity. Qed.

(** negative revision counters: the first registration is answered RInvalid (no possible pick) but
    leaves its replica as leader; its record is then deleted by a registration with the same UUID and
    it is elected with the default revision 0 against replicas whose counters are above its own *)
Definition c09_witness_neg : list event :=
  [Register 0%nat 7%nat (-5) false None []; Register 1%nat 7%nat (-3) false None []; Register 2%nat 8%nat (-4) false None []].

Example c09_false_with_negative_revisions :
  walk_g (fun g => lift (c09_step 3 g) nopair) 0 [] (obs0 3 3 []) (map One c09_witness_neg)
         (trace 3 (init 3 []) (map One c09_witness_neg)) = Some 2%nat
  /\ map o_res (trace 3 (init 3 []) (map One c09_witness_neg)) = [RInvalid; ROk; ROk]
  /\ fixed_assign [] c09_witness_neg = false.
Proof. vm_compute. repeat split; reflexivity. Qed.

(** the conditions are satisfiable on a history that sends a start signal *)
Example c09_conditions_non_vacuous :
  fixed_assign [] c05_witness = true /\ forallb (ev_addrs_lt 1) c05_witness = true /\ forallb ev_wf c05_witness = true
  /\ map o_signals (trace 1 (init 1 []) (map One c05_witness)) = [[(0%nat, true)]; []; []].
Proof. vm_compute. repeat split; reflexivity. Qed.

(** the remove clause: an attached replica loses its registration when it is removed; removing an
    address that is not attached is acknowledged and keeps the registration (the guard of the clause) *)
Definition c09_remove_attached : list event :=
  [Register 0%nat 1%nat 1 false None []; Start [0%nat] []; Remove 0%nat []].

Definition c09_remove_unattached : list event :=
  [Register 0%nat 1%nat 1 false None []; Remove 0%nat []].

Example c09_remove_clause_reached :
  walk_g (fun g => lift (c09_step 1 g) nopair) 0 [] (obs0 1 1 []) (map One c09_remove_attached)
         (trace 1 (init 1 []) (map One c09_remove_attached)) = None
  /\ map o_registered (trace 1 (init 1 []) (map One c09_remove_attached)) = [[0%nat]; [0%nat]; []]
  /\ walk_g (fun g => lift (c09_step 1 g) nopair) 0 [] (obs0 1 1 []) (map One c09_remove_unattached)
         (trace 1 (init 1 []) (map One c09_remove_unattached)) = None
  /\ map o_registered (trace 1 (init 1 []) (map One c09_remove_unattached)) = [[0%nat]; [0%nat]]
  /\ map o_res (trace 1 (init 1 []) (map One c09_remove_unattached)) = [ROk; ROk].
Proof. vm_compute. repeat split; reflexivity. Qed.

(** the function [Steps.detach] under a second constant: from here on the short name [detach] is this one, and the
    lemmas of Steps.v and Props.v speak of the other *)
Definition detach (s : cst) (fs : faults) (errs : list addr) : cst :=
  remove_all (fst (handle_error_nolock s errs)) fs errs.

Lemma detach_nil : forall s fs, detach s fs [] = s.
Proof. reflexivity. Qed.
