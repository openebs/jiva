(** * Ctl: walking a trace of the model with an oracle.  Every walker of Oracles.v accepts the model's trace
    as soon as each request (or pair: [step] on [a] then on [b], one observation after both) keeps an
    invariant of (oracle memory, state, remaining history) and satisfies the oracle's rule *)
From Coq Require Import List ZArith Bool Arith Lia.
From Jiva Require Import Ctl.Model Ctl.Corr Ctl.Oracles Ctl.Proofs Ctl.Props Ctl.OracleProofs Ctl.OracleProofs2.
Import ListNotations.
Open Scope Z_scope.

Definition xev_wf (x : xevent) : bool :=
  match x with One e => ev_wf e | Two a b => ev_wf a && ev_wf b end.
Definition xev_addrs_lt (n : nat) (x : xevent) : bool :=
  match x with One e => ev_addrs_lt n e | Two a b => ev_addrs_lt n a && ev_addrs_lt n b end.
Definition xflat (x : xevent) : list event :=
  match x with One e => [e] | Two a b => [a; b] end.
(** the requests of a history in the order in which the controller lock serialises them *)
Definition flatten (xs : list xevent) : list event := flat_map xflat xs.

Lemma flatten_map_one : forall es, flatten (map One es) = es.
Proof. induction es as [|e t IH]; [reflexivity|]. cbn [map]. change (e :: flatten (map One t) = e :: t). rewrite IH. reflexivity. Qed.

Lemma forallb_flatten : forall (p : event -> bool) xs,
  forallb (fun x => match x with One e => p e | Two a b => p a && p b end) xs = true ->
  forallb p (flatten xs) = true.
Proof.
  intros p. induction xs as [|x t IH]; intros H; [reflexivity|].
  cbn [forallb] in H. apply andb_prop in H. destruct H as [H1 H2]. specialize (IH H2).
  destruct x as [e|a b].
  - change (p e && forallb p (flatten t) = true). rewrite H1, IH. reflexivity.
  - change (p a && (p b && forallb p (flatten t)) = true). apply andb_prop in H1. destruct H1 as [Ha Hb]. rewrite Ha, Hb, IH. reflexivity.
Qed.

Lemma forallb_map_one : forall (p : event -> bool) es,
  forallb (fun x => match x with One e => p e | Two a b => p a && p b end) (map One es) = forallb p es.
Proof. intros p. induction es as [|e t IH]; [reflexivity|]. cbn [map forallb]. rewrite IH. reflexivity. Qed.

Lemma hist_ok_x_forallb : forall (p : event -> bool) xs s,
  forallb (fun x => match x with One e => p e | Two a b => p a && p b end) xs = true ->
  hist_ok (fun _ e => p e = true) s (flatten xs).
Proof. intros p xs s H. apply hist_ok_forallb. apply forallb_flatten. exact H. Qed.

Definition pair_state (s : cst) (a b : event) : cst := fst (fst (step (fst (fst (step s a))) b)).

Definition pair_obs (n : nat) (s : cst) (a b : event) : obs :=
  let s1 := fst (fst (step s a)) in
  with_res1
    (observe n (fst (fst (step s1 b))) (snd (fst (step s1 b)))
       (mkeff (e_signals (snd (step s a)) ++ e_signals (snd (step s1 b))) (e_served (snd (step s1 b)))))
    (Some (res_class (snd (fst (step s a))))).

Definition after (s : cst) (x : xevent) : cst :=
  match x with One e => fst (fst (step s e)) | Two a b => pair_state s a b end.

Definition xobs (n : nat) (s : cst) (x : xevent) : obs :=
  match x with
  | One e => obs_after n s e
  | Two a b => pair_obs n s a b
  end.

Lemma trace_cons : forall n s x t, trace n s (x :: t) = xobs n s x :: trace n (after s x) t.
Proof.
  intros n s [e|a b] t; cbn [trace xstep xobs after]; unfold pair_obs, pair_state, obs_after.
  - destruct (step s e) as [[s1 r] ef]. reflexivity.
  - destruct (step s a) as [[s1 r1] f1]. cbn [fst snd]. destruct (step s1 b) as [[s2 r2] f2]. reflexivity.
Qed.

Lemma xobs_obs_of : forall n s x, obs_of n (after s x) (xobs n s x).
Proof. intros n s [e|a b]; [exact (obs_of_intro _ _ _ _ None)|apply obs_of_intro]. Qed.

Lemma obs0_obs_of : forall rf0 n w0, obs_of n (init rf0 w0) (obs0 rf0 n w0).
Proof. intros. exact (obs_of_intro _ _ ROk noeff None). Qed.

(** [W] is any function that walks like the walkers of Oracles.v: it stops on an empty history and
    otherwise checks [f] with its memory [m], which it updates by [nx].  [Inv] may speak of the
    remaining history, so that conditions on histories ([forallb xev_wf], [hist_ok], [xqs_sound], ...)
    are used as they are stated. *)
Theorem walker_sound : forall {M : Type} (W : M -> nat -> obs -> list xevent -> list obs -> option nat)
    (f : M -> obs -> xevent -> obs -> bool) (nx : M -> xevent -> M)
    (Inv : M -> cst -> list xevent -> Prop) n,
  (forall m i prev os, W m i prev [] os = None) ->
  (forall m i prev x t o os,
     W m i prev (x :: t) (o :: os) = if f m prev x o then W (nx m x) (S i) o t os else Some i) ->
  (forall m s x t prev, Inv m s (x :: t) -> obs_of n s prev ->
     f m prev x (xobs n s x) = true /\ Inv (nx m x) (after s x) t) ->
  forall xs m s prev i, Inv m s xs -> obs_of n s prev -> W m i prev xs (trace n s xs) = None.
Proof.
  intros M W f nx Inv n Wnil Wcons H. induction xs as [|x t IH]; intros m s prev i Hi Hp; [apply Wnil|].
  rewrite trace_cons, Wcons. destruct (H m s x t prev Hi Hp) as [Hf Hn]. rewrite Hf.
  apply IH; [exact Hn|apply xobs_obs_of].
Qed.

Corollary walk_sound : forall (f : obs -> xevent -> obs -> bool) (Inv : cst -> list xevent -> Prop) n,
  (forall s x t prev, Inv s (x :: t) -> obs_of n s prev -> f prev x (xobs n s x) = true /\ Inv (after s x) t) ->
  forall xs s prev i, Inv s xs -> obs_of n s prev -> walk f i prev xs (trace n s xs) = None.
Proof.
  intros f Inv n H xs.
  apply (walker_sound (fun _ : unit => walk f) (fun _ => f) (fun m _ => m) (fun _ => Inv) n
           (fun _ _ _ _ => eq_refl) (fun _ _ _ _ _ _ _ => eq_refl) (fun _ => H) xs tt).
Qed.

Corollary walk_g_sound : forall (f : regs -> obs -> xevent -> obs -> bool) (Inv : regs -> cst -> list xevent -> Prop) n,
  (forall g s x t prev, Inv g s (x :: t) -> obs_of n s prev ->
     f g prev x (xobs n s x) = true /\ Inv (xregs_upd g x) (after s x) t) ->
  forall xs g s prev i, Inv g s xs -> obs_of n s prev -> walk_g f i g prev xs (trace n s xs) = None.
Proof. intros f Inv n. apply (walker_sound (fun g i => walk_g f i g) f xregs_upd Inv n); reflexivity. Qed.

Corollary walk_u_sound : forall (f : uids -> obs -> xevent -> obs -> bool) (Inv : uids -> cst -> list xevent -> Prop) n,
  (forall u s x t prev, Inv u s (x :: t) -> obs_of n s prev ->
     f u prev x (xobs n s x) = true /\ Inv (xuids_upd u x) (after s x) t) ->
  forall xs u s prev i, Inv u s xs -> obs_of n s prev -> walk_u f i u prev xs (trace n s xs) = None.
Proof. intros f Inv n. apply (walker_sound (fun u i => walk_u f i u) f xuids_upd Inv n); reflexivity. Qed.

(** [walk_q] accepts whatever is left of the history when the quiescence flags run out *)
Corollary walk_q_sound : forall (f : bool -> obs -> xevent -> obs -> bool)
    (Inv : list bool -> cst -> list xevent -> Prop) n,
  (forall q qs s x t prev, Inv (q :: qs) s (x :: t) -> obs_of n s prev ->
     f q prev x (xobs n s x) = true /\ Inv qs (after s x) t) ->
  forall xs qs s prev i, Inv qs s xs -> obs_of n s prev -> walk_q f i prev xs (trace n s xs) qs = None.
Proof.
  intros f Inv n H xs qs s prev i Hi.
  apply (walker_sound (fun qs i prev xs os => walk_q f i prev xs os qs)
           (fun qs prev x o => match qs with q :: _ => f q prev x o | [] => true end) (fun qs _ => tl qs)
           (fun qs s xs => qs = [] \/ Inv qs s xs) n).
  - reflexivity.
  - intros [|q qs'] j p x t o os; [destruct t, os; reflexivity|reflexivity].
  - intros [|q qs'] s' x t p Hi' Hp; [split; [reflexivity|left; reflexivity]|].
    destruct Hi' as [E|Hi']; [discriminate|].
    destruct (H q qs' s' x t p Hi' Hp) as [Hf Hn]. split; [exact Hf|right; exact Hn].
  - right. exact Hi.
Qed.

Lemma walk_q_model_x : forall (f : bool -> obs -> event -> obs -> bool) (pf : bool -> obs -> event -> event -> obs -> bool)
  (Inv : cst -> Prop) (P : cst -> event -> Prop) n,
  (forall s e, Inv s -> P s e -> Inv (fst (fst (step s e)))) ->
  (forall q s e r0 ef0 r0', Inv s -> P s e ->
     f q (with_res1 (observe n s r0 ef0) r0') e
       (observe n (fst (fst (step s e))) (snd (fst (step s e))) (snd (step s e))) = true) ->
  (forall q s a b r0 ef0 r0', Inv s -> P s a -> P (fst (fst (step s a))) b ->
     pf q (with_res1 (observe n s r0 ef0) r0') a b (pair_obs n s a b) = true) ->
  forall xs qs s r0 ef0 r0' i, Inv s -> hist_ok P s (flatten xs) ->
  walk_q (fun q => lift (f q) (pf q)) i (with_res1 (observe n s r0 ef0) r0') xs (trace n s xs) qs = None.
Proof.
  intros f pf Inv P n Hpres Hstep Hpair xs qs s r0 ef0 r0' i Hinv Hh.
  apply (walk_q_sound (fun q => lift (f q) (pf q)) (fun _ s xs => Inv s /\ hist_ok P s (flatten xs)) n);
    [|split; assumption|apply obs_of_intro].
  intros q _ s' [e|a b] t prev [Hi Hp] [p0 pf0 p0']; cbn [lift xobs after].
  - destruct Hp as [Pe Ht]. split; [apply Hstep; assumption|]. split; [apply Hpres; assumption|exact Ht].
  - destruct Hp as [Pa [Pb Ht]]. split; [apply Hpair; assumption|].
    split; [apply Hpres; [apply Hpres; assumption|exact Pb]|exact Ht].
Qed.

Lemma after_inv : forall (I : cst -> Prop) (p : event -> bool),
  (forall s e, I s -> p e = true -> I (fst (fst (step s e)))) ->
  forall s x, I s -> match x with One e => p e | Two a b => p a && p b end = true -> I (after s x).
Proof.
  intros I p H s [e|a b] Hi Hp; cbn [after]; [apply H; assumption|].
  apply andb_prop in Hp. destruct Hp as [Ha Hb]. apply H; [apply H; assumption|exact Hb].
Qed.

Definition binv (rf0 : nat) (s : cst) : Prop := status_ok s /\ struct_ok s /\ rf s = rf0.

Lemma binv_init : forall rf0 w0, (1 <= rf0)%nat -> binv rf0 (init rf0 w0).
Proof. intros rf0 w0 H. split; [apply status_init|]. split; [apply struct_init; exact H|reflexivity]. Qed.

Lemma binv_step : forall rf0 s e, binv rf0 s -> ev_wf e = true -> binv rf0 (fst (fst (step s e))).
Proof.
  intros rf0 s e [Hs [Ht Hr]] Hw. split; [apply status_step; exact Hs|].
  split; [apply struct_step; assumption|rewrite rf_step; exact Hr].
Qed.

Lemma binv_after : forall rf0 s x, binv rf0 s -> xev_wf x = true -> binv rf0 (after s x).
Proof. intros rf0. apply (after_inv (binv rf0) ev_wf). apply binv_step. Qed.

Lemma keys_lt_after : forall n s x, keys_lt n s -> xev_addrs_lt n x = true -> keys_lt n (after s x).
Proof. intros n. apply (after_inv (keys_lt n) (ev_addrs_lt n)). apply keys_lt_step. Qed.

Definition binv_wf (rf0 : nat) (s : cst) (xs : list xevent) : Prop := binv rf0 s /\ forallb xev_wf xs = true.

Lemma binv_wf_init : forall rf0 w0 xs, (1 <= rf0)%nat -> forallb xev_wf xs = true -> binv_wf rf0 (init rf0 w0) xs.
Proof. intros rf0 w0 xs Hrf Hwf. split; [apply binv_init; exact Hrf|exact Hwf]. Qed.

Lemma binv_wf_cons : forall rf0 s x t, binv_wf rf0 s (x :: t) -> xev_wf x = true /\ binv_wf rf0 (after s x) t.
Proof.
  intros rf0 s x t [Hb Hw]. apply andb_prop in Hw. destruct Hw as [Hw Hwt].
  split; [exact Hw|]. split; [apply binv_after; assumption|exact Hwt].
Qed.

Definition binv_lt (rf0 n : nat) (s : cst) (xs : list xevent) : Prop :=
  binv rf0 s /\ keys_lt n s /\ forallb xev_wf xs = true /\ forallb (xev_addrs_lt n) xs = true.

Lemma binv_lt_init : forall rf0 n w0 xs, (1 <= rf0)%nat -> forallb xev_wf xs = true ->
  forallb (xev_addrs_lt n) xs = true -> binv_lt rf0 n (init rf0 w0) xs.
Proof. intros rf0 n w0 xs Hrf Hwf Hlt. split; [apply binv_init; exact Hrf|]. split; [apply keys_lt_init|split; assumption]. Qed.

Lemma binv_lt_cons : forall rf0 n s x t, binv_lt rf0 n s (x :: t) ->
  xev_wf x = true /\ xev_addrs_lt n x = true /\ binv_lt rf0 n (after s x) t.
Proof.
  intros rf0 n s x t [Hb [Hk [Hw Hl]]]. apply andb_prop in Hw. destruct Hw as [Hw Hwt].
  apply andb_prop in Hl. destruct Hl as [Hl Hlt]. split; [exact Hw|]. split; [exact Hl|].
  split; [apply binv_after; assumption|]. split; [apply keys_lt_after; assumption|split; assumption].
Qed.

Lemma walk_weaken : forall (f g : obs -> xevent -> obs -> bool), (forall prev x cur, f prev x cur = true -> g prev x cur = true) ->
  forall xs os i prev, walk f i prev xs os = None -> walk g i prev xs os = None.
Proof.
  intros f g H. induction xs as [|x t IH]; intros [|o os] i prev Hw; try reflexivity. cbn [walk] in *.
  destruct (f prev x o) eqn:E; [|discriminate]. rewrite (H _ _ _ E). apply IH. exact Hw.
Qed.
