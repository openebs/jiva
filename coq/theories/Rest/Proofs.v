(** Rest.Proofs — soundness of the lock-discipline checker [check] w.r.t. the semantics [exec]
    (every execution, i.e. every choice of branches and iteration counts), and of the oracle-driven
    interpreter [run] w.r.t. [exec]; examples at the end. *)
From Coq Require Import List Bool PeanoNat String.
From Jiva Require Import Rest.Lang.
Import ListNotations.

(** ** The equality tests are sound: [eqb x y = true] gives [x = y] *)

Lemma nat_eqb_true : forall x y : nat, Nat.eqb x y = true -> x = y.
Proof. intros x y. apply Nat.eqb_eq. Qed.

Lemma stmt_eqb_true : forall a b, stmt_eqb a b = true -> a = b.
Proof.
  induction a; destruct b; intros Heq; try discriminate Heq; cbn [stmt_eqb] in Heq.
  (* equal constructors; [Seq] and [If] test a conjunction *)
  all: try apply andb_prop in Heq as [Heq1 Heq2].
  all: f_equal; auto using nat_eqb_true.
  (* left: Call *)
  apply String.eqb_eq; assumption.
Qed.

Lemma list_eqb_true : forall A (eqb : A -> A -> bool),
  (forall x y, eqb x y = true -> x = y) ->
  forall l1 l2, list_eqb eqb l1 l2 = true -> l1 = l2.
Proof.
  intros A eqb Heqb. induction l1 as [|x t IH]; destruct l2 as [|y t2]; intros Heq; try discriminate Heq.
  - reflexivity.
  - cbn [list_eqb] in Heq. apply andb_prop in Heq as [Heq1 Heq2]. f_equal; auto.
Qed.

Lemma fault_eqb_true : forall f g, fault_eqb f g = true -> f = g.
Proof.
  destruct f; destruct g; intros Heq; try discriminate Heq; cbn [fault_eqb] in Heq.
  all: f_equal; auto using nat_eqb_true.
Qed.

Lemma outcome_eqb_true : forall o p, outcome_eqb o p = true -> o = p.
Proof.
  destruct o; destruct p; intros Heq; try discriminate Heq; cbn [outcome_eqb] in Heq.
  all: f_equal; auto using fault_eqb_true.
Qed.

Lemma pair_eqb_true : forall A B (eqa : A -> A -> bool) (eqb : B -> B -> bool),
  (forall x y, eqa x y = true -> x = y) -> (forall x y, eqb x y = true -> x = y) ->
  forall p q : A * B, eqa (fst p) (fst q) && eqb (snd p) (snd q) = true -> p = q.
Proof.
  intros A B eqa eqb Ha Hb [a b] [a' b'] Heq. cbn [fst snd] in Heq.
  apply andb_prop in Heq as [Heq1 Heq2]. f_equal; auto.
Qed.

Lemma lk_eqb_true : forall x y, lk_eqb x y = true -> x = y.
Proof. exact (pair_eqb_true _ _ _ _ nat_eqb_true Bool.eqb_prop). Qed.

Lemma state_eqb_true : forall x y, state_eqb x y = true -> x = y.
Proof. exact (pair_eqb_true _ _ _ _ (list_eqb_true _ _ lk_eqb_true) (list_eqb_true _ _ stmt_eqb_true)). Qed.

Lemma res_eqb_true : forall x y, res_eqb x y = true -> x = y.
Proof. exact (pair_eqb_true _ _ _ _ outcome_eqb_true state_eqb_true). Qed.

(** ** The checker's combinators *)
Lemma mem_true : forall A (eqb : A -> A -> bool), (forall x y, eqb x y = true -> x = y) ->
  forall x l, mem eqb x l = true -> In x l.
Proof.
  intros A eqb Heqb x. induction l as [|y t IH]; cbn; intros Hm; [discriminate|].
  apply orb_prop in Hm as [Hm | Hm]; [left; symmetry; auto | right; auto].
Qed.

Lemma union_l : forall A (eqb : A -> A -> bool) l2 l1 x, In x l1 -> In x (union eqb l1 l2).
Proof.
  intros A eqb. induction l2 as [|y t IH]; cbn; intros l1 x Hin; [assumption|].
  destruct (mem eqb y l1); apply IH; [assumption | apply in_or_app; left; assumption].
Qed.

Lemma union_r : forall A (eqb : A -> A -> bool), (forall x y, eqb x y = true -> x = y) ->
  forall l2 l1 x, In x l2 -> In x (union eqb l1 l2).
Proof.
  intros A eqb Heqb. induction l2 as [|y t IH]; cbn; intros l1 x Hin; [contradiction|].
  destruct Hin as [Hxy | Hin].
  - subst y. destruct (mem eqb x l1) eqn:Hm.
    + apply union_l. apply (mem_true _ _ Heqb). assumption.
    + apply union_l. apply in_or_app; right; left; reflexivity.
  - destruct (mem eqb y l1); apply IH; assumption.
Qed.

Lemma next_heads_in : forall l o s1, In (o, s1) l -> o = ONorm \/ o = OCont -> In s1 (next_heads l).
Proof.
  intros l o s1 Hin Ho. unfold next_heads. apply in_flat_map. exists (o, s1); split; [assumption|].
  destruct Ho as [Ho | Ho]; subst o; cbn; left; reflexivity.
Qed.

Lemma loop_exits_brk : forall l s1, In (OBrk, s1) l -> In (ONorm, s1) (loop_exits l).
Proof.
  intros l s1 Hin. unfold loop_exits. apply in_flat_map. exists (OBrk, s1); split; [assumption|].
  cbn; left; reflexivity.
Qed.

(* the side condition of [E_Loop_abrupt], with the fault case excluded *)
Lemma loop_exits_abrupt : forall l o s1, In (o, s1) l ->
  o = ORet \/ o = OPan \/ (exists f, o = OFault f) -> nofault o -> In (o, s1) (loop_exits l).
Proof.
  intros l o s1 Hin Ho Hnf. unfold loop_exits. apply in_flat_map. exists (o, s1); split; [assumption|].
  destruct Ho as [Ho | [Ho | [f Ho]]]; subst o; [left; reflexivity | left; reflexivity | contradiction].
Qed.

Lemma close_spec : forall runb all W R, close runb W all = Good R ->
  forall w, In w W ->
  exists l, runb w = Good l /\ (forall s1, In s1 (next_heads l) -> In s1 all) /\
            In (ONorm, w) R /\ incl (loop_exits l) R.
Proof.
  intros runb all. induction W as [|w0 t IH]; cbn [close]; intros R Hc w Hin; [contradiction|].
  destruct (runb w0) as [r|l] eqn:Hr; [discriminate|].
  destruct (forallb (fun s1 => mem state_eqb s1 all) (next_heads l)) eqn:Hall; [|discriminate].
  destruct (close runb t all) as [r|l'] eqn:Ht; [discriminate|].
  injection Hc as HR; subst R.
  destruct Hin as [Heq | Hin].
  - subst w0. exists l. split; [assumption|]. split; [|split].
    + intros s1 Hs1. rewrite forallb_forall in Hall. apply (mem_true _ _ state_eqb_true). auto.
    + apply union_l. left; reflexivity.
    + intros x Hx. apply union_l. right; assumption.
  - destruct (IH l' eq_refl w Hin) as [lw [Hrw [Hnext [Hw Hex]]]].
    exists lw. split; [assumption|]. split; [assumption|]. split.
    + apply (union_r _ _ res_eqb_true); assumption.
    + intros x Hx. apply (union_r _ _ res_eqb_true). apply Hex; assumption.
Qed.

(** ** Soundness of [chk]

    One notion carries it: a verdict covers an end [x] of an execution if, when it is good, it lists [x] and [x] is no
    fault.  Each combinator of the checker keeps it ([covers_join], [covers_bindv], [close_covers], [unwind_covers]), and
    [chk_covers] is an induction on the fuel, the recursion of [chk]. *)
Definition covers (v : verdict) (x : res) : Prop :=
  forall R, v = Good R -> In x R /\ nofault (fst x).

Lemma covers_bad : forall r x, covers (Bad r) x.
Proof. intros r x R Hc. discriminate Hc. Qed.

Lemma covers_one : forall o s, nofault o -> covers (Good [(o, s)]) (o, s).
Proof. intros o s Hnf R Hc. injection Hc as <-. split; [left; reflexivity | exact Hnf]. Qed.

(* the verdict of [If], and of [bindl] on a cons: Lang.v writes both matches out, and they are this by conversion *)
Definition join (v1 v2 : verdict) : verdict :=
  match v1 with
  | Bad r => Bad r
  | Good l1 => match v2 with Bad r => Bad r | Good l2 => Good (union res_eqb l1 l2) end
  end.

Lemma covers_join : forall v1 v2 x, covers v1 x \/ covers v2 x -> covers (join v1 v2) x.
Proof.
  intros [r|l1] [r'|l2] x Hx R Hc; try discriminate Hc. injection Hc as <-.
  destruct Hx as [Hx|Hx]; destruct (Hx _ eq_refl) as [Hin Hnf]; (split; [|exact Hnf]).
  - apply union_l; exact Hin.
  - apply (union_r _ _ res_eqb_true); exact Hin.
Qed.

(* [bindl] joins the verdicts of the continuations *)
Lemma covers_bindv : forall v f o s1 y, covers v (o, s1) -> (nofault o -> covers (f o s1) y) -> covers (bindv v f) y.
Proof.
  intros [r|l] f o s1 y Hv Hf; [apply covers_bad|]. destruct (Hv l eq_refl) as [Hin Hno]. specialize (Hf Hno).
  cbn [bindv]. induction l as [|[o' s'] t IH]; [contradiction|].
  change (bindl ((o', s') :: t) f) with (join (f o' s') (bindl t f)). apply covers_join.
  destruct Hin as [Heq|Hin]; [injection Heq as -> ->; left; exact Hf | right; apply IH; [|exact Hin]].
  intros R HR. injection HR as <-. split; assumption.
Qed.

Lemma close_covers : forall runb b, (forall s0 o s1, exec b s0 o s1 -> covers (runb s0) (o, s1)) ->
  forall s0 o s1, exec (Loop b) s0 o s1 -> forall W, In s0 W -> covers (close runb W W) (o, s1).
Proof.
  intros runb b Hb s0 o s1 He. remember (Loop b) as lp eqn:Hlp. revert Hlp.
  induction He; intro Hlp; try discriminate Hlp; injection Hlp as ->; intros W HinW R Hc;
    destruct (close_spec _ _ _ _ Hc _ HinW) as [l [Hrun [Hnext [Hw Hex]]]].
  - (* exit *) split; [exact Hw | exact I].
  - (* iterate *) destruct (Hb _ _ _ He1 l Hrun) as [Hin1 _].
    apply (IHHe2 eq_refl W); [|exact Hc]. apply Hnext. apply (next_heads_in l o1 s1); assumption.
  - (* break *) destruct (Hb _ _ _ He l Hrun) as [Hin1 _]. split; [|exact I]. apply Hex, loop_exits_brk, Hin1.
  - (* return, panic *) destruct (Hb _ _ _ He l Hrun) as [Hin1 Hnf]. split; [|exact Hnf].
    apply Hex. apply loop_exits_abrupt; assumption.
Qed.

Lemma chk_loop_covers : forall runb b, (forall s0 o s1, exec b s0 o s1 -> covers (runb s0) (o, s1)) ->
  forall s0 o s1, exec (Loop b) s0 o s1 -> covers (chk_loop runb s0) (o, s1).
Proof.
  intros runb b Hb s0 o s1 He R Hc. unfold chk_loop in Hc.
  destruct (grow _ _ _) as [r|W]; [discriminate Hc|].
  destruct (mem state_eqb s0 W) eqn:Hm; [|discriminate Hc].
  exact (close_covers _ _ Hb _ _ _ He W (mem_true _ _ state_eqb_true _ _ Hm) R Hc).
Qed.

Lemma unwind_covers : forall runsc,
  (forall d H o H1 D1, exec (Scope d) (H, []) o (H1, D1) -> covers (runsc d H) (o, (H1, D1))) ->
  forall ds H o o' H', unwind ds H o o' H' -> covers (chk_unwind runsc ds H o) (o', (H', [])).
Proof.
  intros runsc Hsc ds H o o' H' Hu.
  induction Hu as [ds H f | H o Hnf | d ds H o o1 H1 D1 o2 H2 Hnf Hd Hu IH].
  - destruct ds; apply covers_bad.
  - destruct o; try contradiction; apply covers_one; exact I.
  - assert (E : chk_unwind runsc (d :: ds) H o =
                bindv (runsc d H) (fun o1 s1 => chk_unwind runsc ds (fst s1) (after o o1)))
      by (destruct o; try contradiction; reflexivity).
    rewrite E. exact (covers_bindv _ _ _ _ _ (Hsc _ _ _ _ _ Hd) (fun _ => IH)).
Qed.

Theorem chk_covers : forall n s s0 o s1, exec s s0 o s1 -> covers (chk n s s0) (o, s1).
Proof.
  induction n as [|n IH]; intros s s0 o s1 He; [apply covers_bad|].
  pose proof (fun b => chk_loop_covers _ b (IH b)) as HL.
  (* By cases on the last rule; the parts of a statement are judged with fuel [n], for which [IH] speaks of all their
     executions.  [destruct], not [inversion]: every index of [He] is a variable, and inverting a relation of 29 rules
     once per statement is slow to check. *)
  destruct He as [[H D]|f [H D]|[H D]|[H D]|[H D]|[H D]|[H D]
                 |m H D Hh|m H D k Hh|m H D Hh|m H D k Hh|m H D Hh|m H D Hh|m H D Hh|m H D Hh|c D|c H D Hne
                 |d H D|m H D|m H D
                 |a b [H D] s1 o s2 Ha Hb|a b [H D] o s1 Ha Hne|a b [H D] o s1 Ha|a b [H D] o s1 Hb
                 |b [H D]|b [H D] o1 s1 o s2 Hb Ho1 Hl|b [H D] s1 Hb|b [H D] o s1 Hb Ho
                 |b H D o H1 D1 o' H2 Hb Hu]; cbn [chk].
  - (* Skip *) apply covers_one; exact I.
  - (* Call *) apply covers_one; exact I.
  - (* Return *) apply covers_one; exact I.
  - (* Break *) apply covers_one; exact I.
  - (* Continue *) apply covers_one; exact I.
  - (* Panic *) apply covers_one; exact I.
  - (* Unknown *) apply covers_bad.
  - (* Lock *) rewrite Hh. apply covers_one; exact I.
  - (* Lock held *) rewrite Hh. apply covers_bad.
  - (* RLock *) rewrite Hh. apply covers_one; exact I.
  - (* RLock held *) rewrite Hh. apply covers_bad.
  - (* Unlock *) rewrite Hh. apply covers_one; exact I.
  - (* Unlock unheld *) destruct (holds H m) as [[|]|]; [destruct (Hh eq_refl) | apply covers_bad | apply covers_bad].
  - (* RUnlock *) rewrite Hh. apply covers_one; exact I.
  - (* RUnlock unheld *) destruct (holds H m) as [[|]|]; [apply covers_bad | destruct (Hh eq_refl) | apply covers_bad].
  - (* Send *) apply covers_one; exact I.
  - (* Send held *) destruct H; [destruct (Hne eq_refl) | apply covers_bad].
  - (* Defer *) apply covers_one; exact I.
  - (* DeferUnlock *) apply covers_one; exact I.
  - (* DeferRUnlock *) apply covers_one; exact I.
  - (* Seq, first part normal *) exact (covers_bindv _ _ _ _ _ (IH _ _ _ _ Ha) (fun _ => IH _ _ _ _ Hb)).
  - (* Seq, first part abrupt *) apply (covers_bindv _ _ _ _ _ (IH _ _ _ _ Ha)). intro Hnf.
    destruct o; try (apply covers_one; exact I); [destruct (Hne eq_refl) | destruct Hnf].
  - (* If left *) apply (covers_join (chk n a (H, D))). left. exact (IH _ _ _ _ Ha).
  - (* If right *) apply (covers_join (chk n a (H, D))). right. exact (IH _ _ _ _ Hb).
  - (* Loop exit *) exact (HL b _ _ _ (E_Loop_exit b _)).
  - (* Loop iterate *) exact (HL b _ _ _ (E_Loop_iter _ _ _ _ _ _ Hb Ho1 Hl)).
  - (* Loop break *) exact (HL b _ _ _ (E_Loop_break _ _ _ Hb)).
  - (* Loop abrupt *) exact (HL b _ _ _ (E_Loop_abrupt _ _ _ _ Hb Ho)).
  - (* Scope: the body, then its deferred actions, whose scopes are judged with the same fuel *)
    apply (covers_bindv _ _ _ _ _ (IH _ _ _ _ Hb)). intros _. cbn [fst snd].
    apply (covers_bindv _ _ _ _ _ (unwind_covers _ (fun d H0 o1 H1' D1' => IH (Scope d) (H0, []) o1 (H1', D1')) _ _ _ _ _ Hu)).
    intro Hnf. apply covers_one. exact Hnf.
Qed.

Lemma first_leak_none : forall l, first_leak l = None -> forall o H D, In (o, (H, D)) l -> H = [].
Proof.
  unfold first_leak. intros l Hf o H D Hin.
  match type of Hf with match ?e with _ => _ end = _ => destruct e as [|[m k] t] eqn:Hfm end; [|discriminate Hf].
  destruct H as [|lk H]; [reflexivity|].
  exfalso. apply (in_nil (a := lk)). rewrite <- Hfm.
  apply in_flat_map. exists (o, (lk :: H, D)); split; [assumption | left; reflexivity].
Qed.

Definition lock_safe (p : stmt) : Prop :=
  forall o H', handler_exec p o H' -> nofault o /\ H' = [].

Lemma check_lock_safe : forall p, check p = true -> lock_safe p.
Proof.
  intros p Hchk o H' He. unfold check, why in Hchk.
  destruct (chk (fuel_for p) (Scope p) ([], [])) as [r|l] eqn:Hc; [discriminate|].
  destruct (first_leak l) eqn:Hl; [discriminate|].
  destruct (chk_covers _ _ _ _ _ He l Hc) as [Hin Hnf].
  split; [exact Hnf | exact (first_leak_none l Hl o H' [] Hin)].
Qed.

Lemma nofault_neq : forall o, nofault o -> forall f, o <> OFault f.
Proof. intros o Hnf f Heq. subst o. exact Hnf. Qed.

Theorem check_sound : forall p, check p = true ->
  forall o H', handler_exec p o H' ->
    (forall m, o <> OFault (FUnlock m)) /\
    (forall m, o <> OFault (FRelock m)) /\
    (forall c, o <> OFault (FSend c)) /\
    o <> OFault FUnknown /\
    H' = [].
Proof.
  intros p Hchk o H' He. destruct (check_lock_safe p Hchk o H' He) as [Hnf Hh].
  pose proof (nofault_neq o Hnf) as Hne.
  repeat split; [intros m; apply Hne | intros m; apply Hne | intros c; apply Hne | apply Hne | exact Hh].
Qed.

(** the tie used by the generated file, where [forallb check hs = true] is one [vm_compute]; checks/restlib.py writes
    [exact (handlers_safe handlers handlers_ok)] into that file, so this name is used outside the Coq sources *)
Theorem handlers_safe : forall hs : list stmt, forallb check hs = true ->
  forall p, In p hs -> lock_safe p.
Proof.
  intros hs Hall p Hin. rewrite forallb_forall in Hall. apply check_lock_safe. auto.
Qed.

Lemma check_false_why : forall p, check p = false -> exists r, why p = Some r.
Proof. intros p Hc. unfold check in Hc. destruct (why p) as [r|]; [eauto | discriminate]. Qed.

(** ** The interpreter produces executions of the semantics *)

Lemma exec_scope_defers : forall b H D o H1 D1, exec (Scope b) (H, D) o (H1, D1) -> D1 = D.
Proof. intros b H D o H1 D1 He. inversion He. reflexivity. Qed.

Lemma run_unwind_exec : forall runsc,
  (forall d orc H o1 H1 orc1, runsc d orc H = Some (o1, H1, orc1) -> exec (Scope d) (H, []) o1 (H1, [])) ->
  forall ds H o orc o' H' orc', run_unwind runsc ds H o orc = Some (o', H', orc') -> unwind ds H o o' H'.
Proof.
  intros runsc Hsc. induction ds as [|d t IH]; intros H o orc o' H' orc' Hr.
  - destruct o; cbn in Hr; injection Hr as Ho HH Horc; subst; try (apply U_nil; exact I). apply U_fault.
  - assert (Hcases : (exists f, o = OFault f) \/ nofault o) by (destruct o; cbn; eauto).
    destruct Hcases as [[f Hf] | Hnf].
    + subst o. cbn in Hr. injection Hr as Ho HH Horc; subst. apply U_fault.
    + assert (Hr' : match runsc d orc H with
                    | None => None
                    | Some (o1, H1, orc1) => run_unwind runsc t H1 (after o o1) orc1
                    end = Some (o', H', orc')).
      { destruct o; try contradiction; exact Hr. }
      destruct (runsc d orc H) as [[[o1 H1] orc1]|] eqn:Hd; [|discriminate].
      apply (U_cons d t H o o1 H1 [] o' H' Hnf); [apply (Hsc _ _ _ _ _ _ Hd) | apply (IH _ _ _ _ _ _ Hr')].
Qed.

Lemma run_exec : forall n s orc s0 o s1 orc',
  run n s orc s0 = Some (o, s1, orc') -> exec s s0 o s1.
Proof.
  induction n as [|n IH]; intros s orc s0 o s1 orc' Hr; [discriminate|].
  destruct s0 as [H D]. destruct s; cbn [run] in Hr.
  (* Skip, Return, Break, Continue, DeferUnlock, DeferRUnlock, Defer, Call, Panic, Unknown:
     one result, one rule *)
  all: try solve [injection Hr as Ho Hs Horc; subst; constructor].
  - (* Seq *)
    destruct (run n s2 orc (H, D)) as [[[oa sa] orca]|] eqn:Ha; [|discriminate].
    apply IH in Ha.
    destruct oa; try (injection Hr as Ho Hs Horc; subst; apply E_Seq_abrupt; [assumption | discriminate]).
    apply IH in Hr. eapply E_Seq; eassumption.
  - (* If *)
    destruct orc as [|[|] r].
    + apply IH in Hr. apply E_If_right; assumption.
    + apply IH in Hr. apply E_If_left; assumption.
    + apply IH in Hr. apply E_If_right; assumption.
  - (* Loop *)
    destruct orc as [|[|] r].
    + injection Hr as Ho Hs Horc; subst. apply E_Loop_exit.
    + destruct (run n s r (H, D)) as [[[ob sb] orcb]|] eqn:Hb; [|discriminate].
      apply IH in Hb.
      destruct ob.
      * apply IH in Hr. eapply E_Loop_iter; [eassumption | left; reflexivity | assumption].
      * injection Hr as Ho Hs Horc; subst. apply E_Loop_break; assumption.
      * apply IH in Hr. eapply E_Loop_iter; [eassumption | right; reflexivity | assumption].
      * injection Hr as Ho Hs Horc; subst. apply E_Loop_abrupt; [assumption | left; reflexivity].
      * injection Hr as Ho Hs Horc; subst. apply E_Loop_abrupt; [assumption | right; left; reflexivity].
      * injection Hr as Ho Hs Horc; subst. apply E_Loop_abrupt; [assumption | right; right; eexists; reflexivity].
    + injection Hr as Ho Hs Horc; subst. apply E_Loop_exit.
  - (* Lock *)
    destruct (holds H m) eqn:Hh; injection Hr as Ho Hs Horc; subst.
    + eapply E_Lock_held; eassumption.
    + apply E_Lock; assumption.
  - (* Unlock *)
    destruct (holds H m) as [[|]|] eqn:Hh; injection Hr as Ho Hs Horc; subst.
    + apply E_Unlock; assumption.
    + apply E_Unlock_unheld. rewrite Hh; discriminate.
    + apply E_Unlock_unheld. rewrite Hh; discriminate.
  - (* RLock *)
    destruct (holds H m) eqn:Hh; injection Hr as Ho Hs Horc; subst.
    + eapply E_RLock_held; eassumption.
    + apply E_RLock; assumption.
  - (* RUnlock *)
    destruct (holds H m) as [[|]|] eqn:Hh; injection Hr as Ho Hs Horc; subst.
    + apply E_RUnlock_unheld. rewrite Hh; discriminate.
    + apply E_RUnlock; assumption.
    + apply E_RUnlock_unheld. rewrite Hh; discriminate.
  - (* Scope *)
    destruct (run n s orc (H, [])) as [[[ob [H1 D1]] orc1]|] eqn:Hb; [|discriminate].
    apply IH in Hb.
    match type of Hr with context [run_unwind ?f _ _ _ _] => set (runsc := f) in Hr end.
    destruct (run_unwind runsc D1 H1 (exit_of ob) orc1) as [[[o2 H2] orc2]|] eqn:Hu; [|discriminate].
    injection Hr as Ho Hs Horc; subst.
    eapply E_Scope; [eassumption|].
    eapply run_unwind_exec; [|eassumption].
    intros d orc0 H0 o1 H1' orc1' Hd. unfold runsc in Hd.
    destruct (run n (Scope d) orc0 (H0, [])) as [[[od [Hd1 Dd1]] orcd]|] eqn:Hrd; [|discriminate].
    injection Hd as Ho HH Horc; subst.
    apply IH in Hrd. rewrite (exec_scope_defers _ _ _ _ _ _ Hrd) in Hrd. assumption.
  - (* Send *)
    destruct H; injection Hr as Ho Hs Horc; subst.
    + apply E_Send.
    + apply E_Send_held. discriminate.
Qed.

Theorem check_sound_run : forall p, check p = true ->
  forall n orc o H', run_handler n p orc = Some (o, H') -> nofault o /\ H' = [].
Proof.
  intros p Hchk n orc o H' Hr. unfold run_handler in Hr.
  destruct (run n (Scope p) orc ([], [])) as [[[o1 [H1 D1]] orc1]|] eqn:Hrun; [|discriminate].
  injection Hr as Ho HH; subst.
  apply run_exec in Hrun. rewrite (exec_scope_defers _ _ _ _ _ _ Hrun) in Hrun.
  exact (check_lock_safe p Hchk o H' Hrun).
Qed.

Open Scope string_scope.

(** the shape of controller/rest DeleteSnapshot before /repo's e5151d7: Lock; defer Unlock; on a body
    read error a manual Unlock and return - the deferred Unlock then hits an unlocked mutex *)
Definition ex_double_unlock : stmt :=
  Seq (Lock 0) (Seq (DeferUnlock 0) (Seq (Call "Read") (Seq (If (Seq (Unlock 0) Return) Skip) Return))).

Example ex_double_unlock_rejected : why ex_double_unlock = Some (RFault (FUnlock 0)).
Proof. vm_compute; reflexivity. Qed.
Example ex_double_unlock_runs_into_it :
  run_handler 50 ex_double_unlock [true] = Some (OFault (FUnlock 0), []).
Proof. vm_compute; reflexivity. Qed.
Example ex_double_unlock_other_branch_fine :
  run_handler 50 ex_double_unlock [false] = Some (ONorm, []).
Proof. vm_compute; reflexivity. Qed.

(** the shape of replica.Server.Start before /repo's 54282d2: Lock; defer Unlock; ActionChannel <- action *)
Definition ex_send_locked : stmt := Scope (Seq (Lock 1) (Seq (DeferUnlock 1) (Seq (Send 0) Return))).
Example ex_send_locked_rejected : why ex_send_locked = Some (RFault (FSend 0)).
Proof. vm_compute; reflexivity. Qed.

(** a lock taken and not released on an error exit *)
Definition ex_leak : stmt := Seq (Lock 0) (Seq (If Return Skip) (Seq (Unlock 0) Return)).
Example ex_leak_rejected : why ex_leak = Some (RLeak 0).
Proof. vm_compute; reflexivity. Qed.
Example ex_leak_runs : run_handler 50 ex_leak [true] = Some (ONorm, [(0, true)]).
Proof. vm_compute; reflexivity. Qed.

(** a method that locks, called from a handler that already holds the same mutex *)
Definition ex_relock : stmt := Seq (RLock 0) (Seq (DeferRUnlock 0) (Scope (Seq (Lock 0) (Seq (DeferUnlock 0) Return)))).
Example ex_relock_rejected : why ex_relock = Some (RFault (FRelock 0)).
Proof. vm_compute; reflexivity. Qed.

(** accepted: the usual shapes (defer-unlock with early returns and a panic; unlock / relock around
    a slow call; a loop with break and continue under the lock; a deferred closure with its own lock) *)
Definition ex_good : stmt :=
  Seq (Lock 0)
  (Seq (If (Seq (Unlock 0) Return) Skip)
  (Seq (Unlock 0)
  (Seq (Call "factory.Create")
  (Seq (Lock 0)
  (Seq (DeferUnlock 0)
  (Seq (Defer (Seq (Lock 1) (Seq (Call "Observe") (Unlock 1))))
  (Seq (Loop (Seq (If Continue Skip) (Seq (If Break Skip) (Scope (If Return Panic)))))
  (If Return Panic)))))))).
Example ex_good_accepted : check ex_good = true.
Proof. vm_compute; reflexivity. Qed.
Example ex_good_has_executions :
  run_handler 50 ex_good [false; true; false; false; true] = Some (OPan, []) /\
  run_handler 50 ex_good [true] = Some (ONorm, []).
Proof. vm_compute; split; reflexivity. Qed.
