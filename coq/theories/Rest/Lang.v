(** Rest.Lang — the lock discipline of one request-serving goroutine (property C14).

    A handler of the management API (controller/rest/*.go, replica/rest/*.go) together with the
    Controller / replica.Server methods it calls is turned by harness/cmd/restgen (go/ast) into a
    term of [stmt].  Everything that is not lock discipline is erased: conditions become
    nondeterministic choices, ordinary calls become [Call], a call whose body is known becomes
    [Scope body] (own returns, own defers).  What the translator does not understand is [Unknown].

    sync.RWMutex as seen by ONE goroutine (Go's sync package, rwmutex.go):
      Unlock / RUnlock of a mutex this goroutine does not hold in that mode  -> fatal error (the
                       process exits: "sync: Unlock of unlocked RWMutex")              [FUnlock]
      Lock / RLock of a mutex this goroutine already holds (either mode)     -> it waits for
                       itself (recursive read locking is forbidden by the package doc)  [FRelock]
      a blocking send on a channel while a mutex is held                      -> every other
                       request waits on that mutex until somebody receives              [FSend]
    Deferred actions run when the enclosing function ([Scope]) ends: after a return, at the end
    of the body, and during a panic (LIFO; a panic inside a deferred function keeps unwinding). *)
From Coq Require Import List Bool Arith String Lia.
Import ListNotations.

Definition mutex := nat.
Definition chan := nat.

Inductive stmt : Type :=
| Skip
| Seq (a b : stmt)
| If (a b : stmt)                 (* nondeterministic choice: if/else, switch, select *)
| Loop (body : stmt)              (* zero or more iterations *)
| Return
| Break
| Continue
| Lock (m : mutex)
| Unlock (m : mutex)
| RLock (m : mutex)
| RUnlock (m : mutex)
| DeferUnlock (m : mutex)         (* defer m.Unlock()  *)
| DeferRUnlock (m : mutex)        (* defer m.RUnlock() *)
| Defer (d : stmt)                (* defer func(){ d }() / defer f(..) with f's body d *)
| Call (f : string)               (* a call that touches no tracked mutex (name kept for reading) *)
| Scope (body : stmt)             (* an inlined call: own Return, own deferred actions *)
| Send (c : chan)                 (* blocking channel send *)
| Panic
| Unknown.                        (* construct the translator does not understand *)

(** n-ary forms used by the generated file *)
Fixpoint seqs (l : list stmt) : stmt :=
  match l with
  | [] => Skip
  | [a] => a
  | a :: t => Seq a (seqs t)
  end.

Fixpoint alts (l : list stmt) : stmt :=
  match l with
  | [] => Skip
  | [a] => a
  | a :: t => If a (alts t)
  end.

(** mutexes held by this goroutine: (mutex, true = write / false = read) *)
Definition held := list (mutex * bool).
(** state: held mutexes and the deferred actions of the current function, newest first *)
Definition state := (held * list stmt)%type.

Fixpoint holds (H : held) (m : mutex) : option bool :=
  match H with
  | [] => None
  | (m', k) :: t => if Nat.eqb m m' then Some k else holds t m
  end.

Fixpoint release (H : held) (m : mutex) : held :=
  match H with
  | [] => []
  | (m', k) :: t => if Nat.eqb m m' then t else (m', k) :: release t m
  end.

Inductive fault : Type :=
| FUnlock (m : mutex)     (* Unlock / RUnlock of a mutex not held in that mode: fatal error *)
| FRelock (m : mutex)     (* Lock / RLock of a mutex the goroutine already holds: self-deadlock *)
| FSend (c : chan)        (* blocking send while a mutex is held *)
| FUnknown.               (* untranslatable construct reached / break outside a loop *)

Inductive outcome : Type :=
| ONorm | OBrk | OCont | ORet | OPan
| OFault (f : fault).

Definition nofault (o : outcome) : Prop := match o with OFault _ => False | _ => True end.

(** outcome of a function body as seen when its deferred actions start to run *)
Definition exit_of (o : outcome) : outcome :=
  match o with
  | ONorm | ORet => ONorm
  | OPan => OPan
  | OBrk | OCont => OFault FUnknown
  | OFault f => OFault f
  end.

(** pending outcome [o] after a deferred function ended with [o1] *)
Definition after (o o1 : outcome) : outcome :=
  match o1 with
  | OFault f => OFault f
  | OPan => OPan
  | _ => o
  end.

(** Big-step semantics; all nondeterminism (branches, iteration counts) is in the choice of rule.
    A fault ends the execution (the process is dead or wedged), so it propagates like an
    exception that no deferred action sees. *)
Inductive exec : stmt -> state -> outcome -> state -> Prop :=
| E_Skip : forall s0, exec Skip s0 ONorm s0
| E_Call : forall f s0, exec (Call f) s0 ONorm s0
| E_Return : forall s0, exec Return s0 ORet s0
| E_Break : forall s0, exec Break s0 OBrk s0
| E_Continue : forall s0, exec Continue s0 OCont s0
| E_Panic : forall s0, exec Panic s0 OPan s0
| E_Unknown : forall s0, exec Unknown s0 (OFault FUnknown) s0
| E_Lock : forall m H D, holds H m = None ->
    exec (Lock m) (H, D) ONorm (H ++ [(m, true)], D)
| E_Lock_held : forall m H D k, holds H m = Some k ->
    exec (Lock m) (H, D) (OFault (FRelock m)) (H, D)
| E_RLock : forall m H D, holds H m = None ->
    exec (RLock m) (H, D) ONorm (H ++ [(m, false)], D)
| E_RLock_held : forall m H D k, holds H m = Some k ->
    exec (RLock m) (H, D) (OFault (FRelock m)) (H, D)
| E_Unlock : forall m H D, holds H m = Some true ->
    exec (Unlock m) (H, D) ONorm (release H m, D)
| E_Unlock_unheld : forall m H D, holds H m <> Some true ->
    exec (Unlock m) (H, D) (OFault (FUnlock m)) (H, D)
| E_RUnlock : forall m H D, holds H m = Some false ->
    exec (RUnlock m) (H, D) ONorm (release H m, D)
| E_RUnlock_unheld : forall m H D, holds H m <> Some false ->
    exec (RUnlock m) (H, D) (OFault (FUnlock m)) (H, D)
| E_Send : forall c D, exec (Send c) ([], D) ONorm ([], D)
| E_Send_held : forall c H D, H <> [] ->
    exec (Send c) (H, D) (OFault (FSend c)) (H, D)
| E_Defer : forall d H D, exec (Defer d) (H, D) ONorm (H, d :: D)
| E_DeferUnlock : forall m H D, exec (DeferUnlock m) (H, D) ONorm (H, Unlock m :: D)
| E_DeferRUnlock : forall m H D, exec (DeferRUnlock m) (H, D) ONorm (H, RUnlock m :: D)
| E_Seq : forall a b s0 s1 o s2,
    exec a s0 ONorm s1 -> exec b s1 o s2 -> exec (Seq a b) s0 o s2
| E_Seq_abrupt : forall a b s0 o s1,
    exec a s0 o s1 -> o <> ONorm -> exec (Seq a b) s0 o s1
| E_If_left : forall a b s0 o s1, exec a s0 o s1 -> exec (If a b) s0 o s1
| E_If_right : forall a b s0 o s1, exec b s0 o s1 -> exec (If a b) s0 o s1
| E_Loop_exit : forall b s0, exec (Loop b) s0 ONorm s0
| E_Loop_iter : forall b s0 o1 s1 o s2,
    exec b s0 o1 s1 -> o1 = ONorm \/ o1 = OCont ->
    exec (Loop b) s1 o s2 -> exec (Loop b) s0 o s2
| E_Loop_break : forall b s0 s1, exec b s0 OBrk s1 -> exec (Loop b) s0 ONorm s1
| E_Loop_abrupt : forall b s0 o s1,
    exec b s0 o s1 -> o = ORet \/ o = OPan \/ (exists f, o = OFault f) ->
    exec (Loop b) s0 o s1
| E_Scope : forall b H D o H1 D1 o' H2,
    exec b (H, []) o (H1, D1) ->
    unwind D1 H1 (exit_of o) o' H2 ->
    exec (Scope b) (H, D) o' (H2, D)
(** [unwind ds H o o' H']: running the deferred actions [ds] (newest first) from held set [H]
    with pending outcome [o] ends with outcome [o'] and held set [H']. *)
with unwind : list stmt -> held -> outcome -> outcome -> held -> Prop :=
| U_fault : forall ds H f, unwind ds H (OFault f) (OFault f) H
| U_nil : forall H o, nofault o -> unwind [] H o o H
| U_cons : forall d ds H o o1 H1 D1 o2 H2, nofault o ->
    exec (Scope d) (H, []) o1 (H1, D1) ->
    unwind ds H1 (after o o1) o2 H2 ->
    unwind (d :: ds) H o o2 H2.

(** A handler is a function: it starts holding nothing, with no pending deferred action. *)
Definition handler_exec (p : stmt) (o : outcome) (H' : held) : Prop :=
  exec (Scope p) ([], []) o (H', []).

(* ------------------------------------------------------------------ executable semantics *)

(** The same semantics as a function: choices are read from an oracle (true = then-branch /
    one more iteration; an exhausted oracle answers false), [n] bounds the nesting depth. *)
Fixpoint run_unwind (runsc : stmt -> list bool -> held -> option (outcome * held * list bool))
         (ds : list stmt) (H : held) (o : outcome) (orc : list bool)
  : option (outcome * held * list bool) :=
  match o with
  | OFault f => Some (OFault f, H, orc)
  | _ =>
    match ds with
    | [] => Some (o, H, orc)
    | d :: t =>
      match runsc d orc H with
      | None => None
      | Some (o1, H1, orc1) => run_unwind runsc t H1 (after o o1) orc1
      end
    end
  end.

Fixpoint run (n : nat) (s : stmt) (orc : list bool) (s0 : state)
  : option (outcome * state * list bool) :=
  match n with
  | 0 => None
  | S n =>
    let '(H, D) := s0 in
    match s with
    | Skip | Call _ => Some (ONorm, s0, orc)
    | Return => Some (ORet, s0, orc)
    | Break => Some (OBrk, s0, orc)
    | Continue => Some (OCont, s0, orc)
    | Panic => Some (OPan, s0, orc)
    | Unknown => Some (OFault FUnknown, s0, orc)
    | Lock m => match holds H m with
                | None => Some (ONorm, (H ++ [(m, true)], D), orc)
                | Some _ => Some (OFault (FRelock m), s0, orc)
                end
    | RLock m => match holds H m with
                 | None => Some (ONorm, (H ++ [(m, false)], D), orc)
                 | Some _ => Some (OFault (FRelock m), s0, orc)
                 end
    | Unlock m => match holds H m with
                  | Some true => Some (ONorm, (release H m, D), orc)
                  | _ => Some (OFault (FUnlock m), s0, orc)
                  end
    | RUnlock m => match holds H m with
                   | Some false => Some (ONorm, (release H m, D), orc)
                   | _ => Some (OFault (FUnlock m), s0, orc)
                   end
    | Send c => match H with
                | [] => Some (ONorm, s0, orc)
                | _ => Some (OFault (FSend c), s0, orc)
                end
    | Defer d => Some (ONorm, (H, d :: D), orc)
    | DeferUnlock m => Some (ONorm, (H, Unlock m :: D), orc)
    | DeferRUnlock m => Some (ONorm, (H, RUnlock m :: D), orc)
    | Seq a b =>
      match run n a orc s0 with
      | Some (ONorm, s1, orc1) => run n b orc1 s1
      | r => r
      end
    | If a b =>
      match orc with
      | true :: r => run n a r s0
      | _ :: r => run n b r s0
      | [] => run n b [] s0
      end
    | Loop b =>
      match orc with
      | true :: r =>
        match run n b r s0 with
        | Some (ONorm, s1, r1) | Some (OCont, s1, r1) => run n (Loop b) r1 s1
        | Some (OBrk, s1, r1) => Some (ONorm, s1, r1)
        | r' => r'
        end
      | _ :: r => Some (ONorm, s0, r)
      | [] => Some (ONorm, s0, [])
      end
    | Scope b =>
      match run n b orc (H, []) with
      | None => None
      | Some (o, (H1, D1), orc1) =>
        match run_unwind (fun d orc' H' =>
                            match run n (Scope d) orc' (H', []) with
                            | Some (o1, (H1', _), orc1') => Some (o1, H1', orc1')
                            | None => None
                            end) D1 H1 (exit_of o) orc1 with
        | None => None
        | Some (o', H2, orc2) => Some (o', (H2, D), orc2)
        end
      end
    end
  end.

(** one complete run of a handler under an oracle *)
Definition run_handler (n : nat) (p : stmt) (orc : list bool) : option (outcome * held) :=
  match run n (Scope p) orc ([], []) with
  | Some (o, (H, _), _) => Some (o, H)
  | None => None
  end.

(* ------------------------------------------------------------------ the checker *)

(** decidable equality on statements and states (for the visited sets of the checker) *)
Fixpoint stmt_eqb (a b : stmt) : bool :=
  match a, b with
  | Skip, Skip | Return, Return | Break, Break | Continue, Continue
  | Panic, Panic | Unknown, Unknown => true
  | Seq a1 a2, Seq b1 b2 | If a1 a2, If b1 b2 => stmt_eqb a1 b1 && stmt_eqb a2 b2
  | Loop a1, Loop b1 | Defer a1, Defer b1 | Scope a1, Scope b1 => stmt_eqb a1 b1
  | Lock m, Lock m' | Unlock m, Unlock m' | RLock m, RLock m' | RUnlock m, RUnlock m'
  | DeferUnlock m, DeferUnlock m' | DeferRUnlock m, DeferRUnlock m' | Send m, Send m' => Nat.eqb m m'
  | Call f, Call g => String.eqb f g
  | _, _ => false
  end.

Fixpoint list_eqb {A} (eqb : A -> A -> bool) (l1 l2 : list A) : bool :=
  match l1, l2 with
  | [], [] => true
  | x :: t1, y :: t2 => eqb x y && list_eqb eqb t1 t2
  | _, _ => false
  end.

Definition lk_eqb (x y : mutex * bool) : bool := Nat.eqb (fst x) (fst y) && Bool.eqb (snd x) (snd y).
Definition state_eqb (x y : state) : bool :=
  list_eqb lk_eqb (fst x) (fst y) && list_eqb stmt_eqb (snd x) (snd y).

Definition fault_eqb (f g : fault) : bool :=
  match f, g with
  | FUnlock m, FUnlock m' | FRelock m, FRelock m' | FSend m, FSend m' => Nat.eqb m m'
  | FUnknown, FUnknown => true
  | _, _ => false
  end.

Definition outcome_eqb (o p : outcome) : bool :=
  match o, p with
  | ONorm, ONorm | OBrk, OBrk | OCont, OCont | ORet, ORet | OPan, OPan => true
  | OFault f, OFault g => fault_eqb f g
  | _, _ => false
  end.

Definition res := (outcome * state)%type.
Definition res_eqb (x y : res) : bool := outcome_eqb (fst x) (fst y) && state_eqb (snd x) (snd y).

Fixpoint mem {A} (eqb : A -> A -> bool) (x : A) (l : list A) : bool :=
  match l with [] => false | y :: t => eqb x y || mem eqb x t end.

(** [l1] followed by the elements of [l2] that are not yet present *)
Fixpoint union {A} (eqb : A -> A -> bool) (l1 l2 : list A) : list A :=
  match l2 with
  | [] => l1
  | y :: t => if mem eqb y l1 then union eqb l1 t else union eqb (l1 ++ [y]) t
  end.

(** why the checker rejects *)
Inductive reason : Type :=
| RFault (f : fault)      (* some execution reaches this fault *)
| RLeak (m : mutex)       (* some execution ends (return / panic) still holding m *)
| RFuel                   (* nesting deeper than the fuel (never with [check]'s fuel on real input) *)
| RLoop.                  (* no finite set of loop-head states found (e.g. a defer inside a loop) *)

Inductive verdict : Type :=
| Bad (r : reason)
| Good (l : list res).    (* every (outcome, state) an execution can end in; no faults *)

Fixpoint bindl (l : list res) (f : outcome -> state -> verdict) : verdict :=
  match l with
  | [] => Good []
  | (o, s1) :: t =>
    match f o s1 with
    | Bad r => Bad r
    | Good l2 =>
      match bindl t f with
      | Bad r => Bad r
      | Good l3 => Good (union res_eqb l2 l3)
      end
    end
  end.

Definition bindv (v : verdict) (f : outcome -> state -> verdict) : verdict :=
  match v with Bad r => Bad r | Good l => bindl l f end.

(** deferred actions, abstractly: [runsc d H] = all ends of [Scope d] from [(H, [])] *)
Fixpoint chk_unwind (runsc : stmt -> held -> verdict) (ds : list stmt) (H : held) (o : outcome)
  : verdict :=
  match o with
  | OFault f => Bad (RFault f)
  | _ =>
    match ds with
    | [] => Good [(o, (H, []))]
    | d :: t => bindv (runsc d H) (fun o1 s1 => chk_unwind runsc t (fst s1) (after o o1))
    end
  end.

(** loop heads: grow the set [W] of states at the loop head until the body maps it into itself *)
Definition next_heads (l : list res) : list state :=
  flat_map (fun r => match fst r with ONorm | OCont => [snd r] | _ => [] end) l.

Fixpoint grow (runb : state -> verdict) (k : nat) (W : list state) : reason + list state :=
  match k with
  | 0 => inl RLoop
  | S k =>
    let step := fold_left (fun acc w =>
                  match acc with
                  | inl r => inl r
                  | inr ns => match runb w with
                              | Bad r => inl r
                              | Good l => inr (union state_eqb ns (next_heads l))
                              end
                  end) W (inr W) in
    match step with
    | inl r => inl r
    | inr W' => if Nat.eqb (List.length W') (List.length W) then inr W else grow runb k W'
    end
  end.

Definition loop_exits (l : list res) : list res :=
  flat_map (fun r => match fst r with
                     | OBrk => [(ONorm, snd r)]
                     | ORet | OPan => [r]
                     | _ => []
                     end) l.

(** [close runb W all]: every state of [W] has a good body whose normal/continue ends are in
    [all]; collects the ways out of the loop. This function alone carries the soundness of loops:
    [grow] is only the search for a suitable [W]. *)
Fixpoint close (runb : state -> verdict) (W all : list state) : verdict :=
  match W with
  | [] => Good []
  | w :: t =>
    match runb w with
    | Bad r => Bad r
    | Good l =>
      if forallb (fun s1 => mem state_eqb s1 all) (next_heads l) then
        match close runb t all with
        | Bad r => Bad r
        | Good l' => Good (union res_eqb ((ONorm, w) :: loop_exits l) l')
        end
      else Bad RLoop
    end
  end.

(** 64 rounds of [grow] is an arbitrary cut-off (running out rejects with [RLoop]).  [grow] only appends to its seed, so
    the test that [s0] is in [W] never fails; it is there so that soundness needs no lemma about [grow]. *)
Definition chk_loop (runb : state -> verdict) (s0 : state) : verdict :=
  match grow runb 64 [s0] with
  | inl r => Bad r
  | inr W => if mem state_eqb s0 W then close runb W W else Bad RLoop
  end.

Fixpoint chk (n : nat) (s : stmt) (s0 : state) : verdict :=
  match n with
  | 0 => Bad RFuel
  | S n =>
    let '(H, D) := s0 in
    match s with
    | Skip | Call _ => Good [(ONorm, s0)]
    | Return => Good [(ORet, s0)]
    | Break => Good [(OBrk, s0)]
    | Continue => Good [(OCont, s0)]
    | Panic => Good [(OPan, s0)]
    | Unknown => Bad (RFault FUnknown)
    | Lock m => match holds H m with
                | None => Good [(ONorm, (H ++ [(m, true)], D))]
                | Some _ => Bad (RFault (FRelock m))
                end
    | RLock m => match holds H m with
                 | None => Good [(ONorm, (H ++ [(m, false)], D))]
                 | Some _ => Bad (RFault (FRelock m))
                 end
    | Unlock m => match holds H m with
                  | Some true => Good [(ONorm, (release H m, D))]
                  | _ => Bad (RFault (FUnlock m))
                  end
    | RUnlock m => match holds H m with
                   | Some false => Good [(ONorm, (release H m, D))]
                   | _ => Bad (RFault (FUnlock m))
                   end
    | Send c => match H with
                | [] => Good [(ONorm, s0)]
                | _ => Bad (RFault (FSend c))
                end
    | Defer d => Good [(ONorm, (H, d :: D))]
    | DeferUnlock m => Good [(ONorm, (H, Unlock m :: D))]
    | DeferRUnlock m => Good [(ONorm, (H, RUnlock m :: D))]
    | Seq a b =>
      bindv (chk n a s0) (fun o s1 => match o with ONorm => chk n b s1 | _ => Good [(o, s1)] end)
    | If a b =>
      match chk n a s0 with
      | Bad r => Bad r
      | Good l1 => match chk n b s0 with
                   | Bad r => Bad r
                   | Good l2 => Good (union res_eqb l1 l2)
                   end
      end
    | Loop b => chk_loop (chk n b) s0
    | Scope b =>
      bindv (chk n b (H, []))
            (fun o s1 =>
               bindv (chk_unwind (fun d H' => chk n (Scope d) (H', [])) (snd s1) (fst s1) (exit_of o))
                     (fun o' s2 => Good [(o', (fst s2, D))]))
    end
  end.

Fixpoint size (s : stmt) : nat :=
  match s with
  | Seq a b | If a b => S (size a + size b)
  | Loop a | Defer a | Scope a => S (size a)
  | _ => 1
  end.

(** fuel meant to be enough: the recursion of [chk] follows the nesting of the term, and unwinding a deferred [d] costs two
    levels ([Scope d], then [d]), hence twice the size.  Not proved to suffice; too little fuel is a rejection ([RFuel]). *)
Definition fuel_for (p : stmt) : nat := 2 * size p + 8.

Definition first_leak (l : list res) : option mutex :=
  match flat_map (fun r => fst (snd r)) l with
  | [] => None
  | (m, _) :: _ => Some m
  end.

(** [why p = None]: accepted; [Some r]: rejected for reason r *)
Definition why (p : stmt) : option reason :=
  match chk (fuel_for p) (Scope p) ([], []) with
  | Bad r => Some r
  | Good l => match first_leak l with Some m => Some (RLeak m) | None => None end
  end.

Definition check (p : stmt) : bool :=
  match why p with None => true | Some _ => false end.
