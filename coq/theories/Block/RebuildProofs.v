(** * Rebuild: the data halves of C07 and C19, proved over ALL schedules of the two-replica model.
    [inv1] is kept until the destination's Reload and [inv2] after it ([inv2_reached]); what is claimed of a rebuilt
    replica holds in every state that satisfies [inv2] ([inv2_sound]).  [cinv1], [cinv2]: the same for CloneReplica.
    [rmw_case], [diverged_case]: what happens outside the hypotheses (evaluated in Properties/C07.v). *)
From Coq Require Import List Arith Bool NArith Lia.
From Jiva Require Import Block.Model Block.Corr Block.Lemmas Block.ProofsWrite Block.ProofsUnit Block.ProofsRead
     Block.ProofsOps Block.ProofsPreload Block.Rebuild Block.RebuildLemmas Block.RebuildCorr Block.RebuildAtomic.
Import ListNotations.

(** ** the source: a replica in service, its reclamation asynchronous *)
(** its queued holes come from writes only, so [hs_sound] is stable; the destination after its Reload also queues
    the holes of UpdateLUNMap and needs [RebuildLemmas.dinv] *)
Record sinv (K : nat) (s : dd) (pend : list hole) : Prop := {
  sv_wf : wf K s;
  sv_prot : prot s;
  sv_pend : hs_sound s pend
}.

Lemma sinv_start : forall K d, inv K d -> sinv K d [].
Proof. intros K d I. constructor; [apply I|apply I|apply hs_sound_nil]. Qed.

Lemma sinv_write : forall K s pend data off, 0 < K -> sinv K s pend -> off + length data <= nblk s * K ->
  let '(s1, hs) := write_at true K s data off in sinv K s1 (pend ++ hs) /\ stage K s s1 hs.
Proof.
  intros K s pend data off HK I Hr.
  pose proof (write_at_spec K s data off HK (sv_wf _ _ _ I) Hr) as H.
  destruct (write_at true K s data off) as [s1 hs]. destruct H as (S & _).
  split; [|assumption]. destruct (st_meta _ _ _ _ S) as (E1 & _ & _ & _ & _ & E6 & _).
  constructor.
  - apply S.
  - eapply prot_same_meta; [apply S|apply I].
  - apply hs_sound_app; [|apply S]. eapply hs_sound_mono; eauto; [apply S|apply I].
Qed.

Lemma sinv_hole : forall K s pend k a s1 p1, sinv K s pend -> take_hole s pend k a = (s1, p1) ->
  sinv K s1 p1 /\ same_meta s s1 /\
  (forall b, top (fl s1) (nf s) b = top (fl s) (nf s) b) /\
  (forall J b, J <= snapix s -> top (fl s1) J b = top (fl s) J b) /\
  (forall b, fl s1 (nf s) b = fl s (nf s) b) /\
  (forall j b, fl s1 j b = fl s j b \/ (fl s1 j b = None /\ fl s (nf s) b <> None /\ snapix s < j < nf s)).
Proof.
  intros K s pend k a s1 p1 I H.
  destruct (take_hole_cases _ _ _ _ _ _ H) as [(-> & Hsub)|(h & Hin & -> & Hsub)].
  - split; [|split; [apply same_meta_refl|split; [reflexivity|split; [reflexivity|split; [reflexivity|left; reflexivity]]]]].
    destruct I as [A B C]. constructor; auto. intros f s' l Hx. apply C. now apply Hsub.
  - assert (Hs : hs_sound s [h]).
    { intros f s' l [E|[]]. subst h. now apply (sv_pend _ _ _ I). }
    assert (Hhead : forall b, fl (apply1 s h) (nf s) b = fl s (nf s) b).
    { intros b. destruct h as [[f s'] l]. destruct (apply1_cases s (f, s', l) (nf s) b) as [E|[_ (E & _)]]; [assumption|].
      destruct (Hs f s' l (or_introl eq_refl)) as (A & _). lia. }
    split; [|split; [apply apply1_meta|split; [|split; [|split; [exact Hhead|]]]]].
    + constructor.
      * rewrite apply1_punched. apply punched_wf; [apply I|assumption].
      * eapply prot_same_meta; [apply apply1_meta|apply I].
      * apply (hs_sound_mono s); [reflexivity|reflexivity|intros b; now rewrite Hhead|].
        intros f s' l Hx. apply (sv_pend _ _ _ I). now apply Hsub.
    + intros b. rewrite apply1_punched. now apply punched_live.
    + intros J b HJ. rewrite apply1_punched. now apply punched_protected.
    + intros j b. destruct h as [[f s'] l]. destruct (apply1_cases s (f, s', l) j b) as [E|[E (Ej & Hb)]]; [left; assumption|].
      subst j. right. destruct (Hs f s' l (or_introl eq_refl)) as (A & B). split; [assumption|]. split; [now apply B|assumption].
Qed.

(** the source on its own (the clone's source volume, or reclamation): nothing at or below SnapIndx moves *)
Definition src_only (e : ev) : Prop := match e with SrcWrite _ _ | SrcHole _ _ => True | _ => False end.

Lemma src_only_step : forall K s e, 0 < K -> src_only e -> sinv K (src s) (spend s) ->
  exists s1 p1, step true K s e = set_src s s1 p1 /\ sinv K s1 p1 /\ same_meta (src s) s1 /\
    (forall i b, i <= snapix (src s) -> i < nf (src s) -> fl s1 i b = fl (src s) i b).
Proof.
  intros K s e HK He I.
  assert (Hsame : exists s1 p1, s = set_src s s1 p1 /\ sinv K s1 p1 /\ same_meta (src s) s1 /\
            (forall i b, i <= snapix (src s) -> i < nf (src s) -> fl s1 i b = fl (src s) i b)).
  { exists (src s), (spend s). split; [now destruct s|]. split; [assumption|]. split; [apply same_meta_refl|auto]. }
  destruct e as [off data|off data|i bs|k a|k a|rev| | | | |st rv]; cbn [src_only] in He; try contradiction; cbn [step].
  - destruct (Nat.ltb_spec (nblk (src s) * K) (off + length data)) as [Hout|Hin]; [exact Hsame|].
    unfold src_write. pose proof (sinv_write K (src s) (spend s) data off HK I Hin) as HS.
    destruct (write_at true K (src s) data off) as [s1 hs]. destruct HS as (I1 & S).
    exists s1, (spend s ++ hs). split; [reflexivity|]. split; [assumption|]. split; [apply S|].
    intros i b _ Hi. apply (st_other _ _ _ _ S). lia.
  - destruct (take_hole (src s) (spend s) k a) as [s1 p1] eqn:Et.
    destruct (sinv_hole K _ _ _ _ _ _ I Et) as (I1 & M & _ & _ & _ & Hcases).
    exists s1, p1. split; [reflexivity|]. split; [assumption|]. split; [assumption|].
    intros i b Hi _. destruct (Hcases i b) as [E|(_ & _ & E3)]; [exact E|lia].
Qed.

(** ** rebuild, before the destination's Reload *)
(** for an empty buffer WriteAt returns at once and [chunks] yields no block *)
Lemma write_at_aligned_head : forall fx K d data off b, off mod K = 0 -> (length data + off) mod K = 0 ->
  fl (fst (write_at fx K d data off)) (nf d) b =
  write_blocks (fl d (nf d)) (off / K) (chunks K (length data / K) data) b.
Proof.
  intros fx K d data off b A B. rewrite (write_at_aligned fx K d data off A B).
  destruct (length data) as [|n]; [destruct K; reflexivity|apply full_write_head].
Qed.

Lemma own_view_head : forall c d b, 1 <= nf d ->
  fl (own_view c true d) (nf (own_view c true d)) b = fl d (nf d) b.
Proof.
  intros c d b Hnf. cbn [own_view nf fl]. unfold own_fl.
  destruct (Nat.leb_spec (c + 2) c); [lia|]. destruct (Nat.eqb_spec (c + 2) (S c)); [lia|].
  f_equal. lia.
Qed.

Lemma dst_write_pre_aligned : forall K c d data off, 1 <= nf d -> off mod K = 0 -> (length data + off) mod K = 0 ->
  let d1 := dst_write_pre true K c true d data off in
  nf d1 = nf d /\ nblk d1 = nblk d /\ usr d1 = usr d /\
  (forall j, j <> nf d -> fl d1 j = fl d j) /\
  forall b, fl d1 (nf d) b = write_blocks (fl d (nf d)) (off / K) (chunks K (length data / K) data) b.
Proof.
  intros K c d data off Hnf A B. unfold dst_write_pre.
  pose proof (fun b => write_at_aligned_head true K (own_view c true d) data off b A B) as H.
  destruct (write_at true K (own_view c true d) data off) as [v1 hs]. cbn [fst] in H.
  cbn [nf nblk usr fl]. split; [reflexivity|]. split; [reflexivity|]. split; [reflexivity|]. split.
  - intros j Hj. now apply fupd_neq.
  - intros b. rewrite fupd_eq, H. apply write_blocks_ext. now apply own_view_head.
Qed.

(** equal, or the source has since punched it, which it only does under an extent of its head and above SnapIndx *)
Definition agrees (s d : dd) (i b : nat) : Prop :=
  fl d i b = fl s i b \/ (fl s i b = None /\ fl s (nf s) b <> None /\ snapix s < i).

(** the part that is not copied: the images at the sync point agree, unless the source punched there *)
Definition lowrel (c : nat) (s d : dd) (b : nat) : Prop :=
  top (fl d) c b = top (fl s) c b \/ (fl s (nf s) b <> None /\ snapix s < c).

Definition dfiles_ok (K : nat) (d : dd) : Prop :=
  (forall j b, nblk d <= b -> fl d j b = None) /\ (forall j b v, fl d j b = Some v -> length v = K).

(** [c] is the sync point; [P i b]: block [b] of file [i] has been copied since the start; [n0], [nb0] are the
    source's numbers of files and of blocks, which nothing before the Reload changes -- through them "everything
    is copied", stated of the start state ([all_copied]), is used at the Reload ([inv1_reload]) *)
Record inv1 (K c n0 nb0 : nat) (P : nat -> nat -> Prop) (s : rb) : Prop := {
  i1_src : sinv K (src s) (spend s);
  i1_shape : nf (src s) = n0 /\ nblk (src s) = nb0;
  i1_nf : nf (dst s) = nf (src s);
  i1_nblk : nblk (dst s) = nblk (src s);
  i1_c : c < nf (src s);
  i1_rel0 : reloaded s = false;
  i1_wired : wired s = true;
  i1_dpend : dpend s = [];
  i1_head : forall b, fl (dst s) (nf (src s)) b = fl (src s) (nf (src s)) b;
  i1_usr : forall J, usr (dst s) J = usr (src s) J;
  i1_files : dfiles_ok K (dst s);
  i1_rel : forall i b, c < i < nf (src s) -> P i b -> agrees (src s) (dst s) i b;
  i1_low : forall b, lowrel c (src s) (dst s) b
}.

Lemma inv1_mono : forall K c n0 nb0 (P Q : nat -> nat -> Prop) s, inv1 K c n0 nb0 P s ->
  (forall i b, Q i b -> P i b) -> inv1 K c n0 nb0 Q s.
Proof. intros K c n0 nb0 P Q s I H. destruct I. constructor; auto. Qed.

(** what may happen before the Reload; the foreground writes are ALIGNED TO THE 4 KiB BLOCK ([rmw_case] is why) *)
Definition pre_ev (K c : nat) (e : ev) : Prop :=
  match e with
  | BothWrite off data => off mod K = 0 /\ (length data + off) mod K = 0
  | Copy i _ => c < i
  | SrcHole _ _ => True
  | _ => False
  end.

Definition copied (e : ev) (i b : nat) : Prop :=
  match e with Copy i' bs => i = i' /\ In b bs | _ => False end.

Lemma existsb_eqb_in : forall b bs, existsb (Nat.eqb b) bs = true <-> In b bs.
Proof.
  intros b bs. rewrite existsb_exists. split.
  - intros (x & Hx & E). apply Nat.eqb_eq in E. now subst.
  - intros H. exists b. split; [assumption|apply Nat.eqb_refl].
Qed.

Lemma copy_file_cases : forall s d i bs i' b,
  (i' = i /\ In b bs /\ fl (copy_file s d i bs) i' b = fl s i b) \/
  (~ (i' = i /\ In b bs) /\ fl (copy_file s d i bs) i' b = fl d i' b).
Proof.
  intros s d i bs i' b. cbn [copy_file fl].
  destruct (fupd_cases _ (fl d) i (copy_blocks (fl s i) (fl d i) bs) i') as [(-> & E)|(N & E)]; rewrite E.
  - unfold copy_blocks. destruct (existsb (Nat.eqb b) bs) eqn:Ex.
    + left. apply existsb_eqb_in in Ex. auto.
    + right. split; [|reflexivity]. intros (_ & Hb). apply existsb_eqb_in in Hb. congruence.
  - right. split; [tauto|reflexivity].
Qed.

Lemma copy_step_cases : forall K s i bs, reloaded s = false ->
  (1 <= i < nf (dst s) /\ step true K s (Copy i bs) = set_dst s (copy_file (src s) (dst s) i bs) (dpend s)) \/
  (~ 1 <= i < nf (dst s) /\ step true K s (Copy i bs) = s).
Proof.
  intros K s i bs E. cbn [step]. rewrite E. cbn [orb].
  destruct (Nat.leb_spec 1 i); destruct (Nat.ltb_spec i (nf (dst s))); cbn [andb negb];
    try (right; split; [lia|reflexivity]).
  left. split; [lia|reflexivity].
Qed.

Lemma copy_files_ok : forall K s d i bs, wf K s -> nblk d = nblk s -> dfiles_ok K d ->
  dfiles_ok K (copy_file s d i bs).
Proof.
  intros K s d i bs W En (F1 & F2). split.
  - intros j b Hb. cbn [copy_file nblk] in Hb.
    destruct (copy_file_cases s d i bs j b) as [(_ & _ & E)|(_ & E)]; rewrite E; [apply (wf_ext _ _ W); lia|now apply F1].
  - intros j b v. destruct (copy_file_cases s d i bs j b) as [(_ & _ & E)|(_ & E)]; rewrite E; [apply (wf_len _ _ W)|apply F2].
Qed.

Lemma inv1_write : forall K c n0 nb0 P s off data, 0 < K -> inv1 K c n0 nb0 P s ->
  off mod K = 0 -> (length data + off) mod K = 0 -> inv1 K c n0 nb0 P (step true K s (BothWrite off data)).
Proof.
  intros K c n0 nb0 P s off data HK I A B. cbn [step].
  destruct (Nat.ltb_spec (nblk (src s) * K) (off + length data)) as [Hout|Hin]; [exact I|].
  destruct I as [I_src I_shape I_nf I_nblk I_c I_rel0 I_wired I_dpend I_head I_usr I_files I_rel I_low].
  rewrite I_rel0, I_wired. unfold src_write.
  pose proof (sinv_write K (src s) (spend s) data off HK I_src Hin) as HS.
  pose proof (fun b => write_at_aligned_head true K (src s) data off b A B) as HH.
  pose proof (wf_nf _ _ (sv_wf _ _ _ I_src)) as Hnf.
  assert (Hnfd : 1 <= nf (dst s)) by (rewrite I_nf; exact Hnf).
  pose proof (dst_write_pre_aligned K (lowc s) (dst s) data off Hnfd A B) as Hd.
  cbv zeta in Hd. set (d1 := dst_write_pre true K (lowc s) true (dst s) data off) in *.
  destruct Hd as (E1 & E2 & E3 & E4 & E5).
  destruct (write_at true K (src s) data off) as [s1 hs]. cbn [fst] in HH. destruct HS as (I1 & S).
  assert (Hheads : forall b, fl d1 (nf (src s)) b = fl s1 (nf (src s)) b).
  { intros b. rewrite <- I_nf at 1. rewrite E5, HH. apply write_blocks_ext. rewrite I_nf. apply I_head. }
  destruct (st_meta _ _ _ _ S) as (M1 & M2 & M3 & M4 & M5 & M6 & M7 & M8).
  pose proof (sv_wf _ _ _ I1) as W1.
  constructor; cbn [set_src set_dst src dst spend dpend lowc wired reloaded uph drev].
  - exact I1.
  - destruct I_shape. split; congruence.
  - congruence.
  - congruence.
  - congruence.
  - assumption.
  - assumption.
  - assumption.
  - rewrite M1. exact Hheads.
  - intros J. rewrite E3, M3. apply I_usr.
  - destruct I_files as (F1 & F2). split.
    + intros j b Hb. rewrite E2 in Hb. destruct (Nat.eq_dec j (nf (dst s))) as [->|N].
      * rewrite I_nf, Hheads. apply (wf_ext _ _ W1). lia.
      * rewrite (E4 j N). now apply F1.
    + intros j b v. destruct (Nat.eq_dec j (nf (dst s))) as [->|N].
      * rewrite I_nf, Hheads. apply (wf_len _ _ W1).
      * rewrite (E4 j N). apply F2.
  - intros i b Hi Hp. rewrite M1 in Hi. unfold agrees. rewrite (E4 i) by lia. rewrite M1, M6.
    rewrite (st_other _ _ _ _ S i b) by lia.
    destruct (I_rel i b Hi Hp) as [L|(R1 & R2 & R3)]; [left; assumption|right].
    split; [assumption|]. split; [now apply (st_head _ _ _ _ S)|assumption].
  - intros b. unfold lowrel. rewrite M1, M6.
    rewrite (top_ext (fl d1) (fl (dst s)) c b) by (intros j Hj; rewrite (E4 j) by lia; reflexivity).
    rewrite (stage_below _ _ _ _ c b S) by lia.
    destruct (I_low b) as [L|(R1 & R2)]; [left; assumption|right]. split; [now apply (st_head _ _ _ _ S)|assumption].
Qed.

Lemma inv1_copy : forall K c n0 nb0 P s i bs, inv1 K c n0 nb0 P s -> c < i ->
  inv1 K c n0 nb0 (fun i' b => P i' b \/ (i' = i /\ In b bs)) (step true K s (Copy i bs)).
Proof.
  intros K c n0 nb0 P s i bs I Hci.
  destruct I as [I_src I_shape I_nf I_nblk I_c I_rel0 I_wired I_dpend I_head I_usr I_files I_rel I_low].
  destruct (copy_step_cases K s i bs I_rel0) as [(G & ->)|(G & ->)].
  - pose proof (sv_wf _ _ _ I_src) as W.
    constructor; cbn [set_dst src dst spend dpend lowc wired reloaded uph drev]; auto.
    + intros b. cbn [copy_file fl]. rewrite fupd_neq by lia. apply I_head.
    + intros J. cbn [copy_file usr]. destruct (fupd_cases _ (usr (dst s)) i (usr (src s) i) J) as [(-> & E)|(N & E)]; rewrite E; auto.
    + now apply (copy_files_ok K (src s) (dst s) i bs W).
    + intros i' b Hi HP. unfold agrees.
      destruct (copy_file_cases (src s) (dst s) i bs i' b) as [(-> & _ & E)|(Hn & E)]; rewrite E; [left; reflexivity|].
      apply I_rel; [assumption|tauto].
    + intros b. unfold lowrel. cbn [copy_file fl].
      rewrite (top_ext _ (fl (dst s)) c b); [apply I_low|]. intros j Hj. rewrite fupd_neq by lia. reflexivity.
  - (* refused: [i] is not a closed file of the destination *)
    constructor; auto. intros i' b Hi [Hp|(-> & _)]; [auto|lia].
Qed.

Lemma inv1_srchole : forall K c n0 nb0 P s k a, inv1 K c n0 nb0 P s ->
  inv1 K c n0 nb0 P (step true K s (SrcHole k a)).
Proof.
  intros K c n0 nb0 P s k a I. cbn [step]. destruct (take_hole (src s) (spend s) k a) as [s1 p1] eqn:Et.
  destruct I as [I_src I_shape I_nf I_nblk I_c I_rel0 I_wired I_dpend I_head I_usr I_files I_rel I_low].
  destruct (sinv_hole K _ _ _ _ _ _ I_src Et) as (I1 & M & Hlive & Hprot & Hhead & Hcases).
  destruct M as (M1 & M2 & M3 & M4 & M5 & M6 & M7 & M8).
  constructor; cbn [set_src src dst spend dpend lowc wired reloaded uph drev];
    [exact I1|destruct I_shape; split; congruence|congruence|congruence|congruence|assumption|assumption|assumption
    | | |assumption| | ].
  - intros b. rewrite M1, Hhead. apply I_head.
  - intros J. rewrite M3. apply I_usr.
  - intros i b Hi Hp. rewrite M1 in Hi. unfold agrees. rewrite M1, M6, Hhead.
    destruct (Hcases i b) as [E|(E1 & E2 & E3)].
    + rewrite E. now apply I_rel.
    + right. split; [assumption|]. split; [assumption|lia].
  - intros b. unfold lowrel. rewrite M1, M6, Hhead.
    destruct (I_low b) as [L|R]; [|right; exact R].
    destruct (fl (src s) (nf (src s)) b) as [v|] eqn:Eh.
    + destruct (Nat.lt_ge_cases (snapix (src s)) c) as [Hlt|Hge]; [right; split; [discriminate|assumption]|].
      left. rewrite L. symmetry. apply Hprot. lia.
    + left. rewrite L. symmetry. apply top_ext. intros j Hj.
      destruct (Hcases j b) as [E|(_ & E2 & _)]; [assumption|congruence].
Qed.

Lemma inv1_step : forall K c n0 nb0 P s e, 0 < K -> inv1 K c n0 nb0 P s -> pre_ev K c e ->
  inv1 K c n0 nb0 (fun i b => P i b \/ copied e i b) (step true K s e).
Proof.
  intros K c n0 nb0 P s e HK I He.
  destruct e as [off data|off data|i bs|k a|k a|rev| | | | |st rv]; cbn [pre_ev] in He; try contradiction.
  - destruct He as (A & B). apply (inv1_mono K c n0 nb0 P); [now apply inv1_write|]. intros i b [Hp|[]]. exact Hp.
  - now apply inv1_copy.
  - apply (inv1_mono K c n0 nb0 P); [now apply inv1_srchole|]. intros i b [Hp|[]]. exact Hp.
Qed.

(** ** rebuild, after the destination's Reload *)
(** [i2_E] is what the claim about automatic snapshots needs ([inv2_sound]) *)
Record inv2 (K c : nat) (s : rb) : Prop := {
  i2_src : sinv K (src s) (spend s);
  i2_dst : dinv K (dst s) (dpend s) (uph s);
  i2_nf : nf (dst s) = nf (src s);
  i2_nblk : nblk (dst s) = nblk (src s);
  i2_c : c < nf (src s);
  i2_rel : reloaded s = true;
  i2_head : forall b, fl (dst s) (nf (src s)) b = fl (src s) (nf (src s)) b;
  i2_live : forall b, top (fl (dst s)) (nf (src s)) b = top (fl (src s)) (nf (src s)) b;
  i2_user : forall J b, c <= J < nf (src s) -> usr (src s) J = true -> rmd (src s) J = false ->
                        top (fl (dst s)) J b = top (fl (src s)) J b;
  i2_keep : forall J, c <= J < nf (src s) -> 1 <= J -> usr (src s) J = true -> keeps (dst s) J;
  i2_E : forall i b, c < i < nf (src s) -> fl (dst s) i b <> None ->
                     fl (src s) i b <> None \/ fl (src s) (nf (src s)) b <> None
}.

Definition post_ev (e : ev) : Prop :=
  match e with
  | BothWrite _ _ | SrcHole _ _ | DstHole _ _ | UlmBegin | UlmPre | UlmMerge => True
  | _ => False
  end.

Lemma dst_reload_opened : forall d, dst_reload true d = opened (set_punch d true).
Proof. reflexivity. Qed.

Lemma reload_dinv : forall K d, dfiles_ok K d -> 1 <= nf d -> dinv K (dst_reload true d) [] UIdle.
Proof.
  intros K d (F1 & F2) Hnf. rewrite dst_reload_opened.
  constructor.
  - constructor; cbn [opened set_punch nf fl loc nblk]; [lia|intros b; left; reflexivity|assumption|assumption].
  - intros k Hk HF. cbn [opened nf ucs snapix] in *. apply last_true_ge; assumption.
  - apply pend_cov_nil.
  - intros f s' l [].
  - exact I.
Qed.

Lemma inv1_reload : forall K c n0 nb0 P s, inv1 K c n0 nb0 P s ->
  (forall i b, c < i < n0 -> b < nb0 -> P i b) ->
  inv2 K c (step true K s DstReload).
Proof.
  intros K c n0 nb0 P s I Hall. cbn [step].
  destruct I as [I_src I_shape I_nf I_nblk I_c I_rel0 I_wired I_dpend I_head I_usr I_files I_rel I_low].
  rewrite I_rel0, I_wired.
  pose proof (sv_wf _ _ _ I_src) as W. pose proof (wf_nf _ _ W) as Hnf.
  pose proof (reload_dinv K (dst s) I_files ltac:(lia)) as D. destruct I_files as (F1 & F2).
  set (d := dst s) in *.
  assert (Hrel : forall i b, c < i < nf (src s) -> agrees (src s) d i b).
  { intros i b Hi. destruct I_shape as (<- & <-).
    destruct (Nat.lt_ge_cases b (nblk (src s))) as [Hb|Hb]; [apply I_rel; auto|].
    left. rewrite (wf_ext _ _ W) by assumption. apply F1. rewrite I_nblk. assumption. }
  assert (Hfiles : forall J b, c <= J < nf (src s) ->
            (fl (src s) (nf (src s)) b = None \/ J <= snapix (src s)) -> top (fl d) J b = top (fl (src s)) J b).
  { intros J b HJ Hcase. apply (top_split _ _ c J b); [lia| |].
    - intros i Hi. destruct (Hrel i b ltac:(lia)) as [E|(_ & E2 & E3)]; [assumption|].
      destruct Hcase as [Hc|Hc]; [congruence|lia].
    - destruct (I_low b) as [L|(R1 & R2)]; [assumption|]. destruct Hcase as [Hc|Hc]; [congruence|lia]. }
  constructor; cbn [src dst spend dpend lowc wired reloaded uph drev]; rewrite ?dst_reload_opened; cbn [opened set_punch nf fl nblk usr rmd].
  - exact I_src.
  - rewrite I_dpend. exact D.
  - exact I_nf.
  - exact I_nblk.
  - exact I_c.
  - reflexivity.
  - exact I_head.
  - intros b. specialize (I_head b). specialize (Hfiles (nf (src s) - 1) b).
    destruct (nf (src s)) as [|n]; [lia|]. rewrite !top_S, I_head.
    destruct (fl (src s) (S n) b) as [v|] eqn:Eh; [reflexivity|].
    replace n with (S n - 1) by lia. apply Hfiles; [lia|left; reflexivity].
  - intros J b HJ Hu Hr. destruct (Nat.eq_dec J 0) as [->|N0]; [reflexivity|].
    apply Hfiles; [assumption|right]. apply (sv_prot _ _ _ I_src J); [lia|assumption|assumption].
  - intros J HJ H1 Hu. apply opened_keeps_user; cbn [set_punch nf usr]; [lia|now rewrite I_usr].
  - intros i b Hi Hext. destruct (Hrel i b Hi) as [E|(_ & E2 & _)]; [left; congruence|right; assumption].
Qed.

Lemma inv2_write : forall K c s off data, 0 < K -> inv2 K c s -> inv2 K c (step true K s (BothWrite off data)).
Proof.
  intros K c s off data HK I. cbn [step].
  destruct (Nat.ltb_spec (nblk (src s) * K) (off + length data)) as [Hout|Hin]; [exact I|].
  rewrite (i2_rel _ _ _ I). unfold src_write.
  destruct I as [I_src I_dst I_nf I_nblk I_c I_rel I_head I_live I_user I_keep I_E].
  pose proof (sinv_write K (src s) (spend s) data off HK I_src Hin) as HS.
  pose proof (dinv_write K (dst s) (dpend s) (uph s) data off HK I_dst ltac:(rewrite I_nblk; exact Hin)) as HD.
  assert (T : twin K (dst s) (src s)).
  { constructor; [apply I_dst|apply I_src|assumption| |]; intros b; rewrite I_nf; auto. }
  pose proof (twin_write_at K (dst s) (src s) data off HK T ltac:(rewrite I_nblk; exact Hin)) as T1.
  destruct (write_at true K (src s) data off) as [s1 hs]. destruct (write_at true K (dst s) data off) as [d1 hd].
  cbn [fst] in T1. destruct HS as (I1 & Ss). destruct HD as (D1 & Sd).
  destruct (st_meta _ _ _ _ Ss) as (M1 & M2 & M3 & M4 & M5 & M6 & M7 & M8).
  destruct (st_meta _ _ _ _ Sd) as (N1 & N2 & N3 & N4 & N5 & N6 & N7 & N8).
  constructor; cbn [set_src set_dst src dst spend dpend lowc wired reloaded uph drev];
    [exact I1|exact D1|congruence|congruence|congruence|assumption| | | | | ].
  - intros b. rewrite M1. rewrite <- I_nf at 1. rewrite <- N1. rewrite (tw_head _ _ _ T1). now rewrite M1.
  - intros b. rewrite M1. rewrite <- I_nf at 1. rewrite <- N1. rewrite (tw_top _ _ _ T1). now rewrite M1.
  - intros J b HJ Hu Hr. rewrite M1 in HJ. rewrite M3 in Hu. rewrite M4 in Hr.
    rewrite (stage_below _ _ _ _ J b Sd), (stage_below _ _ _ _ J b Ss) by lia.
    now apply I_user.
  - intros J HJ H1 Hu. rewrite M1 in HJ. rewrite M3 in Hu. apply (keeps_same (dst s) d1 N1 N5). now apply I_keep.
  - intros i b Hi Hext. rewrite M1 in Hi. rewrite M1. rewrite (st_other _ _ _ _ Sd) in Hext by lia.
    rewrite (st_other _ _ _ _ Ss) by lia.
    destruct (I_E i b Hi Hext) as [A|A]; [left; assumption|right; now apply (st_head _ _ _ _ Ss)].
Qed.

Lemma inv2_srchole : forall K c s k a, inv2 K c s -> inv2 K c (step true K s (SrcHole k a)).
Proof.
  intros K c s k a I. cbn [step]. destruct (take_hole (src s) (spend s) k a) as [s1 p1] eqn:Et.
  destruct (sinv_hole K _ _ _ _ _ _ (i2_src _ _ _ I) Et) as (I1 & M & Hlive & Hprot & Hhead & Hcases).
  destruct M as (M1 & M2 & M3 & M4 & M5 & M6 & M7 & M8).
  destruct I as [I_src I_dst I_nf I_nblk I_c I_rel I_head I_live I_user I_keep I_E].
  constructor; cbn [set_src src dst spend dpend lowc wired reloaded uph drev];
    [exact I1|exact I_dst|congruence|congruence|congruence|assumption| | | | | ].
  - intros b. rewrite M1, Hhead. apply I_head.
  - intros b. rewrite M1, Hlive. apply I_live.
  - intros J b HJ Hu Hr. rewrite M1 in HJ. rewrite M3 in Hu. rewrite M4 in Hr.
    destruct (Nat.eq_dec J 0) as [->|N0]; [reflexivity|].
    rewrite Hprot; [now apply I_user|]. apply (sv_prot _ _ _ I_src J); [lia|assumption|assumption].
  - intros J HJ H1 Hu. rewrite M1 in HJ. rewrite M3 in Hu. now apply I_keep.
  - intros i b Hi Hext. rewrite M1 in Hi. rewrite M1, Hhead.
    destruct (I_E i b Hi Hext) as [A|A]; [|right; assumption].
    destruct (Hcases i b) as [E|(_ & E2 & _)]; [left; congruence|right; assumption].
Qed.

Definition dst_quiet (e : ev) : Prop :=
  match e with DstHole _ _ | UlmBegin | UlmPre | UlmMerge => True | _ => False end.

Lemma dst_quiet_step : forall K s e, dst_quiet e -> reloaded s = true -> dinv K (dst s) (dpend s) (uph s) ->
  exists d1 p1 u1, step true K s e = mkrb (src s) (spend s) d1 p1 (lowc s) (wired s) true u1 (drev s) /\
    dinv K d1 p1 u1 /\ shrinks (dst s) d1.
Proof.
  intros K [sr sq ds dp lc wi rl up dr] e He Hr D.
  cbn [src spend dst dpend lowc wired reloaded uph drev] in *. subst rl.
  pose proof (shrinks_same ds ds (same_meta_refl ds) eq_refl) as Hs.
  assert (Hsame : exists d1 p1 u1, mkrb sr sq ds dp lc wi true up dr = mkrb sr sq d1 p1 lc wi true u1 dr /\
            dinv K d1 p1 u1 /\ shrinks ds d1) by (exists ds, dp, up; auto).
  destruct e as [off data|off data|i bs|k a|k a|rev| | | | |st rv]; cbn [dst_quiet] in He; try contradiction;
    cbn [step src spend dst dpend lowc wired reloaded uph drev].
  - destruct (take_hole ds dp k a) as [d1 p1] eqn:Et.
    destruct (dinv_hole K _ _ _ _ _ _ _ D Et) as (D1 & S1). exists d1, p1, up. auto.
  - destruct up; try exact Hsame. exists ds, dp, (UScan (scan0 ds)). auto using dinv_begin.
  - destruct up as [|sc|]; try exact Hsame. pose proof (dinv_pre K _ _ _ D) as H.
    destruct (scan_step ds sc) as [c1 hs]. exists ds, (dp ++ hs), (UScan c1). auto.
  - destruct up as [|sc|]; try exact Hsame. destruct (scan_done ds sc) eqn:Ed; [|exact Hsame].
    pose proof (dinv_merge K _ _ _ D Ed) as H.
    destruct (ulm_merge ds (pl (sp sc))) as [d1 hs]. destruct H as (D1 & Efl & M).
    exists d1, (dp ++ hs), UDone. auto using shrinks_same.
Qed.

Lemma inv2_quiet : forall K c s e, inv2 K c s -> dst_quiet e -> inv2 K c (step true K s e).
Proof.
  intros K c s e I He.
  destruct (dst_quiet_step K s e He (i2_rel _ _ _ I) (i2_dst _ _ _ I))
    as (d1 & p1 & u1 & -> & D1 & M & Htop & Hhead & Hcases).
  destruct M as (M1 & M2 & M3 & M4 & M5 & M6 & M7 & M8).
  destruct I as [I_src I_dst I_nf I_nblk I_c I_rel I_head I_live I_user I_keep I_E].
  constructor; cbn [src dst spend dpend lowc wired reloaded uph drev];
    [exact I_src|exact D1|congruence|congruence|assumption|reflexivity| | | | | ].
  - intros b. rewrite <- I_nf, Hhead, I_nf. apply I_head.
  - intros b. rewrite <- I_nf. rewrite Htop by (left; reflexivity). rewrite I_nf. apply I_live.
  - intros J b HJ Hu Hr. destruct (Nat.eq_dec J 0) as [->|N0]; [reflexivity|].
    rewrite Htop by (apply I_keep; auto; lia). now apply I_user.
  - intros J HJ H1 Hu. apply (keeps_same (dst s) d1 M1 M5). now apply I_keep.
  - intros i b Hi Hext. apply I_E; [assumption|]. destruct (Hcases i b) as [E|E]; congruence.
Qed.

Lemma inv2_step : forall K c s e, 0 < K -> inv2 K c s -> post_ev e -> inv2 K c (step true K s e).
Proof.
  intros K c s e HK I He.
  destruct e as [off data|off data|i bs|k a|k a|rev| | | | |st rv]; cbn [post_ev] in He; try contradiction;
    [now apply inv2_write|now apply inv2_srchole|..]; now apply inv2_quiet.
Qed.

(** ** from one step to a run *)
Definition copied_in (es : list ev) (i b : nat) : Prop := exists bs, In (Copy i bs) es /\ In b bs.

Lemma run_preserves : forall K (I : rb -> Prop) (P : ev -> Prop),
  (forall s e, I s -> P e -> I (step true K s e)) ->
  forall es s, I s -> Forall P es -> I (run true K s es).
Proof.
  intros K I P Hstep. induction es as [|e es IH]; intros s Hi Hall; [exact Hi|].
  inversion Hall as [|? ? He Hes]; subst. cbn [run]. apply IH; auto.
Qed.

Lemma run_copied : forall K (I : (nat -> nat -> Prop) -> rb -> Prop) (Pe : ev -> Prop),
  (forall (P Q : nat -> nat -> Prop) s, I P s -> (forall i b, Q i b -> P i b) -> I Q s) ->
  (forall P s e, I P s -> Pe e -> I (fun i b => P i b \/ copied e i b) (step true K s e)) ->
  forall es P s, I P s -> Forall Pe es -> I (fun i b => P i b \/ copied_in es i b) (run true K s es).
Proof.
  intros K I Pe Hmono Hstep. induction es as [|e es IH]; intros P s Hi Hall.
  - cbn [run]. apply (Hmono P); [exact Hi|]. intros i b [Hp|(bs & [] & _)]. exact Hp.
  - inversion Hall as [|? ? He Hes]; subst. cbn [run].
    apply (Hmono _ _ _ (IH _ _ (Hstep P s e Hi He) Hes)). intros i b [Hp|(bs & [E|Hin] & Hb)].
    + left. left. exact Hp.
    + left. right. subst e. cbn [copied]. auto.
    + right. exists bs. auto.
Qed.

(** ** C07, data half *)
(** the state at add time: both replicas have just taken the add-time snapshot (fresh, empty heads, no
    reclamation pending), the destination's files carry the source's member names, and THE TWO CHAINS AGREE
    AT THE SYNC POINT [c] (member [c] is the newest snapshot that is not copied: the destination's
    checkpoint, 0 for a new replica) *)
Record start_ok (K c : nat) (s : rb) : Prop := {
  so_src : inv K (src s);
  so_pend : spend s = [] /\ dpend s = [];
  so_nf : nf (dst s) = nf (src s);
  so_nblk : nblk (dst s) = nblk (src s);
  so_c : c < nf (src s);
  so_flags : reloaded s = false /\ wired s = true;
  so_heads : forall b, fl (src s) (nf (src s)) b = None /\ fl (dst s) (nf (src s)) b = None;
  so_usr : forall J, usr (dst s) J = usr (src s) J;
  so_files : dfiles_ok K (dst s);
  so_sync : forall b, top (fl (dst s)) c b = top (fl (src s)) c b
}.

Lemma start_inv1 : forall K c s, start_ok K c s -> inv1 K c (nf (src s)) (nblk (src s)) (fun _ _ => False) s.
Proof.
  intros K c s [A (B1 & B2) C D E (F1 & F2) G H I J].
  constructor; auto.
  - rewrite B1. now apply sinv_start.
  - intros b. destruct (G b) as (G1 & G2). congruence.
  - intros i b _ [].
  - intros b. left. apply J.
Qed.

Definition all_copied (c : nat) (s : rb) (es : list ev) : Prop :=
  forall i b, c < i < nf (src s) -> b < nblk (src s) -> copied_in es i b.

Lemma inv2_sound : forall K c s, 0 < K -> inv2 K c s ->
  let n := nf (src s) in
  nf (dst s) = n /\ nblk (dst s) = nblk (src s) /\
  image K (dst s) n = image K (src s) n /\
  (forall J, c <= J < n -> usr (src s) J = true -> rmd (src s) J = false ->
             image K (dst s) J = image K (src s) J) /\
  (forall J b, c <= J < n -> (forall i, J < i <= n -> fl (src s) i b = None) ->
               img K (fl (dst s)) J b = img K (fl (src s)) J b) /\
  wf K (dst s) /\ fst (read_all K (dst s)) = image K (src s) n.
Proof.
  intros K c s HK [I_src I_dst I_nf I_nblk I_c I_rel I_head I_live I_user I_keep I_E] n.
  fold n in I_nf, I_c, I_head, I_live, I_user, I_keep, I_E.
  pose proof (di_wf _ _ _ _ I_dst) as Wd.
  split; [assumption|]. split; [assumption|]. split; [|split; [|split; [|split; [assumption|]]]].
  - apply image_ext; [assumption|]. exact I_live.
  - intros J HJ Hu Hr. apply image_ext; [assumption|]. intros b. now apply I_user.
  - intros J b HJ Hno. unfold img.
    assert (Hh : fl (src s) n b = None) by (apply Hno; lia).
    assert (Hd : forall i, J < i <= n -> fl (dst s) i b = None).
    { intros i Hi. destruct (Nat.eq_dec i n) as [->|N]; [rewrite I_head; assumption|].
      destruct (fl (dst s) i b) eqn:Ex; [|reflexivity]. exfalso.
      destruct (I_E i b ltac:(lia) ltac:(congruence)) as [A|A]; [apply A; apply Hno; lia|contradiction]. }
    rewrite <- (top_none_above (fl (dst s)) J n b) by (try lia; exact Hd).
    rewrite <- (top_none_above (fl (src s)) J n b) by (try lia; exact Hno).
    now rewrite I_live.
  - rewrite (read_all_image K (dst s) HK Wd), I_nf. apply image_ext; [assumption|]. exact I_live.
Qed.

Lemma inv2_reached : forall K c s0 es1 es2, 0 < K ->
  start_ok K c s0 ->
  Forall (pre_ev K c) es1 -> all_copied c s0 es1 ->
  Forall post_ev es2 ->
  inv2 K c (run true K s0 (es1 ++ DstReload :: es2)).
Proof.
  intros K c s0 es1 es2 HK Hs H1 Hcp H2. rewrite run_app. cbn [run].
  apply (run_preserves K (inv2 K c) post_ev); [intros; now apply inv2_step| |assumption].
  apply (inv1_reload K c _ _ _ _ (run_copied K (inv1 K c _ _) (pre_ev K c) (inv1_mono K c _ _)
           (fun P s e I He => inv1_step K c _ _ P s e HK I He) es1 _ s0 (start_inv1 K c s0 Hs) H1)).
  intros i b Hi Hb. right. now apply Hcp.
Qed.

(** [dpend s = []]: what the scan had queued before it gave up has been applied or dropped *)
Lemma inv2_abort : forall K c s, inv2 K c s -> dpend s = [] -> inv2 K c (ulm_abort s).
Proof.
  intros K c s I Hp. destruct I as [I_src I_dst I_nf I_nblk I_c I_rel I_head I_live I_user I_keep I_E].
  constructor; cbn [ulm_abort set_uph src dst spend dpend lowc wired reloaded uph drev]; auto.
  rewrite Hp in *. destruct I_dst as [A B C M S].
  constructor; auto. intros f s' l [].
Qed.

Lemma ulm_abort_same : forall s, src (ulm_abort s) = src s /\ dst (ulm_abort s) = dst s /\ dpend (ulm_abort s) = dpend s.
Proof. intros s. cbn. auto. Qed.

(** ** C19, data half: CloneReplica *)
(** the source volume goes on (writes, reclamation) while the chain from S = member [sx] downward is copied;
    S is a retained user-created snapshot, hence never punched: members 1 .. [sx] stay what [s0] held *)
Record csrc (K sx : nat) (s0 : dd) (s : rb) : Prop := {
  cs_src : sinv K (src s) (spend s);
  cs_sx : 1 <= sx < nf (src s) /\ sx <= snapix (src s);
  cs_nblk : nblk (src s) = nblk s0;
  cs_const : forall i b, 1 <= i <= sx -> fl (src s) i b = fl s0 i b
}.

Lemma csrc_same : forall K sx s0 s s', src s' = src s -> spend s' = spend s -> csrc K sx s0 s -> csrc K sx s0 s'.
Proof. intros K sx s0 s s' E1 E2 [A B C D]. constructor; rewrite E1, ?E2; assumption. Qed.

Lemma csrc_step : forall K sx s0 s e, 0 < K -> src_only e -> csrc K sx s0 s -> csrc K sx s0 (step true K s e).
Proof.
  intros K sx s0 s e HK He [A (B1 & B2) C D].
  destruct (src_only_step K s e HK He A) as (s1 & p1 & -> & I1 & M & Hc).
  destruct M as (M1 & _ & _ & _ & _ & M6 & M7 & _).
  constructor; cbn [set_src src spend]; [assumption|split; congruence|congruence|].
  intros i b Hi. rewrite Hc by lia. now apply D.
Qed.

(** [P] as in [inv1]; [w]: UpdateCloneInfo has rewired the head *)
Record cinv1 (K sx : nat) (s0 : dd) (w : bool) (P : nat -> nat -> Prop) (s : rb) : Prop := {
  c1_src : csrc K sx s0 s;
  c1_nf : nf (dst s) = S sx;
  c1_nblk : nblk (dst s) = nblk s0;
  c1_flags : reloaded s = false /\ dpend s = [] /\ wired s = w;
  c1_head : forall b, fl (dst s) (S sx) b = None;
  c1_files : dfiles_ok K (dst s);
  c1_rel : forall i b, 1 <= i <= sx -> P i b -> fl (dst s) i b = fl s0 i b
}.

Definition clone_pre_ev (e : ev) : Prop :=
  match e with SrcWrite _ _ | SrcHole _ _ | Copy _ _ => True | _ => False end.

(** the same, and attempts of UpdateCloneInfo that fail (the task either stops -- then there is no Reload and
    nothing is claimed -- or tries again) *)
Definition clone_try_ev (e : ev) : Prop :=
  match e with SrcWrite _ _ | SrcHole _ _ | Copy _ _ | CloneInfoFail _ _ => True | _ => False end.

Lemma clone_pre_try : forall e, clone_pre_ev e -> clone_try_ev e.
Proof. intros e; destruct e; cbn; auto. Qed.

Lemma cinv1_mono : forall K sx s0 w (P Q : nat -> nat -> Prop) s, cinv1 K sx s0 w P s ->
  (forall i b, Q i b -> P i b) -> cinv1 K sx s0 w Q s.
Proof. intros K sx s0 w P Q s I H. destruct I. constructor; auto. Qed.

Lemma cinv1_src : forall K sx s0 w P s e, 0 < K -> src_only e -> cinv1 K sx s0 w P s ->
  cinv1 K sx s0 w P (step true K s e).
Proof.
  intros K sx s0 w P s e HK He [A B C D E F G]. pose proof (csrc_step K sx s0 s e HK He A) as A1.
  destruct (src_only_step K s e HK He (cs_src _ _ _ _ A)) as (s1 & p1 & Es & _). rewrite Es in *.
  constructor; assumption.
Qed.

Lemma cinv1_step : forall K sx s0 w P s e, 0 < K -> cinv1 K sx s0 w P s -> clone_try_ev e ->
  cinv1 K sx s0 w (fun i b => P i b \/ copied e i b) (step true K s e).
Proof.
  intros K sx s0 w P s e HK I He.
  destruct e as [off data|off data|i bs|k a|k a|rev| | | | |st rv]; cbn [clone_try_ev] in He; try contradiction.
  - apply (cinv1_mono K sx s0 w P); [now apply cinv1_src|intros i b [Hp|[]]; exact Hp].
  - (* Copy *)
    destruct I as [C_src C_nf C_nb (C_f1 & C_f2 & C_f3) C_head C_files C_rel].
    destruct (copy_step_cases K s i bs C_f1) as [(G & ->)|(G & ->)].
    + constructor; cbn [set_dst src dst spend dpend lowc wired reloaded uph drev]; auto.
      * apply (csrc_same K sx s0 s); auto.
      * intros b. cbn [copy_file fl]. rewrite fupd_neq by lia. apply C_head.
      * apply copy_files_ok; [apply C_src|rewrite (cs_nblk _ _ _ _ C_src); assumption|assumption].
      * intros i' b Hi HP.
        destruct (copy_file_cases (src s) (dst s) i bs i' b) as [(-> & _ & E)|(Hn & E)]; rewrite E;
          [now apply (cs_const _ _ _ _ C_src)|]. apply C_rel; [assumption|tauto].
    + constructor; auto. intros i' b Hi [Hp|(-> & _)]; [now apply C_rel|lia].
  - apply (cinv1_mono K sx s0 w P); [now apply cinv1_src|intros i b [Hp|[]]; exact Hp].
  - (* a failed UpdateCloneInfo touches the counter at most *)
    apply (cinv1_mono K sx s0 w P); [|intros i b [Hp|[]]; exact Hp]. cbn [step].
    destruct (reloaded s || (st =? 0)); [exact I|]. destruct I as [A B C D E F G].
    constructor; cbn [src dst spend dpend lowc wired reloaded uph drev]; auto. apply (csrc_same K sx s0 s); auto.
Qed.

Lemma cinv1_info : forall K sx s0 w P s rev, cinv1 K sx s0 w P s ->
  cinv1 K sx s0 true P (step true K s (CloneInfo rev)) /\ drev (step true K s (CloneInfo rev)) = rev.
Proof.
  intros K sx s0 w P s rev I. cbn [step].
  destruct I as [C_src C_nf C_nb (C_f1 & C_f2 & C_f3) C_head C_files C_rel]. rewrite C_f1.
  split; [|reflexivity]. constructor; cbn [src dst spend dpend lowc wired reloaded uph drev]; auto.
  apply (csrc_same K sx s0 s); auto.
Qed.

Record cinv2 (K sx : nat) (s0 : dd) (rev : N) (s : rb) : Prop := {
  c2_src : csrc K sx s0 s;
  c2_dst : dinv K (dst s) (dpend s) (uph s);
  c2_nf : nf (dst s) = S sx;
  c2_nblk : nblk (dst s) = nblk s0;
  c2_rel : reloaded s = true;
  c2_live : forall b, top (fl (dst s)) (S sx) b = top (fl s0) sx b;
  c2_rev : drev s = rev
}.

Definition clone_post_ev (e : ev) : Prop :=
  match e with
  | SrcWrite _ _ | SrcHole _ _ | DstHole _ _ | UlmBegin | UlmPre | UlmMerge => True
  | _ => False
  end.

Lemma cinv1_reload : forall K sx s0 P s, cinv1 K sx s0 true P s ->
  (forall i b, 1 <= i <= sx -> b < nblk s0 -> P i b) ->
  cinv2 K sx s0 (drev s) (step true K s DstReload).
Proof.
  intros K sx s0 P s I Hall. cbn [step].
  destruct I as [C_src C_nf C_nb (C_f1 & C_f2 & C_f3) C_head C_files C_rel].
  rewrite C_f1, C_f3.
  pose proof (reload_dinv K (dst s) C_files ltac:(lia)) as D. destruct C_files as (F1 & F2).
  constructor; cbn [src dst spend dpend lowc wired reloaded uph drev]; auto.
  - apply (csrc_same K sx s0 s); auto.
  - rewrite C_f2. exact D.
  - intros b. change (fl (dst_reload true (dst s))) with (fl (dst s)). rewrite top_S, C_head.
    apply top_ext. intros i Hi.
    destruct (Nat.lt_ge_cases b (nblk s0)) as [Hb|Hb]; [apply C_rel; auto|].
    rewrite F1 by (rewrite C_nb; assumption). rewrite <- (cs_const _ _ _ _ C_src) by assumption.
    symmetry. apply (wf_ext _ _ (sv_wf _ _ _ (cs_src _ _ _ _ C_src))). now rewrite (cs_nblk _ _ _ _ C_src).
Qed.

Lemma cinv2_step : forall K sx s0 rev s e, 0 < K -> cinv2 K sx s0 rev s -> clone_post_ev e ->
  cinv2 K sx s0 rev (step true K s e).
Proof.
  intros K sx s0 rev s e HK [A B C D E F G] He.
  assert (Hs : src_only e \/ dst_quiet e) by (destruct e; cbn in He |- *; auto). destruct Hs as [Hs|Hq].
  - pose proof (csrc_step K sx s0 s e HK Hs A) as A1.
    destruct (src_only_step K s e HK Hs (cs_src _ _ _ _ A)) as (s1 & p1 & Es & _). rewrite Es in *.
    constructor; assumption.
  - destruct (dst_quiet_step K s e Hq E B) as (d1 & p1 & u1 & -> & D1 & M & Htop & _).
    destruct M as (M1 & _ & _ & _ & _ & _ & M7 & _).
    constructor; cbn [src dst spend dpend lowc wired reloaded uph drev]; try congruence; auto.
    + apply (csrc_same K sx s0 s); auto.
    + intros b. rewrite <- C. rewrite Htop by (left; reflexivity). rewrite C. apply F.
Qed.

Lemma pre_drev : forall K s e, clone_pre_ev e -> drev (step true K s e) = drev s.
Proof.
  intros K s e He. destruct e; cbn [clone_pre_ev] in He; try contradiction; cbn [step].
  - destruct (nblk (src s) * K <? off + length data); [reflexivity|]. unfold src_write.
    destruct (write_at true K (src s) data off). reflexivity.
  - destruct (reloaded s || negb ((1 <=? i) && (i <? nf (dst s)))); reflexivity.
  - destruct (take_hole (src s) (spend s) k apply). reflexivity.
Qed.

(** the clone of snapshot S = member [sx] of a source in service: a fresh replica whose directory
    receives the chain from S downward *)
Record clone_start_ok (K sx : nat) (s : rb) : Prop := {
  co_src : inv K (src s);
  co_pend : spend s = [] /\ dpend s = [];
  co_sx : 1 <= sx < nf (src s) /\ usr (src s) sx = true /\ rmd (src s) sx = false;
  co_nf : nf (dst s) = S sx;
  co_nblk : nblk (dst s) = nblk (src s);
  co_flags : reloaded s = false;
  co_head : forall b, fl (dst s) (S sx) b = None;
  co_files : dfiles_ok K (dst s)
}.

Lemma cinv2_sound : forall K sx s0 rev s, 0 < K -> cinv2 K sx s0 rev s ->
  nf (dst s) = S sx /\
  image K (dst s) (S sx) = image K s0 sx /\
  image K (src s) sx = image K s0 sx /\
  wf K (dst s) /\ fst (read_all K (dst s)) = image K s0 sx /\
  drev s = rev.
Proof.
  intros K sx s0 rev s HK [C_src C_dst C_nf C_nb C_rel C_live C_rev].
  pose proof (di_wf _ _ _ _ C_dst) as Wd.
  split; [assumption|]. split; [|split; [|split; [assumption|split; [|assumption]]]].
  - apply image_ext; [assumption|]. exact C_live.
  - apply image_ext; [apply C_src|]. intros b. apply top_ext. intros i Hi. now apply (cs_const _ _ _ _ C_src).
  - rewrite (read_all_image K (dst s) HK Wd), C_nf. apply image_ext; [assumption|]. exact C_live.
Qed.

Lemma cinv2_reached : forall K sx s0 es1 es1' es2 rev, 0 < K ->
  clone_start_ok K sx s0 ->
  Forall clone_try_ev es1 -> Forall clone_pre_ev es1' ->
  (forall i b, 1 <= i <= sx -> b < nblk (src s0) -> copied_in (es1 ++ es1') i b) ->
  Forall clone_post_ev es2 ->
  cinv2 K sx (src s0) rev (run true K s0 (es1 ++ CloneInfo rev :: es1' ++ DstReload :: es2)).
Proof.
  intros K sx s0 es1 es1' es2 rev HK Hs H1 H1' Hcp H2.
  destruct Hs as [A (B1 & B2) (C1 & C2 & C3) D E F G H].
  assert (I0 : cinv1 K sx (src s0) (wired s0) (fun _ _ => False) s0).
  { constructor; auto.
    - constructor; auto.
      + rewrite B1. now apply sinv_start.
      + split; [assumption|]. apply (inv_prot _ _ A sx); [lia|assumption|assumption].
    - intros i b _ []. }
  assert (Hrun : forall w es P s', cinv1 K sx (src s0) w P s' -> Forall clone_try_ev es ->
            cinv1 K sx (src s0) w (fun i b => P i b \/ copied_in es i b) (run true K s' es)).
  { intros w. apply (run_copied K (cinv1 K sx (src s0) w) clone_try_ev); [apply cinv1_mono|].
    intros; now apply cinv1_step. }
  pose proof (Hrun _ es1 _ s0 I0 H1) as I1.
  set (s1 := run true K s0 es1) in *.
  destruct (cinv1_info K sx _ _ _ s1 rev I1) as (I2 & Erev).
  set (s2 := step true K s1 (CloneInfo rev)) in *.
  pose proof (Hrun _ es1' _ s2 I2 (Forall_impl _ clone_pre_try H1')) as I3.
  set (s3 := run true K s2 es1') in *.
  assert (Edrev : drev s3 = rev).
  { apply (run_preserves K (fun s => drev s = rev) clone_pre_ev); [|assumption|assumption].
    intros s' e <- He. now apply pre_drev. }
  assert (I4 : cinv2 K sx (src s0) rev (step true K s3 DstReload)).
  { rewrite <- Edrev. apply (cinv1_reload K sx _ _ s3 I3). intros i b Hi Hb.
    destruct (Hcp i b Hi Hb) as (bs & Hin & Hbs). apply in_app_or in Hin.
    destruct Hin as [Hin|Hin]; [left; right; exists bs; auto|right; exists bs; auto]. }
  rewrite run_app. cbn [run]. fold s1. fold s2. rewrite run_app. fold s3. cbn [run].
  apply (run_preserves K (cinv2 K sx (src s0) rev) clone_post_ev); [intros; now apply cinv2_step|assumption|assumption].
Qed.

(** ** outside the hypotheses: what the faithful model does (both replayed on the real code) *)
(** (1) [pre_ev] asks for block-aligned foreground writes before the Reload.  A write of two 512-byte
    sectors inside block 2, acknowledged while the new replica is still WO: the source completes the block
    from its own data, the destination from its own (empty) chain -- diffDisk.readModifyWrite does not know
    that the replica is being rebuilt.  Everything else is as the theorem wants it: fresh destination
    (sync point 0), the whole chain copied, Reload, UpdateLUNMap. *)
Definition rmw_case : rcase :=
  mkrcase 8 8 false false [Write 0 (repeat 1%N 32)] None [] 0%N
          [MBoth 17 (repeat 3%N 2); MCopy 1; MReload; MUlm []]
          [] (mkrside 0 0 [] [] [] [] 0) (mkrside 0 0 [] [] [] [] 0) true 0%N 0%N.

(** (2) [start_ok] asks that the two chains agree at the sync point.  The code does not guarantee it when
    the destination has diverged: a replica that wrote block 1 on its own (a write the source never got)
    punched that block out of the automatic snapshot below -- the block was overlaid by its head -- and
    the rebuild then replaces exactly the file that did the shadowing.  Snapshot 2 is the sync point; it is
    not copied. *)
Definition diverged_case : rcase :=
  mkrcase 8 4 false false [Write 8 (repeat 2%N 8); Snap 2%N false] (Some 2) [Write 8 (repeat 6%N 8)] 0%N
          [MCopy 2; MReload; MUlm []]
          [] (mkrside 0 0 [] [] [] [] 0) (mkrside 0 0 [] [] [] [] 0) true 0%N 0%N.

(** the same two cases with the offending ingredient removed satisfy the oracle (sanity of the witnesses) *)
Example rmw_case_aligned_ok :
  model_oracle true (mkrcase 8 8 false false [Write 0 (repeat 1%N 32)] None [] 0%N
                             [MBoth 16 (repeat 3%N 8); MCopy 1; MReload; MUlm []]
                             [] (mkrside 0 0 [] [] [] [] 0) (mkrside 0 0 [] [] [] [] 0) true 0%N 0%N) = true.
Proof. vm_compute. reflexivity. Qed.

Example diverged_case_in_sync_ok :
  model_oracle true (mkrcase 8 4 false false [Write 8 (repeat 2%N 8); Snap 2%N false] (Some 2) [] 0%N
                             [MCopy 2; MReload; MUlm []]
                             [] (mkrside 0 0 [] [] [] [] 0) (mkrside 0 0 [] [] [] [] 0) true 0%N 0%N) = true.
Proof. vm_compute. reflexivity. Qed.

(** ** the hypotheses are satisfiable: a new (empty) replica is added to any source *)
Definition fresh_dir (s : dd) : dd :=
  mkdd (nf s) (fun _ => fempty) (nm s) (usr s) (rmd s) (fun _ => false) 0 (fun _ => 0) (nblk s) false.

Lemma start_ok_fresh : forall K s, inv K s -> (forall b, fl s (nf s) b = None) ->
  start_ok K 0 (rebuild_init s (fresh_dir s) 0).
Proof.
  intros K s I Hh. pose proof (wf_nf _ _ (inv_wf _ _ I)) as Hnf.
  constructor; cbn [rebuild_init fresh_dir src dst spend dpend lowc wired reloaded uph drev nf nblk fl usr]; auto.
  - intros b. split; [apply Hh|]. now rewrite fupd_eq.
  - split; cbn [nblk fl].
    + intros j b _. unfold fupd. destruct (j =? nf s); reflexivity.
    + intros j b v. unfold fupd. destruct (j =? nf s); discriminate.
Qed.

(** a source with history: blocks 0-1 written, user snapshot 1, block 1 rewritten, the add-time snapshot *)
Definition ex_d1 : dd :=
  let w := write_at true 8 (init 4 true) (repeat 1%N 16) 0 in punched (fst w) (snd w) [].
Definition ex_d2 : dd := fst (snapshot ex_d1 1%N true).
Definition ex_d3 : dd := let w := write_at true 8 ex_d2 (repeat 2%N 8) 8 in punched (fst w) (snd w) [].
Definition ex_src : dd := fst (snapshot ex_d3 900%N false).

Lemma write_inv : forall K d data off ch, 0 < K -> inv K d -> off + length data <= nblk d * K ->
  inv K (punched (fst (write_at true K d data off)) (snd (write_at true K d data off)) ch).
Proof.
  intros K d data off ch HK I Hr. pose proof (write_at_spec K d data off HK (inv_wf _ _ I) Hr) as WS.
  destruct (write_at true K d data off) as [dw hs]. destruct WS as (S & _).
  destruct (stage_fin K d dw hs ch S) as (W2 & M & _). exact (inv_same K d _ W2 M I).
Qed.

Lemma ex_d3_ok : inv 8 ex_d3.
Proof.
  assert (I1 : inv 8 ex_d1) by (apply write_inv; [lia|apply inv_init|vm_compute; lia]).
  assert (I2 : inv 8 ex_d2) by (apply snapshot_inv; [exact I1|vm_compute; reflexivity]).
  apply write_inv; [lia|exact I2|vm_compute; lia].
Qed.

Lemma ex_src_ok : inv 8 ex_src /\ (forall b, fl ex_src (nf ex_src) b = None) /\ nf ex_src = 3 /\ nblk ex_src = 4.
Proof.
  pose proof ex_d3_ok as I3.
  assert (E4 : snd (snapshot ex_d3 900%N false) = ROk) by (vm_compute; reflexivity).
  split; [now apply snapshot_inv|]. split; [now apply snapshot_head_empty|]. split; vm_compute; reflexivity.
Qed.

Definition ex_s0 : rb := rebuild_init ex_src (fresh_dir ex_src) 0.
Definition ex_es1 : list ev :=
  [BothWrite 0 (repeat 7%N 8); Copy 1 (seq 0 4); SrcHole 0 true; BothWrite 8 (repeat 8%N 16); Copy 2 (seq 0 4)].
Definition ex_es2 : list ev :=
  [BothWrite 3 (repeat 9%N 2); UlmBegin; UlmPre; UlmPre; BothWrite 16 (repeat 5%N 8); DstHole 0 true]
  ++ repeat UlmPre 15 ++ [UlmMerge; BothWrite 25 (repeat 6%N 3); SrcHole 0 false; DstHole 0 true].

(** a user-created snapshot above the sync point, writes on both sides of the Reload (unaligned after it), a
    write in the middle of the preload, holes applied and dropped: the theorem's hypotheses hold, the merge
    ran, and the volume is not empty *)
Example rebuild_hypotheses_satisfiable :
  start_ok 8 0 ex_s0 /\ Forall (pre_ev 8 0) ex_es1 /\ all_copied 0 ex_s0 ex_es1 /\ Forall post_ev ex_es2 /\
  usr (src ex_s0) 1 = true /\
  let s := run true 8 ex_s0 (ex_es1 ++ DstReload :: ex_es2) in
  uph s = UDone /\ image 8 (src s) 3 = [7;7;7;9;9;7;7;7; 8;8;8;8;8;8;8;8; 5;5;5;5;5;5;5;5; 0;6;6;6;0;0;0;0]%N.
Proof.
  destruct ex_src_ok as (I & Hh & En & Eb).
  split; [now apply start_ok_fresh|]. split.
  { repeat constructor; vm_compute; auto. }
  split.
  { intros i b Hi Hb. cbn [ex_s0 rebuild_init src] in Hi, Hb. rewrite En in Hi. rewrite Eb in Hb.
    assert (Hi' : i = 1 \/ i = 2) by lia.
    destruct Hi' as [-> | ->]; [exists (seq 0 4)|exists (seq 0 4)]; (split; [cbn; tauto|apply in_seq; lia]). }
  split; [repeat constructor|]. split; vm_compute; auto.
Qed.

Lemma clone_start_ok_init : forall K s sx, inv K s -> 1 <= sx < nf s -> usr s sx = true -> rmd s sx = false ->
  clone_start_ok K sx (clone_init s sx).
Proof.
  intros K s sx I Hsx Hu Hr.
  constructor; cbn [clone_init src dst spend dpend lowc wired reloaded uph drev nf nblk fl]; auto.
  split; cbn [nblk fl]; [reflexivity|discriminate].
Qed.

(** the source of the example above one step earlier (user snapshot 1 taken, block 1 rewritten since), cloned
    while it keeps taking writes *)
Example clone_hypotheses_satisfiable :
  let s0 := clone_init ex_d3 1 in
  let es1 := [Copy 1 (seq 0 2); SrcWrite 4 (repeat 3%N 8)] in
  let es1' := [SrcHole 0 true; Copy 1 (seq 2 2)] in
  let es2 := UlmBegin :: repeat UlmPre 10 ++ [SrcWrite 0 (repeat 4%N 32); UlmMerge; DstHole 0 true] in
  clone_start_ok 8 1 s0 /\ Forall clone_pre_ev es1 /\ Forall clone_pre_ev es1' /\
  (forall i b, 1 <= i <= 1 -> b < nblk (src s0) -> copied_in (es1 ++ es1') i b) /\ Forall clone_post_ev es2 /\
  let s := run true 8 s0 (es1 ++ CloneInfo 7%N :: es1' ++ DstReload :: es2) in
  uph s = UDone /\ image 8 (dst s) 2 = (repeat 1%N 16 ++ repeat 0%N 16)%list /\
  image 8 (src s) (nf (src s)) = repeat 4%N 32.
Proof.
  cbv zeta. split; [apply clone_start_ok_init; [exact ex_d3_ok|vm_compute; lia|vm_compute; reflexivity|vm_compute; reflexivity]|].
  split; [repeat constructor|]. split; [repeat constructor|]. split.
  { intros i b Hi Hb. assert (i = 1) by lia. subst i.
    assert (Eb : nblk (src (clone_init ex_d3 1)) = 4) by (vm_compute; reflexivity). rewrite Eb in Hb.
    destruct (Nat.lt_ge_cases b 2); [exists (seq 0 2)|exists (seq 2 2)]; (split; [cbn; tauto|apply in_seq; lia]). }
  split; [repeat constructor|]. vm_compute. auto.
Qed.
