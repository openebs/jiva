(** * Rebuild: lemmas about one replica under ASYNCHRONOUS hole punching and under UpdateLUNMap in phases.

    Block.ProofsPreload treats preload / UpdateLUNMap as atomic and applies holes at the end of the
    operation that sent them.  Here a hole may be applied at any later time, between any two steps of
    the preload that UpdateLUNMap runs on its copy, with foreground writes in between.  What keeps the
    images intact is a property of every QUEUED hole that is stable under everything that can happen
    before it is applied: [hole_cov]. *)
From Coq Require Import List Arith Bool NArith Lia.
From Jiva Require Import Block.Model Block.Lemmas Block.ProofsWrite Block.ProofsUnit
     Block.ProofsOps Block.ProofsPreload Block.Rebuild.
Import ListNotations.

Lemma top_head_none : forall fls n b, fls (S n) b = None -> top fls (S n) b = top fls n b.
Proof. intros fls n b H. rewrite top_S, H. reflexivity. Qed.

(** ** one hole taken from the queue *)
Lemma In_drop_nth : forall A (l : list A) k x, In x (drop_nth k l) -> In x l.
Proof.
  induction l as [|y l IH]; intros k x H; [destruct k; exact H|].
  destruct k as [|k]; cbn in H; [right; exact H|].
  destruct H as [->|H]; [left; reflexivity|right; eapply IH; eauto].
Qed.

Definition apply1 (d : dd) (h : hole) : dd := set_fl d (apply_hole (fl d) h).

Lemma apply1_punched : forall d h, apply1 d h = punched d [h] [true].
Proof. reflexivity. Qed.

Lemma apply1_meta : forall d h, same_meta d (apply1 d h).
Proof. intros; repeat split. Qed.

Lemma apply1_cases : forall d h f b,
  fl (apply1 d h) f b = fl d f b \/ (fl (apply1 d h) f b = None /\ covers h f b).
Proof. intros. apply apply_hole_cases. Qed.

Lemma take_hole_cases : forall d pend k a d1 p1, take_hole d pend k a = (d1, p1) ->
  (d1 = d /\ (forall h, In h p1 -> In h pend)) \/
  (exists h, In h pend /\ d1 = apply1 d h /\ (forall x, In x p1 -> In x pend)).
Proof.
  intros d pend k a d1 p1 H. unfold take_hole in H.
  destruct (nth_error pend k) as [h|] eqn:E.
  - inversion H; subst. destruct a.
    + right. exists h. split; [eapply nth_error_In; eauto|]. split; [reflexivity|].
      intros x Hx. eapply In_drop_nth; eauto.
    + left. split; [reflexivity|]. intros x Hx. eapply In_drop_nth; eauto.
  - inversion H; subst. left. auto.
Qed.

(** ** holes whose every block stays overlaid, whatever happens until they are applied *)
Definition blkcov (d : dd) (f y : nat) : Prop :=
  exists i, f < i <= nf d /\ fl d i y <> None /\ forall J, f <= J < i -> ~ keeps d J.

Definition hole_cov (d : dd) (h : hole) : Prop :=
  let '(f, s, l) := h in 1 <= f /\ forall y, s <= y < s + l -> blkcov d f y.

Definition pend_cov (d : dd) (hs : list hole) : Prop := forall h, In h hs -> hole_cov d h.

Lemma pend_cov_app : forall d a b, pend_cov d a -> pend_cov d b -> pend_cov d (a ++ b).
Proof. intros d a b Ha Hb h Hin. apply in_app_or in Hin. destruct Hin; auto. Qed.

Lemma pend_cov_nil : forall d, pend_cov d [].
Proof. intros d h []. Qed.

Lemma hole_cov_overlaid : forall d h J, hole_cov d h -> keeps d J -> overlaid d J [h].
Proof.
  intros d h J Hh HK f s l b [->|[]] Hb HfJ. destruct Hh as (_ & Hc).
  destruct (Hc b Hb) as (i & Hi & Hext & Hno). exists i. split; [|assumption].
  destruct (Nat.le_gt_cases i J); [lia|]. exfalso. apply (Hno J); [lia|assumption].
Qed.

Lemma apply1_top : forall d h J b, hole_cov d h -> keeps d J ->
  top (fl (apply1 d h)) J b = top (fl d) J b.
Proof. intros d h J b Hh HK. rewrite apply1_punched. apply punched_top. now apply hole_cov_overlaid. Qed.

Lemma keeps_same : forall d d', nf d' = nf d -> ucs d' = ucs d -> forall J, keeps d' J <-> keeps d J.
Proof. intros d d' E1 E2 J. unfold keeps. rewrite E1, E2. tauto. Qed.

Lemma hole_cov_mono : forall d d' h, (forall f y, blkcov d f y -> blkcov d' f y) -> hole_cov d h -> hole_cov d' h.
Proof. intros d d' [[f s] l] H (Hf & Hc). split; [assumption|]. intros y Hy. apply H. now apply Hc. Qed.

(** [blkcov] survives the application of another covered hole: the witness moves up *)
Lemma blkcov_apply1 : forall d h f y, hole_cov d h -> blkcov d f y -> blkcov (apply1 d h) f y.
Proof.
  intros d [[g s] l] f y (Hg & Hc) (i & Hi & Hext & Hno).
  destruct (apply1_cases d (g, s, l) i y) as [H|[_ (-> & Hy)]].
  - exists i. split; [exact Hi|]. split; [rewrite H; exact Hext|]. exact Hno.
  - destruct (Hc y Hy) as (i' & Hi' & Hext' & Hno').
    exists i'. split; [cbn [apply1 nf set_fl]; lia|]. split.
    + destruct (apply1_cases d (i, s, l) i' y) as [H|[_ (E & _)]]; [rewrite H; exact Hext'|lia].
    + intros J HJ. destruct (Nat.lt_ge_cases J i); [apply Hno; lia|apply Hno'; lia].
Qed.

Definition grows (d d' : dd) : Prop :=
  nf d' = nf d /\ ucs d' = ucs d /\ (forall j b, j <> nf d -> fl d' j b = fl d j b) /\
  (forall b, fl d (nf d) b <> None -> fl d' (nf d) b <> None).

Lemma blkcov_grows : forall d d' f y, grows d d' -> blkcov d f y -> blkcov d' f y.
Proof.
  intros d d' f y (E1 & E2 & Ho & Hh) (i & Hi & Hext & Hno).
  exists i. split; [lia|]. split.
  - destruct (Nat.eq_dec i (nf d)) as [->|N]; [now apply Hh|rewrite Ho; assumption].
  - intros J HJ HK. apply (Hno J HJ). now apply (keeps_same d d' E1 E2).
Qed.

Lemma stage_grows : forall K d d1 hs, stage K d d1 hs -> grows d d1.
Proof.
  intros K d d1 hs S.
  split; [exact (sm_nf _ _ (st_meta _ _ _ _ S))|]. split; [exact (sm_ucs _ _ (st_meta _ _ _ _ S))|]. split; apply S.
Qed.

Lemma apply1_wf : forall K d h, wf K d -> hole_cov d h -> wf K (apply1 d h).
Proof.
  intros K d h W Hh. rewrite apply1_punched. apply punched_wf_overlaid; [exact W|].
  apply hole_cov_overlaid; [exact Hh|]. now left.
Qed.

Lemma apply1_head : forall d h b, hole_cov d h -> fl (apply1 d h) (nf d) b = fl d (nf d) b.
Proof.
  intros d [[f s] l] b (Hf & Hc).
  destruct (apply1_cases d (f, s, l) (nf d) b) as [H|[_ (E & Hb)]]; [assumption|].
  destruct (Hc b Hb) as (i & Hi & _). lia.
Qed.

(** ** the holes a write sends are covered (the flags say where the user-created snapshots are) *)
Definition ucs_le_snapix (d : dd) : Prop := forall k, k <= nf d -> ucs d k = true -> k <= snapix d.

Lemma sound_cov : forall d hs, ucs_le_snapix d -> hs_sound d hs -> pend_cov d hs.
Proof.
  intros d hs Hu Hs [[f s] l] Hin. destruct (Hs f s l Hin) as (A & B).
  split; [lia|]. intros y Hy. exists (nf d). split; [lia|]. split; [now apply B|].
  apply (no_keeps_between d f (nf d) (snapix d)); [lia| |lia]. intros J HJ. now apply Hu.
Qed.

Lemma ucs_le_snapix_meta : forall d d', same_meta d d' -> ucs_le_snapix d -> ucs_le_snapix d'.
Proof.
  intros d d' M H k Hk HF. rewrite (sm_nf _ _ M) in Hk. rewrite (sm_ucs _ _ M) in HF. rewrite (sm_snapix _ _ M).
  now apply H.
Qed.

(** ** what a write does to the block map and to the head, block by block *)
Definition headed (d : dd) (y : nat) : Prop :=
  loc d y = nf d /\ loc d y <> 0 /\ fl d (nf d) y <> None.

Definition wrel (d d1 : dd) (hs : list hole) : Prop :=
  nf d1 = nf d /\
  (forall y, (fl d1 (nf d) y = fl d (nf d) y /\ (loc d1 y = loc d y \/ loc d y = 0)) \/ headed d1 y) /\
  (forall f s l, In (f, s, l) hs -> forall y, s <= y < s + l -> headed d1 y).

Lemma wrel_headed : forall d d1 hs y, wrel d d1 hs -> headed d y -> headed d1 y.
Proof.
  intros d d1 hs y (E & R & _) (A & B & C). destruct (R y) as [(F & [L|L])|H]; [| congruence |exact H].
  unfold headed. rewrite E, F, L. auto.
Qed.

Lemma wrel_lifts : forall K, lifts K wrel.
Proof.
  intros K. constructor.
  - intros d0 _. split; [reflexivity|]. split; [intros y; left; auto|intros f s l []].
  - intros d0 d1 d2 h1 h2 R1 R2. pose proof R1 as (E1 & A1 & H1). pose proof R2 as (E2 & A2 & H2).
    split; [congruence|]. split.
    + intros y. destruct (A1 y) as [(F1 & L1)|Hd]; [|right; eapply wrel_headed; eauto].
      rewrite E1 in A2. destruct (A2 y) as [(F2 & L2)|Hd]; [|right; exact Hd].
      left. split; [congruence|]. destruct L1 as [L1|L1]; destruct L2 as [L2|L2]; try (left; congruence); right; congruence.
    + intros f s l Hin y Hy. apply in_app_or in Hin. destruct Hin as [Hin|Hin].
      * eapply wrel_headed; eauto.
      * eapply H2; eauto.
  - intros d0 d' W0 M. split; [exact (memo_nf _ _ M)|]. split; [|intros f s l []].
    intros y. left. rewrite (memo_fl _ _ M). split; [reflexivity|exact (memo_loc _ _ y M)].
  - intros d0 s bl d1 h W0 Hrange Hl P. pose proof (sm_nf _ _ (fw_meta _ _ _ _ _ P)) as E1.
    assert (Hin : forall y, s <= y < s + length bl -> headed d1 y).
    { intros y Hy. unfold headed. rewrite E1, (fw_loc _ _ _ _ _ P), (fw_head _ _ _ _ _ P).
      destruct (in_range_spec s (length bl) y); [|contradiction].
      pose proof (wf_nf _ _ W0). split; [reflexivity|]. split; [lia|discriminate]. }
    split; [assumption|]. split.
    + intros y. pose proof (fw_loc _ _ _ _ _ P y) as El. pose proof (fw_head _ _ _ _ _ P y) as Eh.
      destruct (in_range_spec s (length bl) y); [right; now apply Hin|left; auto].
    + intros f s' l Hh y Hy. apply Hin. destruct (fw_holes _ _ _ _ _ P f s' l Hh) as (_ & A & B). lia.
Qed.

Lemma write_at_wrel : forall K d data off, 0 < K -> wf K d -> off + length data <= nblk d * K ->
  let '(d1, h) := write_at true K d data off in wrel d d1 h /\ stage K d d1 h.
Proof.
  intros K d data off HK W Hr. pose proof (write_at_lift K _ d data off (wrel_lifts K) HK W Hr) as R.
  pose proof (write_at_lift K _ d data off (stage_lifts K) HK W Hr) as S.
  destruct (write_at true K d data off). auto.
Qed.

(** ** two replicas whose heads and live images agree stay so under the same write *)
Record twin (K : nat) (d e : dd) : Prop := {
  tw_d : wf K d; tw_e : wf K e; tw_nblk : nblk d = nblk e;
  tw_head : forall b, fl d (nf d) b = fl e (nf e) b;
  tw_top : forall b, top (fl d) (nf d) b = top (fl e) (nf e) b
}.

Lemma twin_memo : forall K d e d' e', twin K d e -> memo d d' -> memo e e' -> twin K d' e'.
Proof.
  intros K d e d' e' T Md Me.
  constructor.
  - exact (memo_wf K _ _ Md (tw_d _ _ _ T)).
  - exact (memo_wf K _ _ Me (tw_e _ _ _ T)).
  - rewrite (memo_nblk _ _ Md), (memo_nblk _ _ Me). apply T.
  - intros b. rewrite (memo_nf _ _ Md), (memo_fl _ _ Md), (memo_nf _ _ Me), (memo_fl _ _ Me). apply T.
  - intros b. rewrite (memo_nf _ _ Md), (memo_fl _ _ Md), (memo_nf _ _ Me), (memo_fl _ _ Me). apply T.
Qed.

Lemma twin_fw : forall K d e s bl d1 h1 e1 h2, twin K d e ->
  s + length bl <= nblk d -> (forall v, In v bl -> length v = K) ->
  fw_post d s bl d1 h1 -> fw_post e s bl e1 h2 -> twin K d1 e1.
Proof.
  intros K d e s bl d1 h1 e1 h2 T Hr Hl P1 P2.
  pose proof (sm_nf _ _ (fw_meta _ _ _ _ _ P1)) as E1. pose proof (sm_nblk _ _ (fw_meta _ _ _ _ _ P1)) as N1.
  pose proof (sm_nf _ _ (fw_meta _ _ _ _ _ P2)) as E2. pose proof (sm_nblk _ _ (fw_meta _ _ _ _ _ P2)) as N2.
  constructor.
  - apply (fw_post_wf K d s bl d1 h1); [apply T|exact Hr|exact Hl|exact P1].
  - apply (fw_post_wf K e s bl e1 h2); [apply T|rewrite <- (tw_nblk _ _ _ T); exact Hr|exact Hl|exact P2].
  - rewrite N1, N2. apply T.
  - intros b. rewrite E1, E2, (fw_head _ _ _ _ _ P1), (fw_head _ _ _ _ _ P2), (tw_head _ _ _ T). reflexivity.
  - intros b. rewrite E1, E2.
    rewrite (fw_top _ _ _ _ _ b (wf_nf _ _ (tw_d _ _ _ T)) P1), (fw_top _ _ _ _ _ b (wf_nf _ _ (tw_e _ _ _ T)) P2).
    rewrite (tw_top _ _ _ T). reflexivity.
Qed.

Lemma twin_prim : forall K d e p, twin K d e -> prim_ok K (nblk d) p ->
  twin K (fst (exec_prim K d p)) (fst (exec_prim K e p)).
Proof.
  intros K d e p T Hp.
  assert (Ef : prim_fw K e p = prim_fw K d p).
  { destruct p as [[|x buf] off|s bl]; cbn [prim_fw]; try reflexivity. unfold img. now rewrite (tw_top _ _ _ T). }
  destruct (exec_prim_fw K d p (tw_d _ _ _ T) Hp) as (d' & Md & Hd).
  destruct (exec_prim_fw K e p (tw_e _ _ _ T) ltac:(rewrite <- (tw_nblk _ _ _ T); exact Hp)) as (e' & Me & He).
  rewrite Ef in He. destruct (prim_fw K d p) as [s bl].
  destruct (exec_prim K d p) as [d1 h1]. destruct (exec_prim K e p) as [e1 h2].
  destruct Hd as (Hr & Hl & P1). destruct He as (_ & _ & P2). cbn [fst].
  apply (twin_fw K d' e' s bl d1 h1 e1 h2 (twin_memo K d e d' e' T Md Me)); auto.
  rewrite (memo_nblk _ _ Md). exact Hr.
Qed.

Lemma twin_plan : forall K ps d e, twin K d e -> Forall (prim_ok K (nblk d)) ps ->
  twin K (fst (exec_plan K d ps)) (fst (exec_plan K e ps)).
Proof.
  intros K. induction ps as [|p ps IH]; intros d e T Hok; [exact T|].
  inversion Hok as [|? ? Hp Hps]; subst. cbn [exec_plan].
  pose proof (twin_prim K d e p T Hp) as T1.
  pose proof (exec_prim_lift K _ d p (stage_lifts K) (tw_d _ _ _ T) Hp) as S.
  destruct (exec_prim K d p) as [d1 h1]. destruct (exec_prim K e p) as [e1 h2]. cbn [fst] in T1.
  specialize (IH d1 e1 T1). rewrite (sm_nblk _ _ (st_meta _ _ _ _ S)) in IH. specialize (IH Hps).
  destruct (exec_plan K d1 ps) as [d2 h3]. destruct (exec_plan K e1 ps) as [e2 h4]. exact IH.
Qed.

Lemma twin_write_at : forall K d e data off, 0 < K -> twin K d e -> off + length data <= nblk d * K ->
  twin K (fst (write_at true K d data off)) (fst (write_at true K e data off)).
Proof.
  intros K d e data off HK T Hr. rewrite !write_at_plan. apply twin_plan; [exact T|]. now apply plan_spec.
Qed.

(** ** PreloadLunMap on the copy, step by step, with everything else going on *)
Definition lim (c : scan) (y : nat) : nat := if y <? sb c then si c else si c - 1.

Record scan_inv (d : dd) (c : scan) : Prop := {
  sc_i : 1 <= si c <= S (nf d);
  sc_b : sb c <= nblk d;
  sc_done : si c = S (nf d) -> sb c = 0;
  sc_ucsi : forall J, J <= si c -> ucs d J = true -> J <= sucsi c;
  sc_holes : pholes (sp c) = [];
  sc_pl : forall y, pl (sp c) y <= lim c y;
  sc_run : match pfile (sp c) with
           | None => True
           | Some f => f = pfidx (sp c) /\ 1 <= f < si c /\ si c <= nf d /\
                       forall y, poff (sp c) <= y < poff (sp c) + plen (sp c) ->
                                 pl (sp c) y = si c /\ (sucsi c < f -> blkcov d f y)
           end
}.

(** the table being built is exact for what was scanned, except where the live table already knows
    that the block is in the head *)
Definition scan_map (d : dd) (c : scan) : Prop :=
  forall y, headed d y \/ pl (sp c) y = tix (fl d) (lim c y) y.

(** a queued hole never removes the extent the table under construction points at *)
Definition pend_map (d : dd) (tbl : nat -> nat) (hs : list hole) : Prop :=
  forall f s l, In (f, s, l) hs -> forall y, s <= y < s + l -> headed d y \/ f < tbl y.

Lemma pend_map_app : forall d tbl a b, pend_map d tbl a -> pend_map d tbl b -> pend_map d tbl (a ++ b).
Proof. intros d tbl a b Ha Hb f s l Hin. apply in_app_or in Hin. destruct Hin; eauto. Qed.

(** how far the scan has looked at a block: one step at [b] moves block [b] from file [i - 1] to file [i] *)
Lemma lim_block : forall i b u q q' y,
  lim (mkscan i (S b) u q) y = if y =? b then i else lim (mkscan i b u q') y.
Proof.
  intros. unfold lim. cbn [sb si].
  destruct (Nat.eqb_spec y b); destruct (Nat.ltb_spec y (S b)); destruct (Nat.ltb_spec y b); try reflexivity; lia.
Qed.

Lemma lim_at : forall i b u q, lim (mkscan i b u q) b = i - 1.
Proof. intros. unfold lim. cbn [sb si]. destruct (Nat.ltb_spec b b); [lia|reflexivity]. Qed.

(** the atomic preload has its own, simpler analysis of the same [pre_block] ([ProofsPreload.pre_block_spec]): a
    change of [pre_block] touches both *)
Lemma scan_step_spec : forall K d c pend, wf K d -> scan_inv d c -> scan_map d c ->
  pend_map d (pl (sp c)) pend ->
  let '(c1, hs) := scan_step d c in
  scan_inv d c1 /\ pend_cov d hs /\ scan_map d c1 /\ pend_map d (pl (sp c1)) (pend ++ hs).
Proof.
  intros K d c pend W SI SM PM. unfold scan_step, scan_done.
  destruct (Nat.ltb_spec (nf d) (si c)) as [Hdone|Hlive].
  { rewrite app_nil_r. split; [assumption|]. split; [apply pend_cov_nil|]. split; assumption. }
  destruct c as [i b u p]. cbn [si sb sucsi sp] in *.
  pose proof (sc_i _ _ SI) as Hi. pose proof (sc_b _ _ SI) as Hb. pose proof (sc_ucsi _ _ SI) as Hu.
  pose proof (sc_holes _ _ SI) as Hh. pose proof (sc_pl _ _ SI) as Hpl. pose proof (sc_run _ _ SI) as Hrun.
  cbn [si sb sucsi sp] in *.
  assert (Hnok : forall f, u < f -> forall J, f <= J < i -> ~ keeps d J).
  { intros f Hf. apply (no_keeps_between d f i u); auto. }
  (* the hole for the run that is being closed, when it is sent *)
  assert (Hemit : forall tbl, (forall y, tbl y = pl p y \/ tbl y = i) ->
            pend_cov d (if can_punch (pfile p) (pfidx p) u (punch d)
                        then pholes p ++ [(match pfile p with Some f => f | None => 0 end, poff p, plen p)]
                        else pholes p) /\
            pend_map d tbl (if can_punch (pfile p) (pfidx p) u (punch d)
                        then pholes p ++ [(match pfile p with Some f => f | None => 0 end, poff p, plen p)]
                        else pholes p)).
  { intros tbl Htbl. rewrite Hh. destruct (can_punch (pfile p) (pfidx p) u (punch d)) eqn:Ec.
    - apply can_punch_true in Ec. destruct Ec as (f & Ef & Hlt). rewrite Ef in *.
      destruct Hrun as (-> & Hf & Hin & Hr). cbn [app]. split.
      + intros h [<-|[]]. split; [lia|]. intros y Hy. now apply (Hr y Hy).
      + intros f' s l [E|[]] y Hy. inversion E; subst. right.
        destruct (Hr y Hy) as (Ey & _). destruct (Htbl y) as [T|T]; rewrite T; lia.
    - split; [apply pend_cov_nil|intros f s l []]. }
  destruct (Nat.ltb_spec b (nblk d)) as [Hblk|Hend].
  - (* one block of file i *)
    assert (Hcur : pl p b <= i - 1) by (rewrite <- (lim_at i b u p); apply Hpl).
    pose proof (tix_at (fl d) i b ltac:(lia)) as Hti.
    unfold pre_block. destruct (fl d i b) as [v|] eqn:Ext.
    + (* the block has an extent in file i: whatever happens to the run, the table now says [i] at [b] *)
      assert (Hstep : forall q hs, pl q = fupd (pl p) b i -> pholes q = [] ->
                match pfile q with
                | None => True
                | Some f => f = pfidx q /\ 1 <= f < i /\ i <= nf d /\
                            forall y, poff q <= y < poff q + plen q -> pl q y = i /\ (u < f -> blkcov d f y)
                end ->
                pend_cov d hs -> pend_map d (pl q) hs ->
                scan_inv d (mkscan i (S b) u q) /\ pend_cov d hs /\ scan_map d (mkscan i (S b) u q) /\
                pend_map d (pl q) (pend ++ hs)).
      { intros q hs Eq Hq Hr Hc Hm. split; [|split; [exact Hc|split]].
        - constructor; cbn [si sb sucsi sp]; auto; try lia.
          intros y. rewrite (lim_block i b u q p), Eq. unfold fupd. destruct (y =? b); [lia|apply Hpl].
        - intros y. cbn [sp]. rewrite (lim_block i b u q p), Eq. unfold fupd.
          destruct (Nat.eqb_spec y b) as [->|Hy]; [right; symmetry; exact Hti|apply SM].
        - apply pend_map_app; [|exact Hm]. rewrite Eq.
          intros f s l Hin y Hy. destruct (PM f s l Hin y Hy) as [A|A]; [left; exact A|right].
          unfold fupd. destruct (Nat.eqb_spec y b) as [->|Hyb]; lia. }
      assert (Hcov : forall f, 1 <= f -> f <= i - 1 -> u < f -> blkcov d f b).
      { intros f Hf1 Hf2 Huf. exists i. split; [lia|]. split; [congruence|]. now apply Hnok. }
      destruct (Nat.eqb_spec (pl p b) 0) as [E0|N0].
      * (* first owner seen *)
        rewrite Hh. apply Hstep; cbn [sp pl pfile pfidx plen poff pholes]; auto using pend_cov_nil; [|intros f s l []].
        destruct (pfile p) as [f|]; [|exact I]. destruct Hrun as (-> & Hf & Hin & Hr).
        split; [reflexivity|]. split; [assumption|]. split; [assumption|]. intros y Hy.
        destruct (Hr y Hy) as (A & B). split; [|assumption].
        destruct (Nat.eq_dec y b) as [->|Hyb]; [now rewrite fupd_eq|now rewrite fupd_neq].
      * destruct (negb (same_file (pl p b) (pfile p)) || negb (b =? poff p + plen p)) eqn:Enew.
        -- (* the previous run is closed, a new one starts at b *)
           destruct (Hemit (fupd (pl p) b i)) as (Hc & Hm).
           { intros y. destruct (Nat.eq_dec y b) as [->|Hyb]; [right; now rewrite fupd_eq|left; now rewrite fupd_neq]. }
           apply Hstep; cbn [sp pl pfile pfidx plen poff pholes]; auto.
           split; [reflexivity|]. split; [lia|]. split; [lia|]. intros y Hy. assert (y = b) by lia. subst y.
           split; [now rewrite fupd_eq|]. intros Hlt. apply Hcov; lia.
        -- (* the run goes on *)
           apply orb_false_iff in Enew. destruct Enew as [Esame Econt].
           apply negb_false_iff in Esame, Econt. apply Nat.eqb_eq in Econt.
           unfold same_file in Esame. destruct (pfile p) as [f|] eqn:Ef; [|discriminate].
           apply Nat.eqb_eq in Esame. destruct Hrun as (Efx & Hf & Hin & Hr).
           rewrite Hh. apply Hstep; cbn [sp pl pfile pfidx plen poff pholes]; auto using pend_cov_nil; [|intros f' s l []].
           split; [assumption|]. split; [assumption|]. split; [assumption|]. intros y Hy.
           destruct (Nat.eq_dec y b) as [->|Hyb].
           ++ split; [now rewrite fupd_eq|]. intros Hlt. apply Hcov; lia.
           ++ rewrite fupd_neq by assumption. apply Hr. lia.
    + (* no extent: nothing changes but the position *)
      rewrite Hh. split; [|split; [apply pend_cov_nil|split; [|rewrite app_nil_r; destruct p; exact PM]]].
      * constructor; cbn [si sb sucsi sp pl pfile pfidx plen poff pholes]; auto; try lia.
        intros y. rewrite (lim_block i b u _ p). destruct (Nat.eqb_spec y b) as [->|Hy]; [lia|apply Hpl].
      * intros y. cbn [sp pl]. rewrite (lim_block i b u _ p). destruct (Nat.eqb_spec y b) as [->|Hy]; [|apply SM].
        destruct (SM b) as [A|A]; [left; exact A|right]. cbn [sp] in A. now rewrite A, lim_at, Hti.
  - (* end of the iteration for file i *)
    assert (b = nblk d) by lia. subst b.
    assert (Hlim : forall u' q y, tix (fl d) (lim (mkscan (S i) 0 u' q) y) y = tix (fl d) (lim (mkscan i (nblk d) u p) y) y).
    { intros u' q y. unfold lim. cbn [sb si]. destruct (Nat.ltb_spec y 0); [lia|]. replace (S i - 1) with i by lia.
      destruct (Nat.ltb_spec y (nblk d)); [reflexivity|]. apply (tix_beyond K); [exact W|lia|assumption]. }
    destruct (Hemit (pl p)) as (Hc & Hm); [intros y; now left|].
    split; [|split; [exact Hc|split; [|apply pend_map_app; assumption]]].
    + constructor; cbn [si sb sucsi sp pl pfile pfidx plen poff pholes]; auto; try lia.
      * intros J HJ HF. destruct (Nat.eq_dec J (S i)) as [->|Hne]; [rewrite HF; lia|].
        pose proof (Hu J ltac:(lia) HF). destruct (ucs d (S i)); lia.
      * intros y. specialize (Hpl y). unfold lim in *. cbn [sb si] in *.
        destruct (Nat.ltb_spec y 0); [lia|]. destruct (Nat.ltb_spec y (nblk d)); lia.
    + intros y. cbn [sp pl]. rewrite Hlim. apply SM.
Qed.

(** stability of the scan invariants under a foreground write and under a covered hole *)
Lemma scan_inv_mono : forall d d' c, nf d' = nf d -> ucs d' = ucs d -> nblk d' = nblk d ->
  (forall f y, blkcov d f y -> blkcov d' f y) -> scan_inv d c -> scan_inv d' c.
Proof.
  intros d d' c E1 E2 En Hcov SI. destruct SI as [A B C D E F R].
  constructor; rewrite ?E1, ?E2, ?En; auto.
  destruct (pfile (sp c)) as [f|]; [|exact I]. destruct R as (R1 & R2 & R3 & R4).
  split; [assumption|]. split; [assumption|]. split; [assumption|]. intros y Hy. destruct (R4 y Hy) as (P & Q).
  split; [assumption|]. intros Hlt. now apply Hcov, Q.
Qed.

Lemma scan_inv_grows : forall d d' c, grows d d' -> nblk d' = nblk d -> scan_inv d c -> scan_inv d' c.
Proof.
  intros d d' c G En. pose proof G as (E1 & E2 & _).
  apply scan_inv_mono; auto. intros f y. now apply blkcov_grows.
Qed.

Lemma scan_inv_apply1 : forall d h c, hole_cov d h -> scan_inv d c -> scan_inv (apply1 d h) c.
Proof. intros d h c Hh. apply scan_inv_mono; auto. intros f y. now apply blkcov_apply1. Qed.

Lemma headed_apply1 : forall d h y, hole_cov d h -> headed d y -> headed (apply1 d h) y.
Proof.
  intros d h y Hh (A & B & C). unfold headed. cbn [apply1 loc nf set_fl].
  change (apply_hole (fl d) h (nf d) y) with (fl (apply1 d h) (nf d) y). rewrite apply1_head by assumption. auto.
Qed.

Lemma scan_map_write : forall K d d1 hs c, wrel d d1 hs -> stage K d d1 hs -> scan_map d c -> scan_map d1 c.
Proof.
  intros K d d1 hs c R S SM y. pose proof R as (E & A & _).
  destruct (A y) as [(F & _)|H]; [|left; exact H].
  destruct (SM y) as [Hd|Hp]; [left; eapply wrel_headed; eauto|right].
  rewrite Hp. apply tix_ext. intros k Hk.
  destruct (Nat.eq_dec k (nf d)) as [->|N]; [symmetry; exact F|]. symmetry. apply (st_other _ _ _ _ S). assumption.
Qed.

Lemma pend_map_write : forall d d1 hs tbl pend, wrel d d1 hs -> pend_map d tbl pend -> pend_map d1 tbl (pend ++ hs).
Proof.
  intros d d1 hs tbl pend R PM f s l Hin y Hy. apply in_app_or in Hin. destruct Hin as [Hin|Hin].
  - destruct (PM f s l Hin y Hy) as [A|A]; [left; eapply wrel_headed; eauto|right; exact A].
  - left. destruct R as (_ & _ & H). eapply H; eauto.
Qed.

Lemma scan_map_apply1 : forall d h c pend, hole_cov d h -> In h pend -> pend_map d (pl (sp c)) pend ->
  scan_map d c -> scan_map (apply1 d h) c.
Proof.
  intros d [[f s] l] c pend Hh Hin PM SM y.
  destruct (SM y) as [Hd|Hp]; [left; now apply headed_apply1|].
  destruct (in_range_spec s l y) as [Hy|Hy].
  - destruct (PM f s l Hin y Hy) as [A|A]; [left; now apply headed_apply1|right].
    rewrite Hp. rewrite Hp in A. symmetry. apply (tix_punch_below _ _ _ _ f); [| |exact A].
    + intros k Hk. destruct (apply1_cases d (f, s, l) k y) as [E|[_ (E & _)]]; [assumption|congruence].
    + cbn [apply1 fl set_fl apply_hole]. rewrite fupd_eq. now apply punch_file_in.
  - right. rewrite Hp. apply tix_ext. intros k Hk.
    destruct (apply1_cases d (f, s, l) k y) as [E|[_ (_ & E)]]; [symmetry; assumption|contradiction].
Qed.

Lemma pend_map_apply1 : forall d h tbl pend, hole_cov d h -> pend_map d tbl pend -> pend_map (apply1 d h) tbl pend.
Proof.
  intros d h tbl pend Hh PM f s l Hin y Hy.
  destruct (PM f s l Hin y Hy) as [A|A]; [left; now apply headed_apply1|right; exact A].
Qed.

(** ** the holes of the merge loop against an arbitrary (well-formed) live table are covered: the live
    table's entry is an extent above them, and no flagged member lies in between *)
Lemma lun_hole_cov : forall d f s l, loc_ok d -> last_true (ucs d) (nf d) 0 < f ->
  (forall y, s <= y < s + l -> f < loc d y) -> hole_cov d (f, s, l).
Proof.
  intros d f s l Hok Hf Hr. split; [lia|]. intros y Hy. pose proof (Hr y Hy) as Hlt.
  destruct (Hok y) as [H0|(H1 & H2 & H3)]; [lia|].
  exists (loc d y). split; [lia|]. split; [apply H3; lia|].
  apply (no_keeps_between d f (loc d y) (last_true (ucs d) (nf d) 0)); [lia| |lia].
  intros J HJ HF. apply last_true_ge; [lia|assumption].
Qed.

(** ** the destination after its Reload: one invariant for writes, holes and the phases of UpdateLUNMap *)
(** a queued hole of the scan or of the merge rests on an extent of a CLOSED file, which a later hole may remove:
    hence [hole_cov] and [pend_map]; a replica that only writes needs [hs_sound] alone ([RebuildProofs.sinv]) *)
Definition plof (u : uphase) : nat -> nat := match u with UScan c => pl (sp c) | _ => fun _ => 0 end.

Record dinv (K : nat) (d : dd) (pend : list hole) (u : uphase) : Prop := {
  di_wf : wf K d;
  di_ucs : ucs_le_snapix d;
  di_pend : pend_cov d pend;
  di_map : match u with UDone => True | _ => pend_map d (plof u) pend end;
  di_scan : match u with UScan c => scan_inv d c /\ scan_map d c | _ => True end
}.

Lemma dinv_write : forall K d pend u data off, 0 < K -> dinv K d pend u -> off + length data <= nblk d * K ->
  let '(d1, hs) := write_at true K d data off in
  dinv K d1 (pend ++ hs) u /\ stage K d d1 hs.
Proof.
  intros K d pend u data off HK D Hr.
  pose proof (write_at_wrel K d data off HK (di_wf _ _ _ _ D) Hr) as H.
  destruct (write_at true K d data off) as [d1 hs]. destruct H as (R & S).
  split; [|assumption].
  pose proof (stage_grows _ _ _ _ S) as G.
  pose proof (ucs_le_snapix_meta d d1 (st_meta _ _ _ _ S) (di_ucs _ _ _ _ D)) as Hu.
  constructor.
  - apply S.
  - exact Hu.
  - apply pend_cov_app.
    + intros h Hin. apply (hole_cov_mono d); [intros f y; now apply blkcov_grows|]. now apply (di_pend _ _ _ _ D).
    + apply sound_cov; [assumption|apply S].
  - pose proof (di_map _ _ _ _ D) as M. destruct u; try exact I; eapply pend_map_write; eauto.
  - pose proof (di_scan _ _ _ _ D) as Sc. destruct u as [|c|]; try exact I. destruct Sc as (A & B).
    split; [eapply scan_inv_grows; eauto; exact (sm_nblk _ _ (st_meta _ _ _ _ S))|eapply scan_map_write; eauto].
Qed.

(** what reclamation and the phases of UpdateLUNMap may do to the files *)
Definition shrinks (d d1 : dd) : Prop :=
  same_meta d d1 /\ (forall J b, keeps d J -> top (fl d1) J b = top (fl d) J b) /\
  (forall b, fl d1 (nf d) b = fl d (nf d) b) /\ (forall j b, fl d1 j b = fl d j b \/ fl d1 j b = None).

Lemma shrinks_same : forall d d1, same_meta d d1 -> fl d1 = fl d -> shrinks d d1.
Proof. intros d d1 M E. unfold shrinks. rewrite E. auto. Qed.

Lemma dinv_hole : forall K d pend u k a d1 p1, dinv K d pend u -> take_hole d pend k a = (d1, p1) ->
  dinv K d1 p1 u /\ shrinks d d1.
Proof.
  intros K d pend u k a d1 p1 D H.
  destruct (take_hole_cases _ _ _ _ _ _ H) as [(-> & Hsub)|(h & Hin & -> & Hsub)].
  - split; [|apply shrinks_same; [apply same_meta_refl|reflexivity]].
    destruct D as [A B C M S]. constructor; auto.
    + intros x Hx. apply C. now apply Hsub.
    + destruct u; try exact I; intros f s l Hx; apply M; now apply Hsub.
  - pose proof (di_pend _ _ _ _ D h Hin) as Hh.
    split; [|split; [apply apply1_meta|split; [|split]]].
    + constructor.
      * apply apply1_wf; [apply D|assumption].
      * exact (di_ucs _ _ _ _ D).
      * intros x Hx. apply (hole_cov_mono d); [intros f y; now apply blkcov_apply1|]. apply (di_pend _ _ _ _ D). now apply Hsub.
      * pose proof (di_map _ _ _ _ D) as M.
        destruct u; try exact I; apply pend_map_apply1; auto; intros f s l Hx; apply M; now apply Hsub.
      * pose proof (di_scan _ _ _ _ D) as Sc. destruct u as [|c|]; try exact I. destruct Sc as (A & B).
        split; [now apply scan_inv_apply1|]. eapply scan_map_apply1; eauto. exact (di_map _ _ _ _ D).
    + intros J b HK. now apply apply1_top.
    + intros b. now apply apply1_head.
    + intros j b. destruct (apply1_cases d h j b) as [E|[E _]]; auto.
Qed.

Lemma dinv_begin : forall K d pend, dinv K d pend UIdle -> dinv K d pend (UScan (scan0 d)).
Proof.
  intros K d pend D. destruct D as [A B C M S]. constructor; auto. split.
  - constructor; cbn [scan0 si sb sucsi sp pl pfile pfidx plen poff pholes]; auto.
    + lia.
    + lia.
    + intros J HJ HF. destruct (Nat.eq_dec J 1) as [->|N]; [rewrite HF; lia|lia].
  - intros y. right. reflexivity.
Qed.

Lemma dinv_pre : forall K d pend c, dinv K d pend (UScan c) ->
  let '(c1, hs) := scan_step d c in dinv K d (pend ++ hs) (UScan c1).
Proof.
  intros K d pend c D. destruct (di_scan _ _ _ _ D) as (SI & SM).
  pose proof (scan_step_spec K d c pend (di_wf _ _ _ _ D) SI SM (di_map _ _ _ _ D)) as H.
  destruct (scan_step d c) as [c1 hs]. destruct H as (A & B & C & E).
  constructor; [apply D|apply D| |exact E|split; assumption].
  apply pend_cov_app; [apply D|assumption].
Qed.

Lemma dinv_merge : forall K d pend c, dinv K d pend (UScan c) -> scan_done d c = true ->
  let '(d1, hs) := ulm_merge d (pl (sp c)) in
  dinv K d1 (pend ++ hs) UDone /\ fl d1 = fl d /\ same_meta d d1.
Proof.
  intros K d pend c D Hdone. destruct (di_scan _ _ _ _ D) as (SI & SM). pose proof (di_wf _ _ _ _ D) as W.
  unfold scan_done in Hdone. apply Nat.ltb_lt in Hdone.
  assert (Hl : forall y, lim c y = nf d).
  { intros y. pose proof (sc_i _ _ SI) as Hi. unfold lim. rewrite (sc_done _ _ SI) by lia.
    destruct (Nat.ltb_spec y 0); lia. }
  unfold ulm_merge. set (pre := pl (sp c)). set (ucsi := last_true (ucs d) (nf d) 0).
  destruct (lun_merge_spec K d pre ucsi (hole_cov d) W) as (W1 & Hemit).
  { intros f s l Hf Hr. apply lun_hole_cov; [apply W|exact Hf|]. intros y Hy. now apply Hr. }
  { intros y N0 Hge. destruct (SM y) as [(A & B & C)|Hp].
    - (* the live table says head: the preloaded entry can only be the head too *)
      assert (Epre : pre y = nf d) by (pose proof (sc_pl _ _ SI y) as H; rewrite Hl in H; fold pre in H; lia).
      rewrite Epre. pose proof (wf_nf _ _ W). split; [lia|]. split; [intros; lia|intros _; exact C].
    - fold pre in Hp. rewrite Hl in Hp. rewrite Hp in *. now apply tix_target. }
  set (u := lun_loop d pre ucsi (nblk d) 0 (mkust (loc d) 0 0 0 [])) in *.
  assert (Meta : same_meta d (set_loc d (ul u))) by repeat split.
  assert (G : grows d (set_loc d (ul u))) by (repeat split; auto).
  split; [|split; [reflexivity|exact Meta]].
  constructor; [exact W1| | |exact I|exact I].
  - exact (ucs_le_snapix_meta d _ Meta (di_ucs _ _ _ _ D)).
  - apply pend_cov_app; intros h Hin; (apply (hole_cov_mono d); [intros f y; now apply blkcov_grows|]).
    + now apply (di_pend _ _ _ _ D).
    + now apply Hemit.
Qed.
