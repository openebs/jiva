(** * Rebuild: the three phases of UpdateLUNMap, run without anything in between, ARE Block.Model's
    [update_lun_map] (the transcription of Server.UpdateLUNMap that C01 / C06 / C11 use): the preload in steps
    of one block computes exactly [preload_from] and sends exactly its holes, in the same order. *)
From Coq Require Import List Arith Bool NArith Lia.
From Jiva Require Import Block.Model Block.Rebuild.
Import ListNotations.

Lemma run_app : forall fx K es1 es2 s, run fx K s (es1 ++ es2) = run fx K (run fx K s es1) es2.
Proof. intros fx K. induction es1 as [|e es1 IH]; intros es2 s; [reflexivity|]. cbn [run app]. apply IH. Qed.

Definition strip (p : pst) : pst := mkpst (pl p) (pfile p) (pfidx p) (plen p) (poff p) [].

(** the hole list is write-only for [pre_block] *)
Lemma pre_block_strip : forall d i u p b,
  strip (pre_block d i u p b) = strip (pre_block d i u (strip p) b) /\
  pholes (pre_block d i u p b) = pholes p ++ pholes (pre_block d i u (strip p) b).
Proof.
  intros d i u p b. unfold pre_block. destruct (fl d i b); [|split; [reflexivity|cbn; now rewrite app_nil_r]].
  cbn [strip pl pfile pfidx plen poff pholes].
  destruct (pl p b =? 0); [split; [reflexivity|cbn; now rewrite app_nil_r]|].
  destruct (negb (same_file (pl p b) (pfile p)) || negb (b =? poff p + plen p)).
  - destruct (can_punch (pfile p) (pfidx p) u (punch d)); split; cbn; try reflexivity; now rewrite ?app_nil_r.
  - split; [reflexivity|cbn; now rewrite app_nil_r].
Qed.

Fixpoint scan_n (d : dd) (n : nat) (c : scan) : scan * list hole :=
  match n with
  | 0 => (c, [])
  | S n' => let '(c1, h1) := scan_step d c in let '(c2, h2) := scan_n d n' c1 in (c2, h1 ++ h2)
  end.

Lemma scan_n_app : forall d n m c,
  scan_n d (n + m) c = let '(c1, h1) := scan_n d n c in let '(c2, h2) := scan_n d m c1 in (c2, h1 ++ h2).
Proof.
  intros d. induction n as [|n IH]; intros m c.
  - cbn. destruct (scan_n d m c). reflexivity.
  - cbn [plus scan_n]. destruct (scan_step d c) as [c1 h1]. rewrite IH.
    destruct (scan_n d n c1) as [c2 h2]. destruct (scan_n d m c2) as [c3 h3]. now rewrite app_assoc.
Qed.

(** the blocks of one file: the scan keeps the stripped state and hands over what the atomic loop appends *)
Lemma scan_blocks : forall d i u cnt b p, i <= nf d -> b + cnt <= nblk d ->
  exists hs, scan_n d cnt (mkscan i b u (strip p)) = (mkscan i (b + cnt) u (strip (pre_blocks d i u cnt b p)), hs) /\
             pholes (pre_blocks d i u cnt b p) = pholes p ++ hs.
Proof.
  intros d i u. induction cnt as [|cnt IH]; intros b p Hi Hb.
  - exists []. cbn. now rewrite Nat.add_0_r, app_nil_r.
  - destruct (IH (S b) (pre_block d i u p b) Hi ltac:(lia)) as (hs & E & Hh).
    destruct (pre_block_strip d i u p b) as (A & B).
    cbn [scan_n pre_blocks]. unfold scan_step, scan_done. cbn [si sb sucsi sp].
    destruct (Nat.ltb_spec (nf d) i); [lia|]. destruct (Nat.ltb_spec b (nblk d)); [|lia].
    change (mkpst _ _ _ _ _ []) with (strip (pre_block d i u (strip p) b)). rewrite <- A, E.
    exists (pholes (pre_block d i u (strip p) b) ++ hs). split.
    + replace (b + S cnt) with (S b + cnt) by lia. reflexivity.
    + rewrite Hh, B. now rewrite app_assoc.
Qed.

(** one whole file: its blocks, then the flush *)
Lemma scan_file : forall d i u0 p, 1 <= i <= nf d ->
  let u := if ucs d i then i else u0 in
  let st := pre_file d i (u0, p) in
  exists hs, scan_n d (S (nblk d)) (mkscan i 0 u (strip p)) =
             (mkscan (S i) 0 (if ucs d (S i) then S i else u) (strip (snd st)), hs) /\
             pholes (snd st) = pholes p ++ hs.
Proof.
  intros d i u0 p Hi u st. replace (S (nblk d)) with (nblk d + 1) by lia. rewrite scan_n_app.
  destruct (scan_blocks d i u (nblk d) 0 p ltac:(lia) ltac:(lia)) as (hs & E & Hh). rewrite E. cbn [plus].
  cbn [scan_n]. unfold scan_step, scan_done. cbn [si sb sucsi sp].
  destruct (Nat.ltb_spec (nf d) i); [lia|]. destruct (Nat.ltb_spec (nblk d) (nblk d)); [lia|].
  subst st. unfold pre_file. fold u. set (p1 := pre_blocks d i u (nblk d) 0 p) in *.
  cbn [strip pl pfile pfidx plen poff pholes snd].
  destruct (can_punch (pfile p1) (pfidx p1) u (punch d)); eexists; (split; [reflexivity|]);
    cbn [app]; rewrite Hh, ?app_nil_r, <- ?app_assoc; reflexivity.
Qed.

Lemma scan_files : forall d cnt i u0 p, 1 <= i -> i + cnt <= S (nf d) ->
  let st := pre_files d cnt i (u0, p) in
  exists hs, scan_n d (cnt * S (nblk d)) (mkscan i 0 (if ucs d i then i else u0) (strip p)) =
             (mkscan (i + cnt) 0 (if ucs d (i + cnt) then i + cnt else fst st) (strip (snd st)), hs) /\
             pholes (snd st) = pholes p ++ hs.
Proof.
  intros d. induction cnt as [|cnt IH]; intros i u0 p Hi Hc.
  - exists []. cbn. now rewrite Nat.add_0_r, app_nil_r.
  - destruct (scan_file d i u0 p ltac:(lia)) as (hs & E & Hh). cbv zeta in *. cbn [pre_files].
    destruct (pre_file d i (u0, p)) as [u1 p1] eqn:Ef. cbn [snd] in *.
    assert (Eu : u1 = if ucs d i then i else u0) by (unfold pre_file in Ef; now inversion Ef).
    destruct (IH (S i) u1 p1 ltac:(lia) ltac:(lia)) as (hs' & E' & Hh').
    cbn [Nat.mul]. rewrite scan_n_app, E, <- Eu, E'.
    exists (hs ++ hs'). replace (i + S cnt) with (S i + cnt) by lia. split; [reflexivity|].
    rewrite Hh', Hh. now rewrite app_assoc.
Qed.

Lemma run_pre_n : forall fx K n s c, uph s = UScan c ->
  let '(c1, hs) := scan_n (dst s) n c in
  run fx K s (repeat UlmPre n) =
  mkrb (src s) (spend s) (dst s) (dpend s ++ hs) (lowc s) (wired s) (reloaded s) (UScan c1) (drev s).
Proof.
  intros fx K. induction n as [|n IH]; intros s c Hu.
  - cbn. rewrite app_nil_r, <- Hu. destruct s; reflexivity.
  - cbn [scan_n repeat run step]. rewrite Hu. destruct (scan_step (dst s) c) as [c1 h1].
    specialize (IH (mkrb (src s) (spend s) (dst s) (dpend s ++ h1) (lowc s) (wired s) (reloaded s) (UScan c1) (drev s)) c1 eq_refl).
    cbn [src spend dst dpend lowc wired reloaded uph drev] in IH.
    destruct (scan_n (dst s) n c1) as [c2 h2]. rewrite IH, app_assoc. reflexivity.
Qed.

Theorem ulm_all_is_update_lun_map : forall fx K s, reloaded s = true -> uph s = UIdle -> 1 <= nf (dst s) ->
  run fx K s (ulm_all (dst s)) =
  mkrb (src s) (spend s) (fst (update_lun_map (dst s))) (dpend s ++ snd (update_lun_map (dst s)))
       (lowc s) (wired s) (reloaded s) UDone (drev s).
Proof.
  intros fx K s Hr Hu Hnf. unfold ulm_all, ulm_pre_all. cbn [run step]. rewrite Hu, Hr.
  rewrite run_app.
  set (s1 := set_uph s (UScan (scan0 (dst s)))).
  pose proof (run_pre_n fx K (nf (dst s) * S (nblk (dst s))) s1 (scan0 (dst s)) eq_refl) as H.
  cbn [s1 set_uph dst] in H. unfold scan0 in H at 1.
  destruct (scan_files (dst s) (nf (dst s)) 1 0 (mkpst (fun _ => 0) None 0 0 0 []) (le_n _) ltac:(lia))
    as (hs & F & Hh). unfold strip in F at 1. cbn [pl pfile pfidx plen poff pholes app] in F, Hh.
  rewrite F in H. clear F. fold s1. rewrite H. clear H.
  cbn [run step uph dst]. unfold scan_done. cbn [si].
  assert (Ec : (nf (dst s) <? 1 + nf (dst s)) = true) by (apply Nat.ltb_lt; lia). rewrite Ec.
  unfold update_lun_map, ulm_merge, preload_from.
  destruct (pre_files (dst s) (nf (dst s)) 1 (0, mkpst (fun _ => 0) None 0 0 0 [])) as [u p].
  subst s1. cbn [sp strip pl fst snd src spend dst dpend lowc wired reloaded drev uph set_uph] in *.
  rewrite Hh, app_assoc, ?Hr. reflexivity.
Qed.
