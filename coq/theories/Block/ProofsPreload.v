(** * Block: preload (extent scan with userCreatedSnapIndx), reopen, revert, UpdateLUNMap. *)
From Coq Require Import List Arith Bool NArith Lia.
From Jiva Require Import Block.Model Block.Lemmas Block.ProofsWrite Block.ProofsOps.
Import ListNotations.

(** ** [tix]: what an extent scan of a chain prefix writes into the table *)
Fixpoint tix (fls : nat -> file) (j b : nat) : nat :=
  match j with
  | 0 => 0
  | S j' => match fls j b with Some _ => j | None => tix fls j' b end
  end.

Lemma tix_S : forall fls j b, tix fls (S j) b = match fls (S j) b with Some _ => S j | None => tix fls j b end.
Proof. reflexivity. Qed.

Lemma tix_at : forall fls i b, 1 <= i ->
  tix fls i b = match fls i b with Some _ => i | None => tix fls (i - 1) b end.
Proof. intros fls [|i] b Hi; [lia|]. rewrite tix_S. now replace (S i - 1) with i by lia. Qed.

Lemma tix_beyond : forall K d i x, wf K d -> 1 <= i -> nblk d <= x -> tix (fl d) i x = tix (fl d) (i - 1) x.
Proof. intros K d i x W Hi Hx. now rewrite (tix_at _ i x Hi), (wf_ext _ _ W i x Hx). Qed.

Lemma tix_spec : forall fls j b,
  (tix fls j b = 0 /\ forall k, 1 <= k <= j -> fls k b = None) \/
  (1 <= tix fls j b <= j /\ fls (tix fls j b) b <> None /\ forall k, tix fls j b < k <= j -> fls k b = None).
Proof.
  induction j as [|j IH]; intros b.
  - left. split; [reflexivity|intros; lia].
  - rewrite tix_S. destruct (fls (S j) b) eqn:E.
    + right. split; [lia|]. split; [congruence|intros; lia].
    + destruct (IH b) as [(A & B)|(A & B & C)].
      * left. split; [assumption|]. intros k Hk. destruct (Nat.eq_dec k (S j)) as [->|]; [assumption|apply B; lia].
      * right. split; [lia|]. split; [assumption|].
        intros k Hk. destruct (Nat.eq_dec k (S j)) as [->|]; [assumption|apply C; lia].
Qed.

Lemma tix_ext : forall f g j y, (forall k, 1 <= k <= j -> f k y = g k y) -> tix f j y = tix g j y.
Proof.
  induction j as [|j IH]; intros y H; [reflexivity|].
  rewrite !tix_S. rewrite <- (H (S j)) by lia. destruct (f (S j) y); [reflexivity|].
  apply IH. intros k Hk. apply H. lia.
Qed.

Lemma tix_le : forall f j y, tix f j y <= j.
Proof. intros. destruct (tix_spec f j y) as [(E & _)|(A & _)]; lia. Qed.

Lemma tix_punch_below : forall f g j y p, (forall k, k <> p -> f k y = g k y) -> f p y = None ->
  p < tix g j y -> tix f j y = tix g j y.
Proof.
  induction j as [|j IH]; intros y p Hne Hp Hlt; [reflexivity|].
  rewrite (tix_S g) in Hlt. rewrite (tix_S f), (tix_S g).
  destruct (Nat.eq_dec (S j) p) as [E|N].
  - subst p. destruct (g (S j) y); [lia|]. pose proof (tix_le g j y). lia.
  - rewrite (Hne (S j) N). destruct (g (S j) y); [reflexivity|]. eapply IH; eauto.
Qed.

Lemma tix_target : forall d b, tix (fl d) (nf d) b <> 0 ->
  1 <= tix (fl d) (nf d) b <= nf d /\ (forall j, tix (fl d) (nf d) b < j <= nf d -> fl d j b = None)
  /\ (2 <= tix (fl d) (nf d) b -> fl d (tix (fl d) (nf d) b) b <> None).
Proof.
  intros d b N0. destruct (tix_spec (fl d) (nf d) b) as [(A & _)|(A & B & C)]; [contradiction|]. auto.
Qed.

Lemma tix_loc_ok : forall d l, (forall b, l b = tix (fl d) (nf d) b) -> loc_ok (set_loc d l).
Proof.
  intros d l H b. cbn [loc set_loc nf fl]. rewrite H.
  destruct (Nat.eq_dec (tix (fl d) (nf d) b) 0) as [E|N]; [left; exact E|right; now apply tix_target].
Qed.

(** ** holes justified by an extent above them, with no flagged member from the hole's file up to that extent *)
Definition hole_ok (d : dd) (h : hole) : Prop :=
  let '(f, s, l) := h in
  exists i c, 1 <= f /\ c < f < i /\ i <= nf d /\ (forall b, s <= b < s + l -> fl d i b <> None) /\
              (forall J, J <= i -> ucs d J = true -> J <= c).

Definition holes_ok (d : dd) (hs : list hole) : Prop := forall h, In h hs -> hole_ok d h.

(** the prefixes whose image has to be preserved: the chain and, by [prot], the user-created snapshots *)
Definition keeps (d : dd) (J : nat) : Prop :=
  J = nf d \/ (J < nf d /\ (ucs d J = true \/ ucs d (S J) = true)).

Lemma no_keeps_between : forall d f i u, i <= nf d -> (forall J, J <= i -> ucs d J = true -> J <= u) -> u < f ->
  forall J, f <= J < i -> ~ keeps d J.
Proof.
  intros d f i u Hi Hu Hf J HJ [E|(HJn & [F|F])]; [lia| |].
  - pose proof (Hu J ltac:(lia) F). lia.
  - pose proof (Hu (S J) ltac:(lia) F). lia.
Qed.

Lemma holes_ok_overlaid : forall d hs J, holes_ok d hs -> keeps d J -> overlaid d J hs.
Proof.
  intros d hs J Hs HK f s l b Hin Hb HfJ. destruct (Hs _ Hin) as (i & c & Hf & Hc & Hi & Hext & Hu).
  exists i. split; [|now apply Hext].
  destruct (Nat.le_gt_cases i J) as [|Hgt]; [lia|]. exfalso.
  apply (no_keeps_between d f i c Hi Hu ltac:(lia) J ltac:(lia) HK).
Qed.

Lemma punched_keeps : forall d hs ch J b, holes_ok d hs -> keeps d J ->
  top (fl (punched d hs ch)) J b = top (fl d) J b.
Proof. intros d hs ch J b Hs HK. apply punched_top. now apply holes_ok_overlaid. Qed.

Lemma punched_wf_holes_ok : forall K d hs ch, wf K d -> holes_ok d hs -> wf K (punched d hs ch).
Proof.
  intros K d hs ch W Hs. apply punched_wf_overlaid; [exact W|]. apply holes_ok_overlaid; [exact Hs|]. now left.
Qed.

(** ** the extent scan *)
(** the scan of file [i] arrived at block [b] *)
Record pinv (d : dd) (i b : nat) (p : pst) : Prop := {
  pi_loc : forall x, pl p x = if x <? b then tix (fl d) i x else tix (fl d) (i - 1) x;
  pi_run : match pfile p with
           | None => True
           | Some f => f = pfidx p /\ 1 <= f < i /\ forall x, poff p <= x < poff p + plen p -> fl d i x <> None
           end;
  pi_holes : holes_ok d (pholes p)
}.

Lemma emit_ok : forall d i ucsi b p, 1 <= i <= nf d -> (forall J, J <= i -> ucs d J = true -> J <= ucsi) ->
  pinv d i b p ->
  holes_ok d (if can_punch (pfile p) (pfidx p) ucsi (punch d)
              then pholes p ++ [(match pfile p with Some f => f | None => 0 end, poff p, plen p)]
              else pholes p).
Proof.
  intros d i ucsi b p Hi Hu P.
  destruct (can_punch (pfile p) (pfidx p) ucsi (punch d)) eqn:Ec; [|apply P].
  apply can_punch_true in Ec. destruct Ec as (f & Ef & Hlt).
  pose proof (pi_run _ _ _ _ P) as R. rewrite Ef in R |- *. destruct R as (-> & Hf & Hx).
  intros h Hin. apply in_app_or in Hin. destruct Hin as [Hin|[<-|[]]]; [now apply P|].
  exists i, ucsi. repeat split; try lia; assumption.
Qed.

Lemma pre_block_spec : forall d i ucsi b p, 1 <= i <= nf d ->
  (forall J, J <= i -> ucs d J = true -> J <= ucsi) ->
  pinv d i b p -> pinv d i (S b) (pre_block d i ucsi p b).
Proof.
  intros d i ucsi b p Hi Hu P.
  assert (Hcur : pl p b = tix (fl d) (i - 1) b).
  { rewrite (pi_loc _ _ _ _ P). destruct (Nat.ltb_spec b b); [lia|reflexivity]. }
  constructor.
  - (* whatever becomes of the run, the table gets [i] at [b] if the block has an extent and stays otherwise *)
    intros x. rewrite ltb_S_cases, <- (pi_loc _ _ _ _ P), (tix_at (fl d) i b) by lia. rewrite <- Hcur. unfold pre_block.
    destruct (fl d i b); [destruct (pl p b =? 0); [|destruct (negb _ || negb _)]|]; cbn [pl]; unfold fupd;
      destruct (Nat.eqb_spec x b) as [->|]; reflexivity.
  - unfold pre_block. destruct (fl d i b) as [v|] eqn:Ef; [|apply P].
    destruct (Nat.eqb_spec (pl p b) 0) as [E0|N0]; [apply P|].
    destruct (negb (same_file (pl p b) (pfile p)) || negb (b =? poff p + plen p)) eqn:Ebr; cbn [pfile pfidx plen poff].
    + split; [reflexivity|]. split; [|intros x Hx; assert (x = b) by lia; subst; congruence].
      rewrite Hcur in *. destruct (tix_spec (fl d) (i - 1) b) as [(A & _)|(A & _)]; lia.
    + apply orb_false_iff in Ebr. destruct Ebr as [E1 E2].
      apply negb_false_iff in E1, E2. apply Nat.eqb_eq in E2.
      pose proof (pi_run _ _ _ _ P) as R. destruct (pfile p) as [f|]; [|exact I].
      destruct R as (R1 & R2 & R3). split; [assumption|]. split; [assumption|].
      intros x Hx. destruct (Nat.eq_dec x b) as [->|]; [congruence|apply R3; lia].
  - unfold pre_block. destruct (fl d i b); [|apply P]. destruct (pl p b =? 0); [apply P|].
    destruct (negb _ || negb _); cbn [pholes]; [eapply emit_ok; eauto|apply P].
Qed.

(** between two files, before file [i]; [fst st] is userCreatedSnapIndx so far *)
Record finv (d : dd) (i : nat) (st : nat * pst) : Prop := {
  fi_ucsi : forall J, J < i -> ucs d J = true -> J <= fst st;
  fi_loc : forall x, pl (snd st) x = tix (fl d) (i - 1) x;
  fi_file : pfile (snd st) = None;
  fi_holes : holes_ok d (pholes (snd st))
}.

Lemma pre_file_spec : forall K d i st, wf K d -> 1 <= i <= nf d -> finv d i st -> finv d (S i) (pre_file d i st).
Proof.
  intros K d i [ucsi0 p] W Hi F. unfold pre_file.
  set (ucsi := if ucs d i then i else ucsi0).
  assert (Hu : forall J, J <= i -> ucs d J = true -> J <= ucsi).
  { intros J HJ HF. unfold ucsi. destruct (Nat.eq_dec J i) as [->|Hne].
    - rewrite HF. lia.
    - pose proof (fi_ucsi _ _ _ F J ltac:(lia) HF) as H. cbn in H. destruct (ucs d i); lia. }
  assert (P0 : pinv d i 0 p).
  { constructor.
    - intros x. destruct (Nat.ltb_spec x 0); [lia|]. apply (fi_loc _ _ _ F).
    - pose proof (fi_file _ _ _ F) as E. cbn in E. rewrite E. exact I.
    - apply F. }
  pose proof (loop_inv _ (pre_block d i ucsi) (pre_blocks d i ucsi) (pinv d i) 0 (nblk d)
                (fun _ _ _ => eq_refl) (fun _ _ => eq_refl) (fun b q _ => pre_block_spec d i ucsi b q Hi Hu)
                (nblk d) 0 p (le_n _) (le_n _) P0) as P1. cbn [plus] in P1.
  set (p1 := pre_blocks d i ucsi (nblk d) 0 p) in *.
  constructor; cbn [fst snd pl pfile pholes].
  - intros J HJ HF. apply Hu; [lia|assumption].
  - intros x. rewrite (pi_loc _ _ _ _ P1). replace (S i - 1) with i by lia.
    destruct (Nat.ltb_spec x (nblk d)); [reflexivity|]. symmetry. apply (tix_beyond K); [exact W|lia|assumption].
  - reflexivity.
  - eapply emit_ok; eauto.
Qed.

Lemma preload_from_zero : forall K d, wf K d ->
  let '(l, hs) := preload_from d (fun _ => 0) in
  (forall b, l b = tix (fl d) (nf d) b) /\ holes_ok d hs.
Proof.
  intros K d W. unfold preload_from.
  pose proof (loop_inv _ (fun st i => pre_file d i st) (pre_files d) (finv d) 1 (S (nf d))
                (fun _ _ _ => eq_refl) (fun _ _ => eq_refl) (fun i st Hi => pre_file_spec K d i st W ltac:(lia))
                (nf d) 1 (0, mkpst (fun _ => 0) None 0 0 0 []) (le_n _) (le_n _)) as F.
  destruct (pre_files d (nf d) 1 (0, mkpst (fun _ : nat => 0) None 0 0 0 [])) as [u p].
  assert (F0 : finv d 1 (0, mkpst (fun _ : nat => 0) None 0 0 0 [])).
  { constructor; cbn [fst snd pl pfile pholes].
    - intros J HJ HF. lia.
    - intros x. reflexivity.
    - reflexivity.
    - intros h []. }
  specialize (F F0). split.
  - intros b. rewrite (fi_loc _ _ _ F). cbn [snd]. replace (1 + nf d - 1) with (nf d) by lia. reflexivity.
  - apply F.
Qed.

(** ** close / open (and Reload) *)
Definition opened (d : dd) : dd :=
  mkdd (nf d) (fl d) (nm d) (usr d) (rmd d) (aligned_ucs d) (last_true (aligned_ucs d) (nf d) 0)
       (fun _ => 0) (nblk d) (punch d).

Lemma aligned_ucs_true : forall d k, 1 <= k <= nf d -> usr d k = true -> aligned_ucs d k = true.
Proof.
  intros d k Hk Hu. unfold aligned_ucs.
  destruct (Nat.leb_spec 1 k); destruct (Nat.leb_spec k (nf d)); cbn [andb]; try lia. exact Hu.
Qed.

Lemma opened_prot : forall d, prot (opened d).
Proof.
  intros d i Hi Hu Hr. cbn [opened nf usr rmd ucs snapix] in *.
  pose proof (aligned_ucs_true d i ltac:(lia) Hu) as Ha.
  split; [apply last_true_ge; [lia|assumption]|left; assumption].
Qed.

Lemma opened_inv : forall K d, inv K d -> inv K (opened d).
Proof.
  intros K d I. pose proof (inv_wf _ _ I) as W. constructor.
  - apply (wf_files K d); auto. intros b. now left.
  - apply opened_prot.
  - apply I.
  - apply I.
Qed.

Lemma opened_keeps_user : forall d J, 1 <= J < nf d -> usr d J = true -> keeps (opened d) J.
Proof.
  intros d J HJ Hu. right. cbn [opened nf ucs]. split; [lia|]. left. apply aligned_ucs_true; [lia|exact Hu].
Qed.

Lemma opened_keeps_head : forall d, keeps (opened d) (nf d).
Proof. intros. left. reflexivity. Qed.

Lemma quiet_opened : forall d d', nf d' = nf d -> nblk d' = nblk d -> nm d' = nm d -> usr d' = usr d ->
  rmd d' = rmd d -> (forall J b, keeps (opened d) J -> top (fl d') J b = top (fl d) J b) -> quiet d d'.
Proof.
  intros d d' E1 E2 E3 E4 E5 H. split; [constructor; auto|intros b; apply H, opened_keeps_head].
  intros i b Hi Hu Hr. apply H. now apply opened_keeps_user.
Qed.

Lemma quiet_keeps : forall d d', prot d -> same_meta d d' ->
  (forall J b, keeps d J -> top (fl d') J b = top (fl d) J b) -> quiet d d'.
Proof.
  intros d d' P (E1 & E2 & E3 & E4 & _ & _ & E7 & _) H. split; [constructor; auto|intros b; apply H; now left].
  intros i b Hi Hu Hr. apply H. right. split; [lia|apply (P i Hi Hu Hr)].
Qed.

Lemma reopen_spec : forall K d pre ch, inv K (opened d) ->
  let '(d1, hs) := reopen d pre in
  let d2 := punched d1 hs ch in
  inv K d2 /\ quiet d d2 /\ wf K d1 /\ nf d1 = nf d /\ nblk d1 = nblk d /\ fl d1 = fl d.
Proof.
  intros K d pre ch I1. unfold reopen. fold (opened d).
  destruct pre.
  - unfold preload. pose proof (preload_from_zero K (opened d) (inv_wf _ _ I1)) as P.
    change (loc (opened d)) with (fun _ : nat => 0).
    destruct (preload_from (opened d) (fun _ => 0)) as [l hs]. destruct P as (Hl & Hs).
    assert (W1 : wf K (set_loc (opened d) l)) by (apply (wf_files K (opened d)); auto using inv_wf, tix_loc_ok).
    assert (Hs' : holes_ok (set_loc (opened d) l) hs) by exact Hs.
    split; [|split; [apply quiet_opened; auto|repeat split; apply W1]].
    + eapply inv_same; [apply punched_wf_holes_ok; eassumption| |exact I1]. repeat split.
    + intros J b HK. rewrite (punched_keeps (set_loc (opened d) l) hs ch J b Hs' HK). reflexivity.
  - cbn [punched apply_holes set_fl]. split; [|split; [apply quiet_opened; auto|repeat split; apply (inv_wf _ _ I1)]].
    destruct I1 as [A B C D]. constructor; assumption.
Qed.

(** ** revert: new (empty) head on top of member i, old head and everything above dropped, reload with preload *)
Definition cut (d : dd) (i : nat) : dd :=
  mkdd (S i) (fupd (fl d) (S i) fempty) (fupd (nm d) (S i) 0%N) (fupd (usr d) (S i) false)
       (fupd (rmd d) (S i) false) (ucs d) (snapix d) (loc d) (nblk d) (punch d).

Lemma cut_opened_inv : forall K d i, inv K d -> 1 <= i < nf d -> inv K (opened (cut d i)).
Proof.
  intros K d i I Hi. pose proof (inv_wf _ _ I) as W.
  destruct (inv_names _ _ I) as (Nh & Nz & Ninj).
  constructor.
  - apply (wf_new_head K d _ i W); [lia|reflexivity|reflexivity|reflexivity|]. intros b. now left.
  - apply opened_prot.
  - apply (names_ok_head d _ i (inv_names _ _ I)); cbn [opened cut nf nm]; try lia.
    + intros k Hk. now rewrite fupd_neq by lia.
    + rewrite fupd_neq by lia. apply Nz. lia.
    + intros k Hk E. rewrite fupd_neq in E by lia. apply Ninj in E; lia.
    + apply fupd_eq.
  - cbn [opened cut nf usr]. now rewrite fupd_eq.
Qed.

Lemma revert_cases : forall d name,
  let i := find_name d name (nf d) in
  ((i = 0 \/ i = nf d) /\ revert d name = (d, [], RErr)) \/
  (1 <= i < nf d /\
   revert d name = (fst (reopen (cut d i) true), snd (reopen (cut d i) true), ROk)).
Proof.
  intros d name i. unfold revert. fold i.
  pose proof (find_name_spec d name (nf d)) as (A & _). fold i in A.
  destruct (Nat.eqb_spec i 0); [left; auto|]. destruct (Nat.eqb_spec i (nf d)); [left; auto|].
  right. split; [lia|]. cbn [orb]. fold (cut d i). destruct (reopen (cut d i) true). reflexivity.
Qed.

(** ** the merge loop of UpdateLUNMap against an arbitrary live table *)
(** the loop arrived at block [b]; [mi_run] is all that is known of a hole when it is sent, and [P] is any property
    of holes that follows from it *)
Record minv (d : dd) (pre : nat -> nat) (P : hole -> Prop) (b : nat) (u : ust) : Prop := {
  mi_loc : forall y, ul u y = if y <? b
                              then (if (pre y =? 0) || (pre y <? loc d y) then loc d y else pre y)
                              else loc d y;
  mi_run : uprev u = 0 \/
           forall y, uho u <= y < uho u + uhl u -> pre y = uprev u /\ uprev u < loc d y;
  mi_holes : forall h, In h (uholes u) -> P h
}.

Lemma minv_init : forall d pre P, minv d pre P 0 (mkust (loc d) 0 0 0 []).
Proof. constructor; cbn [ul uhl uho uprev uholes]; [intros y; reflexivity|left; reflexivity|intros h []]. Qed.

Lemma lun_emit_ok : forall d pre ucsi (P : hole -> Prop),
  (forall f s l, ucsi < f -> (forall y, s <= y < s + l -> pre y = f /\ f < loc d y) -> P (f, s, l)) ->
  forall b u, minv d pre P b u -> forall h, In h (lun_emit d ucsi u) -> P h.
Proof.
  intros d pre ucsi P HP b u M. unfold lun_emit.
  destruct ((ucsi <? uprev u) && punch d && negb (uprev u =? 0)) eqn:Ec; [|apply M].
  apply andb_true_iff in Ec. destruct Ec as [Ec E3]. apply andb_true_iff in Ec. destruct Ec as [E1 _].
  apply Nat.ltb_lt in E1. apply negb_true_iff in E3. apply Nat.eqb_neq in E3.
  intros h Hin. apply in_app_or in Hin. destruct Hin as [Hin|[<-|[]]]; [now apply M|].
  apply HP; [exact E1|]. destruct (mi_run _ _ _ _ _ M) as [Z|R]; [contradiction|exact R].
Qed.

(** the table after one step of the merge loop, whatever becomes of the run: the merged entry at [b] *)
Lemma lun_step_ul : forall d pre ucsi u b y,
  ul (lun_step d pre ucsi u b) y =
  if y =? b then (if (pre b =? 0) || (pre b <? ul u b) then ul u b else pre b) else ul u y.
Proof.
  intros d pre ucsi u b y. unfold lun_step.
  destruct (pre b =? 0); [|destruct (pre b <? ul u b); [destruct (negb _ || negb _)|]]; cbn [ul orb]; unfold fupd;
    destruct (Nat.eqb_spec y b) as [->|]; reflexivity.
Qed.

Lemma lun_step_inv : forall d pre ucsi (P : hole -> Prop),
  (forall f s l, ucsi < f -> (forall y, s <= y < s + l -> pre y = f /\ f < loc d y) -> P (f, s, l)) ->
  forall b u, minv d pre P b u -> minv d pre P (S b) (lun_step d pre ucsi u b).
Proof.
  intros d pre ucsi P HP b u M. pose proof (lun_emit_ok d pre ucsi P HP b u M) as Hemit.
  assert (Hub : ul u b = loc d b).
  { rewrite (mi_loc _ _ _ _ _ M). destruct (Nat.ltb_spec b b); [lia|reflexivity]. }
  constructor.
  - intros y. set (F := fun y => if (pre y =? 0) || (pre y <? loc d y) then loc d y else pre y).
    change (ul (lun_step d pre ucsi u b) y = if y <? S b then F y else loc d y).
    rewrite lun_step_ul, Hub, ltb_S_cases, <- (mi_loc _ _ _ _ _ M). reflexivity.
  - unfold lun_step. rewrite Hub. destruct (Nat.eqb_spec (pre b) 0) as [E0|N0]; [apply M|].
    destruct (Nat.ltb_spec (pre b) (loc d b)) as [Hlt|Hge]; [|left; reflexivity].
    destruct (negb (uprev u =? pre b) || negb (b =? uho u + uhl u)) eqn:Enew; cbn [uhl uho uprev]; right; intros y Hy.
    + assert (y = b) by lia. subst y. auto.
    + apply orb_false_iff in Enew. destruct Enew as [E1 E2]. apply negb_false_iff in E1, E2. apply Nat.eqb_eq in E1, E2.
      destruct (Nat.eq_dec y b) as [->|Hyb]; [split; [congruence|lia]|].
      destruct (mi_run _ _ _ _ _ M) as [Z|R]; [lia|]. apply R. lia.
  - unfold lun_step. destruct (pre b =? 0); [apply M|].
    destruct (pre b <? ul u b); [destruct (negb _ || negb _)|]; cbn [uholes]; try exact Hemit; apply M.
Qed.

(** the whole loop: the merged table is well-formed if every preloaded entry the loop installs is a topmost extent,
    and every hole sent, the one after the loop included, has [P] *)
Lemma lun_merge_spec : forall K d pre ucsi (P : hole -> Prop), wf K d ->
  (forall f s l, ucsi < f -> (forall y, s <= y < s + l -> pre y = f /\ f < loc d y) -> P (f, s, l)) ->
  (forall y, pre y <> 0 -> loc d y <= pre y ->
     1 <= pre y <= nf d /\ (forall j, pre y < j <= nf d -> fl d j y = None) /\ (2 <= pre y -> fl d (pre y) y <> None)) ->
  wf K (set_loc d (ul (lun_loop d pre ucsi (nblk d) 0 (mkust (loc d) 0 0 0 [])))) /\
  forall h, In h (lun_emit d ucsi (lun_loop d pre ucsi (nblk d) 0 (mkust (loc d) 0 0 0 []))) -> P h.
Proof.
  intros K d pre ucsi P W HP Hpre. set (u := lun_loop d pre ucsi (nblk d) 0 (mkust (loc d) 0 0 0 [])).
  assert (M : minv d pre P (nblk d) u).
  { exact (loop_inv _ (lun_step d pre ucsi) (lun_loop d pre ucsi) (minv d pre P) 0 (nblk d) (fun _ _ _ => eq_refl)
             (fun _ _ => eq_refl) (fun b u' _ => lun_step_inv d pre ucsi P HP b u') (nblk d) 0 _ (le_n _) (le_n _)
             (minv_init d pre P)). }
  split; [|exact (lun_emit_ok d pre ucsi P HP _ u M)].
  apply (wf_files K d); auto. intros y. cbn [loc set_loc nf fl]. rewrite (mi_loc _ _ _ _ _ M).
  destruct (y <? nblk d); [|apply W]. destruct ((pre y =? 0) || (pre y <? loc d y)) eqn:E; [apply W|].
  apply orb_false_iff in E. destruct E as [E1 E2]. apply Nat.eqb_neq in E1. apply Nat.ltb_ge in E2. right. now apply Hpre.
Qed.

(** without concurrent writers the merge sends no hole that covers a block, because an entry of the live table
    is never above the topmost extent *)
Lemma update_lun_map_spec : forall K d ch, inv K d ->
  let '(d1, hs) := update_lun_map d in
  let d2 := punched d1 hs ch in
  inv K d2 /\ quiet d d2.
Proof.
  intros K d ch I. pose proof (inv_wf _ _ I) as W. unfold update_lun_map.
  pose proof (preload_from_zero K d W) as H.
  destruct (preload_from d (fun _ => 0)) as [pre h1]. destruct H as (Hpre & Hs).
  set (ucsi := last_true (ucs d) (nf d) 0).
  destruct (lun_merge_spec K d pre ucsi (fun '(f, s, l) => forall y, ~ (s <= y < s + l)) W) as (W1 & Hemit).
  { intros f s l Hf Hr y Hy. destruct (Hr y Hy) as (Ep & Hlt). rewrite Hpre in Ep.
    destruct (wf_loc _ _ W y) as [H0|(H1 & H2 & H3)]; [lia|].
    destruct (tix_target d y ltac:(lia)) as (_ & Hn & _). apply H3; [lia|]. apply Hn. lia. }
  { intros y N0 _. rewrite Hpre in *. now apply tix_target. }
  set (u := lun_loop d pre ucsi (nblk d) 0 (mkust (loc d) 0 0 0 [])) in *.
  assert (Hsh : forall J, keeps d J -> overlaid (set_loc d (ul u)) J (h1 ++ lun_emit d ucsi u)).
  { intros J HK f s l b Hin Hb HfJ. apply in_app_or in Hin. destruct Hin as [Hin|Hin].
    - exact (holes_ok_overlaid d h1 J Hs HK f s l b Hin Hb HfJ).
    - destruct (Hemit _ Hin b Hb). }
  split; [|apply quiet_keeps; [apply I|repeat split|]].
  - eapply inv_same; [apply punched_wf_overlaid; [exact W1|apply Hsh; now left]| |exact I]. repeat split.
  - intros J b HK. apply (punched_top (set_loc d (ul u))). now apply Hsh.
Qed.
