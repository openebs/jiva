(** * Block: images as lists of units; ReadAt returns the live image; reads under a fault only memoise, and one
    fullReadAt fails exactly when the broken file serves one of its blocks. *)
From Coq Require Import List Arith Bool NArith Lia.
From Jiva Require Import Block.Model Block.Corr Block.Lemmas Block.ProofsWrite Block.ProofsUnit.
Import ListNotations.

Lemma blocks_units : forall K d j n b0, wf K d ->
  concat (map (img K (fl d) j) (seq b0 n)) = map (uimg K (fl d) j) (seq (b0 * K) (n * K)).
Proof.
  intros K d j n b0 W. revert b0. induction n as [|n IH]; intros b0; [reflexivity|].
  cbn [seq map concat]. rewrite IH. replace (S n * K) with (K + n * K) by lia. rewrite seq_app, map_app.
  replace (S b0 * K) with (b0 * K + K) by lia. f_equal.
  apply (nth_ext _ _ 0%N 0%N); rewrite img_length by assumption; [now rewrite map_length, seq_length|].
  intros i Hi. rewrite nth_map_seq by assumption. symmetry. now apply uimg_block.
Qed.

Lemma image_units : forall K d j, wf K d -> image K d j = map (uimg K (fl d) j) (seq 0 (nblk d * K)).
Proof. intros K d j W. apply (blocks_units K d j (nblk d) 0 W). Qed.

Lemma image_length : forall K d j, wf K d -> length (image K d j) = nblk d * K.
Proof. intros K d j W. now rewrite image_units, map_length, seq_length. Qed.

Lemma image_nth : forall K d j u, wf K d -> u < nblk d * K ->
  nth u (image K d j) 0%N = uimg K (fl d) j u.
Proof. intros K d j u W Hu. rewrite image_units by assumption. now apply nth_map_seq. Qed.

Lemma image_slice : forall K d j off len, wf K d -> off + len <= nblk d * K ->
  firstn len (skipn off (image K d j)) = map (uimg K (fl d) j) (seq off len).
Proof.
  intros K d j off len W H.
  rewrite image_units, skipn_map, firstn_map, skipn_seq, firstn_seq by (assumption || lia). reflexivity.
Qed.

Lemma memo_image : forall K d d' j, memo d d' -> image K d' j = image K d j.
Proof. intros K d d' j M. unfold image. now rewrite (memo_fl _ _ M), (memo_nblk _ _ M). Qed.

(** the blocks [q .. q1] that ReadAt fetches for units [q * K + r, q * K + r + len) cover them *)
Lemma read_cover : forall K q r q1 r1 len nb, r1 < K -> 0 < len ->
  q * K + r + len - 1 = q1 * K + r1 -> q * K + r + len <= nb * K ->
  q + S (q1 - q) <= nb /\ r + len <= S (q1 - q) * K.
Proof.
  intros K q r q1 r1 len nb Hr1 Hlen E Hnb. assert (Hq : q <= q1) by nia. assert (q1 < nb) by nia.
  pose proof (Nat.mul_le_mono_r q q1 K Hq). split; [lia|]. rewrite Nat.mul_succ_l, Nat.mul_sub_distr_r. lia.
Qed.

Theorem read_at_spec : forall K d off len, 0 < K -> wf K d -> off + len <= nblk d * K ->
  let '(x, d') := read_at K d off len in
  x = map (uimg K (fl d) (nf d)) (seq off len) /\ memo d d'.
Proof.
  intros K d off len HK W Hr. unfold read_at. destruct len as [|len'].
  - split; [reflexivity| apply memo_refl; apply W].
  - set (len := S len') in *.
    pose proof (Nat.div_mod off K ltac:(lia)) as Hdm.
    pose proof (Nat.div_mod (off + len - 1) K ltac:(lia)) as Hdm1.
    pose proof (Nat.mod_upper_bound (off + len - 1) K ltac:(lia)) as Hmo1.
    destruct (read_cover K (off / K) (off mod K) ((off + len - 1) / K) ((off + len - 1) mod K) len (nblk d))
      as (Hb & Hc); try lia.
    pose proof (full_read_spec K _ d (off / K) (wf_nf _ _ W) (wf_loc _ _ W) Hb) as HR.
    destruct (full_read K d (S ((off + len - 1) / K - off / K)) (off / K)) as [blks d']. destruct HR as (-> & Hm).
    split; [|assumption].
    rewrite blocks_units, skipn_map, firstn_map, skipn_seq, firstn_seq by (assumption || lia).
    f_equal. f_equal. lia.
Qed.

Lemma read_whole : forall K d, 0 < K -> wf K d ->
  let '(x, d') := read_at K d 0 (nblk d * K) in x = image K d (nf d) /\ memo d d'.
Proof.
  intros K d HK W.
  pose proof (read_at_spec K d 0 (nblk d * K) HK W ltac:(lia)) as H.
  destruct (read_at K d 0 (nblk d * K)) as [x d']. destruct H as (-> & Hm). split; [|assumption].
  symmetry. now apply image_units.
Qed.

Lemma read_all_image : forall K d, 0 < K -> wf K d -> fst (read_all K d) = image K d (nf d).
Proof.
  intros K d HK W. pose proof (read_whole K d HK W) as RW. unfold read_all.
  destruct (read_at K d 0 (nblk d * K)) as [x d2]. now destruct RW as (-> & _).
Qed.

(** ** reads under an injected fault *)
Lemma lookup_memo_from : forall d0 d b, 1 <= nf d0 -> memo d0 d ->
  memo d0 (set_loc d (snd (lookup d b))).
Proof.
  intros d0 d b Hnf M. pose proof (lookup_memo d b) as HL. destruct (lookup d b) as [t l].
  apply (memo_trans d0 d); [exact M|]. apply HL; [now rewrite (memo_nf _ _ M)|exact (memo_loc_ok _ _ M)].
Qed.

Lemma fr_loop_memo : forall i cnt d0 d target b, 1 <= nf d0 -> memo d0 d ->
  memo d0 (snd (fr_loop d i target cnt b)).
Proof.
  intros i cnt. induction cnt as [|cnt IH]; intros d0 d target b Hnf M; cbn [fr_loop]; [exact M|].
  pose proof (lookup_memo_from d0 d b Hnf M) as HL. destruct (lookup d b) as [nt l]. cbn [snd] in HL.
  destruct (nt =? target); [now apply IH|]. destruct (hit i target); [exact HL|now apply IH].
Qed.

Lemma full_read_fault_memo : forall d0 d i cnt b, 1 <= nf d0 -> memo d0 d ->
  memo d0 (snd (full_read_fault d i cnt b)).
Proof.
  intros d0 d i cnt b Hnf M. destruct cnt as [|cnt]; cbn [full_read_fault]; [exact M|].
  pose proof (lookup_memo_from d0 d b Hnf M) as HL. destruct (lookup d b) as [t l]. now apply fr_loop_memo.
Qed.

Theorem read_at_fault_memo : forall K d off len i, 1 <= nf d -> loc_ok d ->
  memo d (snd (read_at_fault K d off len i)).
Proof.
  intros K d off len i Hnf Hok. pose proof (memo_refl d Hok) as M0. unfold read_at_fault.
  destruct (len =? 0); [exact M0|].
  destruct ((off mod K =? 0) && ((len + off) mod K =? 0)); [now apply full_read_fault_memo|].
  pose proof (full_read_fault_memo d d i 1 (off / K) Hnf M0) as M1.
  destruct (full_read_fault d i 1 (off / K)) as [f1 d1]. cbn [snd] in M1.
  destruct f1; [exact M1|]. destruct (len <=? K - off mod K); [exact M1|].
  pose proof (full_read_fault_memo d d1 i ((len - (len + off) mod K - (K - off mod K)) / K) ((off + (K - off mod K)) / K) Hnf M1) as M2.
  destruct (full_read_fault d1 i ((len - (len + off) mod K - (K - off mod K)) / K) ((off + (K - off mod K)) / K)) as [f2 d2].
  cbn [snd] in M2.
  destruct f2; [exact M2|]. destruct ((len + off) mod K =? 0); [exact M2|]. now apply full_read_fault_memo.
Qed.

Lemma lookup_target_memo : forall d d' b, 1 <= nf d -> memo d d' ->
  fst (lookup d' b) = fst (lookup d b).
Proof.
  intros d d' b Hnf M. unfold lookup. rewrite (memo_nf _ _ M), (memo_fl _ _ M), (memo_nblk _ _ M).
  destruct (nblk d <=? b); [reflexivity|]. destruct (nf d =? 1); [reflexivity|].
  destruct (memo_loc _ _ b M) as [H|H].
  - rewrite H. destruct (loc d b); reflexivity.
  - rewrite H. destruct (loc d' b) as [|t] eqn:El; [reflexivity|]. cbn [fst].
    rewrite <- El. rewrite (loc_ok_probe d' b) by (rewrite ?(memo_nf _ _ M), ?El; (assumption || exact (memo_loc_ok _ _ M) || discriminate)).
    now rewrite (memo_nf _ _ M), (memo_fl _ _ M).
Qed.

Lemma hits_memo : forall i d d' b cnt, 1 <= nf d -> memo d d' ->
  existsb (fun k => hit i (fst (lookup d' (S b + k)))) (seq 0 cnt) =
  existsb (fun k => hit i (fst (lookup d (b + k)))) (seq 1 cnt).
Proof.
  intros i d d' b cnt Hnf M. rewrite <- seq_shift. induction (seq 0 cnt) as [|k l IH]; [reflexivity|].
  cbn [map existsb]. now rewrite IH, (lookup_target_memo d d' (S b + k) Hnf M), Nat.add_succ_r.
Qed.

Lemma fr_loop_iff : forall i cnt d target b, 1 <= nf d -> loc_ok d ->
  fst (fr_loop d i target cnt b) =
  hit i target || existsb (fun k => hit i (fst (lookup d (b + k)))) (seq 0 cnt).
Proof.
  intros i cnt. induction cnt as [|cnt IH]; intros d target b Hnf Hok; cbn [fr_loop seq existsb].
  - cbn [fst]. now rewrite orb_false_r.
  - pose proof (lookup_memo d b Hnf Hok) as HL. rewrite Nat.add_0_r.
    destruct (lookup d b) as [nt l] eqn:El. cbn [fst].
    pose proof (memo_loc_ok _ _ HL) as Hok1.
    pose proof (hits_memo i d (set_loc d l) b cnt Hnf HL) as Hrest.
    destruct (Nat.eqb_spec nt target) as [->|Hne].
    + rewrite IH by assumption. rewrite Hrest. destruct (hit i target); reflexivity.
    + destruct (hit i target) eqn:Eh; [reflexivity|]. cbn [orb].
      rewrite IH by assumption. now rewrite Hrest.
Qed.

Theorem full_read_fault_iff : forall d i cnt b, 1 <= nf d -> loc_ok d ->
  fst (full_read_fault d i cnt b) = existsb (fun k => hit i (fst (lookup d (b + k)))) (seq 0 cnt).
Proof.
  intros d i cnt b Hnf Hok. destruct cnt as [|cnt]; [reflexivity|]. cbn [full_read_fault seq existsb].
  pose proof (lookup_memo d b Hnf Hok) as HL. rewrite Nat.add_0_r.
  destruct (lookup d b) as [t l] eqn:El. cbn [fst].
  pose proof (memo_loc_ok _ _ HL) as Hok1.
  rewrite fr_loop_iff by assumption. f_equal. now apply hits_memo.
Qed.
