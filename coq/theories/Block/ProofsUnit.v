(** * Block: WriteAt at unit granularity.  The three-way split is a plan of readModifyWrite and
    fullWriteAt steps; every step is a memoising read followed by a block-aligned write, and the
    ranges of the steps tile [off, off + len). *)
From Coq Require Import List Arith Bool NArith Lia.
From Jiva Require Import Block.Model Block.Lemmas Block.ProofsWrite.
Import ListNotations.

(** ** facts about lists that the standard library of Coq 8.16 does not have *)
Lemma nth_firstn_lt : forall A (l : list A) n i d, i < n -> nth i (firstn n l) d = nth i l d.
Proof.
  induction l as [|x l IH]; intros n i d H.
  - rewrite firstn_nil. reflexivity.
  - destruct n; [lia|]. destruct i; [reflexivity|]. cbn. apply IH. lia.
Qed.

Lemma nth_skipn_add : forall A (l : list A) n i d, nth i (skipn n l) d = nth (n + i) l d.
Proof.
  induction l as [|x l IH]; intros n i d.
  - rewrite skipn_nil. destruct i; destruct (n + _); reflexivity.
  - destruct n; [reflexivity|]. cbn. apply IH.
Qed.

Lemma firstn_plus : forall A (l : list A) a b, firstn (a + b) l = firstn a l ++ firstn b (skipn a l).
Proof.
  induction l as [|x l IH]; intros a b.
  - rewrite skipn_nil, !firstn_nil. reflexivity.
  - destruct a; [reflexivity|]. cbn. f_equal. apply IH.
Qed.

Lemma skipn_plus : forall A (l : list A) a b, skipn a (skipn b l) = skipn (b + a) l.
Proof.
  induction l as [|x l IH]; intros a b.
  - rewrite !skipn_nil. reflexivity.
  - destruct b; [reflexivity|]. cbn. apply IH.
Qed.

Lemma firstn_mid_skipn : forall A (l : list A) a m, firstn a l ++ firstn m (skipn a l) ++ skipn (a + m) l = l.
Proof. intros. now rewrite <- skipn_plus, !firstn_skipn. Qed.

Lemma skipn_seq : forall o a n, skipn o (seq a n) = seq (a + o) (n - o).
Proof.
  induction o as [|o IH]; intros a n; [now rewrite Nat.add_0_r, Nat.sub_0_r|].
  destruct n; [reflexivity|]. cbn [seq skipn]. rewrite IH. f_equal. lia.
Qed.

Lemma firstn_seq : forall len a n, len <= n -> firstn len (seq a n) = seq a len.
Proof.
  induction len as [|len IH]; intros a n H; [reflexivity|].
  destruct n; [lia|]. cbn [seq firstn]. f_equal. apply IH. lia.
Qed.

Lemma nth_error_firstn_some : forall A (l : list A) n k e, nth_error (firstn n l) k = Some e ->
  nth_error l k = Some e.
Proof.
  induction l as [|x l IH]; intros n k e H; [now rewrite firstn_nil in H|].
  destruct n; [destruct k; discriminate|]. destruct k; [exact H|]. exact (IH n k e H).
Qed.

Lemma nth_map_seq : forall A (f : nat -> A) (dflt : A) a n k, k < n -> nth k (map f (seq a n)) dflt = f (a + k).
Proof.
  intros A f dflt a n k H. rewrite (nth_indep _ dflt (f 0)) by (now rewrite map_length, seq_length).
  rewrite map_nth, seq_nth by assumption. reflexivity.
Qed.

Lemma length_splice : forall (old buf : list N) o, o + length buf <= length old ->
  length (splice old o buf) = length old.
Proof.
  intros. unfold splice. rewrite !app_length, firstn_length, skipn_length. lia.
Qed.

Lemma nth_splice : forall (old buf : list N) o i, o + length buf <= length old ->
  nth i (splice old o buf) 0%N =
  if in_range o (length buf) i then nth (i - o) buf 0%N else nth i old 0%N.
Proof.
  intros old buf o i H. unfold splice.
  assert (Hf : length (firstn o old) = o) by (rewrite firstn_length; lia).
  destruct (in_range_spec o (length buf) i) as [E|E].
  - rewrite app_nth2 by lia. rewrite Hf. rewrite app_nth1 by lia. reflexivity.
  - destruct (Nat.lt_ge_cases i o).
    + rewrite app_nth1 by lia. apply nth_firstn_lt. assumption.
    + rewrite app_nth2 by lia. rewrite Hf. rewrite app_nth2 by lia.
      rewrite nth_skipn_add. f_equal. lia.
Qed.

Lemma nth_firstn_lt_N : forall (l : list N) n i, i < n -> nth i (firstn n l) 0%N = nth i l 0%N.
Proof. intros. now apply nth_firstn_lt. Qed.

Lemma concat_uniform_length : forall K (blocks : list (list N)),
  (forall v, In v blocks -> length v = K) -> length (concat blocks) = length blocks * K.
Proof.
  intros K blocks Hl. induction blocks as [|v r IH]; [reflexivity|].
  cbn [concat length]. rewrite app_length, IH.
  - rewrite (Hl v) by (left; reflexivity). lia.
  - intros; apply Hl; right; assumption.
Qed.

Lemma nth_concat_block : forall K (blocks : list (list N)) q i,
  (forall v, In v blocks -> length v = K) -> i < K ->
  nth (q * K + i) (concat blocks) 0%N = nth i (nth q blocks []) 0%N.
Proof.
  induction blocks as [|v r IH]; intros q i Hl Hi.
  - (* every [nth] of an empty list is the default *) destruct q, i, (_ + _); reflexivity.
  - cbn [concat]. pose proof (Hl v (or_introl eq_refl)) as Hv. destruct q as [|q].
    + now rewrite app_nth1 by lia.
    + rewrite app_nth2 by (cbn [Nat.mul]; lia). replace (S q * K + i - length v) with (q * K + i) by (cbn [Nat.mul]; lia).
      apply IH; [|assumption]. intros; apply Hl; right; assumption.
Qed.

Lemma chunks_length : forall K n l, length (chunks K n l) = n.
Proof. induction n; intros; cbn; [reflexivity| now rewrite IHn]. Qed.

Lemma chunks_len : forall K n l v, n * K <= length l -> In v (chunks K n l) -> length v = K.
Proof.
  induction n as [|n IH]; intros l v Hl Hin; [destruct Hin|].
  cbn in Hin. destruct Hin as [<-|Hin].
  - rewrite firstn_length. cbn in Hl. lia.
  - apply (IH (skipn K l)); [|assumption]. rewrite skipn_length. cbn in Hl. lia.
Qed.

Lemma concat_chunks : forall K n l, n * K <= length l -> concat (chunks K n l) = firstn (n * K) l.
Proof.
  induction n as [|n IH]; intros l Hl; [reflexivity|].
  cbn [chunks concat]. rewrite IH by (rewrite skipn_length; cbn in Hl; lia).
  replace (S n * K) with (K + n * K) by lia. rewrite firstn_plus. reflexivity.
Qed.

(** the image unit by unit: what WriteAt and ReadAt at unit granularity are stated about *)
Definition uimg (K : nat) (fls : nat -> file) (j u : nat) : N :=
  nth (u mod K) (img K fls j (u / K)) 0%N.

Lemma unit_split : forall K u, 0 < K -> exists b i, i < K /\ u = b * K + i.
Proof.
  intros K u HK. exists (u / K), (u mod K). split; [apply Nat.mod_upper_bound; lia|].
  rewrite Nat.mul_comm. apply Nat.div_mod. lia.
Qed.

Lemma uimg_block : forall K fls j b i, i < K -> uimg K fls j (b * K + i) = nth i (img K fls j b) 0%N.
Proof.
  intros K fls j b i Hi. unfold uimg.
  rewrite Nat.div_add_l, Nat.div_small, Nat.add_0_r by lia.
  rewrite Nat.add_comm, Nat.mod_add, Nat.mod_small by lia. reflexivity.
Qed.

Lemma img_length : forall K d j b, wf K d -> length (img K (fl d) j b) = K.
Proof.
  intros K d j b W. unfold img. destruct (top (fl d) j b) as [v|] eqn:E.
  - destruct (top_some_inv _ _ _ _ E) as (i & _ & Hv & _). eapply wf_len; eauto.
  - apply repeat_length.
Qed.

(** what a write makes of [uimg] *)
Definition upd_range (f : nat -> N) (lo : nat) (data : list N) (u : nat) : N :=
  if in_range lo (length data) u then nth (u - lo) data 0%N else f u.

Lemma upd_range_nil : forall f lo u, upd_range f lo [] u = f u.
Proof. intros. unfold upd_range. destruct (in_range_spec lo (length (@nil N)) u); [cbn in *; lia|reflexivity]. Qed.

Lemma upd_range_app : forall f lo a b u,
  upd_range (upd_range f lo a) (lo + length a) b u = upd_range f lo (a ++ b) u.
Proof.
  intros. unfold upd_range. rewrite app_length.
  destruct (in_range_spec (lo + length a) (length b) u); destruct (in_range_spec lo (length a + length b) u);
    destruct (in_range_spec lo (length a) u); try lia.
  - rewrite app_nth2 by lia. f_equal. lia.
  - rewrite app_nth1 by lia. reflexivity.
Qed.

Lemma upd_range_ext : forall f g lo a u, (forall x, f x = g x) -> upd_range f lo a u = upd_range g lo a u.
Proof. intros. unfold upd_range. destruct (in_range lo (length a) u); auto. Qed.

Lemma upd_range_splice : forall (f : nat -> N) lo old o buf u, o + length buf <= length old ->
  (forall i, i < length old -> f (lo + i) = nth i old 0%N) ->
  upd_range f lo (splice old o buf) u = upd_range f (lo + o) buf u.
Proof.
  intros f lo old o buf u Hfit Hold. unfold upd_range. rewrite length_splice by assumption.
  destruct (in_range_spec lo (length old) u) as [E|E]; destruct (in_range_spec (lo + o) (length buf) u) as [F|F];
    try lia; try reflexivity; rewrite nth_splice by assumption;
    destruct (in_range_spec o (length buf) (u - lo)); try lia.
  - f_equal. lia.
  - rewrite <- Hold by lia. f_equal. lia.
Qed.

Lemma upd_range_blocks : forall K (f : nat -> N) (g : nat -> list N) s blocks b i,
  (forall v, In v blocks -> length v = K) -> i < K -> f (b * K + i) = nth i (g b) 0%N ->
  upd_range f (s * K) (concat blocks) (b * K + i) =
  nth i (if in_range s (length blocks) b then nth (b - s) blocks [] else g b) 0%N.
Proof.
  intros K f g s blocks b i Hl Hi Hf. unfold upd_range. rewrite (concat_uniform_length K) by assumption.
  destruct (in_range_spec s (length blocks) b) as [E|E];
    destruct (in_range_spec (s * K) (length blocks * K) (b * K + i)) as [E'|E'];
    [|exfalso; nia|exfalso; nia|exact Hf].
  replace (b * K + i - s * K) with ((b - s) * K + i) by nia. now apply nth_concat_block.
Qed.

Lemma fw_uimg : forall K d start blocks d1 hs u, 0 < K -> wf K d ->
  (forall v, In v blocks -> length v = K) ->
  fw_post d start blocks d1 hs ->
  uimg K (fl d1) (nf d) u = upd_range (uimg K (fl d) (nf d)) (start * K) (concat blocks) u.
Proof.
  intros K d start blocks d1 hs u HK W Hl P. destruct (unit_split K u HK) as (b & i & Hi & ->).
  rewrite (upd_range_blocks K _ (img K (fl d) (nf d)) start blocks b i Hl Hi (uimg_block _ _ _ _ _ Hi)).
  rewrite uimg_block by assumption. unfold img. rewrite (fw_top _ _ _ _ _ b (wf_nf _ _ W) P).
  destruct (in_range start (length blocks) b); reflexivity.
Qed.

(** ** diffDisk.WriteAt as a plan of primitive steps (readModifyWrite / fullWriteAt) *)
Inductive prim := PR (buf : list N) (off : nat) | PF (start : nat) (blocks : list (list N)).

Definition plan (K : nat) (data : list N) (off : nat) : list prim :=
  let len := length data in
  let so := off mod K in
  let sc := K - so in
  let eo := (len + off) mod K in
  if len =? 0 then []
  else if (so =? 0) && (eo =? 0) then [PF (off / K) (chunks K (len / K) data)]
  else if len <=? sc then [PR data off]
  else
    let mid := firstn (len - eo - sc) (skipn sc data) in
    [PR (firstn sc data) off; PF ((off + sc) / K) (chunks K (length mid / K) mid);
     PR (skipn (len - eo) data) (off + len - eo)].

Definition exec_prim (K : nat) (d : dd) (p : prim) : dd * list hole :=
  match p with PR buf off => rmw true K d buf off | PF s bl => full_write true d s bl end.

Fixpoint exec_plan (K : nat) (d : dd) (ps : list prim) : dd * list hole :=
  match ps with
  | [] => (d, [])
  | p :: r => let '(d1, h1) := exec_prim K d p in let '(d2, h2) := exec_plan K d1 r in (d2, h1 ++ h2)
  end.

Lemma write_at_plan : forall K d data off, write_at true K d data off = exec_plan K d (plan K data off).
Proof.
  intros K d data off. unfold write_at, plan.
  destruct (length data =? 0); [reflexivity|].
  destruct ((off mod K =? 0) && ((length data + off) mod K =? 0)).
  { cbn [exec_plan exec_prim]. destruct (full_write true d _ _) as [d1 h1]. now rewrite app_nil_r. }
  destruct (length data <=? K - off mod K).
  { cbn [exec_plan exec_prim]. destruct (rmw true K d data off) as [d1 h1]. now rewrite app_nil_r. }
  cbn [exec_plan exec_prim].
  destruct (rmw true K d _ off) as [d1 h1].
  destruct (full_write true d1 _ _) as [d2 h2].
  destruct (rmw true K d2 _ _) as [d3 h3]. now rewrite app_nil_r.
Qed.

Lemma write_at_aligned : forall fx K d data off, off mod K = 0 -> (length data + off) mod K = 0 ->
  write_at fx K d data off =
  if length data =? 0 then (d, []) else full_write fx d (off / K) (chunks K (length data / K) data).
Proof.
  intros fx K d data off A B. unfold write_at. rewrite A, B. cbn [Nat.eqb andb].
  destruct (length data =? 0); reflexivity.
Qed.

Definition prim_ok (K nb : nat) (p : prim) : Prop :=
  match p with
  | PR buf off => buf = [] \/ (off mod K + length buf <= K /\ off / K < nb)
  | PF s bl => s + length bl <= nb /\ forall v, In v bl -> length v = K
  end.

Lemma prim_ok_PR : forall K nb buf off q r, off = K * q + r -> r + length buf <= K ->
  (length buf <> 0 -> q < nb) -> prim_ok K nb (PR buf off).
Proof.
  intros K nb [|x buf] off q r -> Hfit Hq; [now left|right]. cbn [length] in *.
  rewrite (Nat.mul_comm K q), (Nat.add_comm (q * K) r), Nat.mod_add, Nat.mod_small, Nat.div_add, Nat.div_small by lia.
  split; [lia|apply Hq; lia].
Qed.

(** the block-aligned write a step amounts to: (first block, blocks) *)
Definition prim_fw (K : nat) (d : dd) (p : prim) : nat * list blockdata :=
  match p with
  | PR [] _ => (0, [])
  | PR buf off => (off / K, [splice (img K (fl d) (nf d) (off / K)) (off mod K) buf])
  | PF s bl => (s, bl)
  end.

Lemma fw_post_nil : forall d s, fw_post d s [] d [].
Proof.
  intros d s. assert (E : forall b, in_range s 0 b = false) by (intros b; destruct (in_range_spec s 0 b); [lia|reflexivity]).
  constructor; cbn [length]; intros; rewrite ?E; auto using same_meta_refl. intros f s' l [].
Qed.

Lemma exec_prim_fw : forall K d p, wf K d -> prim_ok K (nblk d) p ->
  exists d', memo d d' /\
    let '(s, bl) := prim_fw K d p in let '(d1, hs) := exec_prim K d p in
    s + length bl <= nblk d /\ (forall v, In v bl -> length v = K) /\ fw_post d' s bl d1 hs.
Proof.
  intros K d [buf off|s bl] W Hp; cbn [exec_prim prim_fw prim_ok] in *.
  - destruct buf as [|x buf'].
    { exists d. split; [apply memo_refl, W|]. cbn [rmw length]. split; [lia|]. split; [intros v []|apply fw_post_nil]. }
    destruct Hp as [Hp|(Hfit & Hb)]; [discriminate|]. unfold rmw. set (buf := x :: buf') in *.
    pose proof (full_read_spec K 1 d (off / K) (wf_nf _ _ W) (wf_loc _ _ W) ltac:(lia)) as HR.
    destruct (full_read K d 1 (off / K)) as [blks d']. destruct HR as (-> & M). cbn [seq map].
    exists d'. split; [exact M|].
    pose proof (full_write_spec d' (off / K) [splice (img K (fl d) (nf d) (off / K)) (off mod K) buf] (memo_loc_ok _ _ M)) as P.
    destruct (full_write true d' (off / K) _) as [d1 hs].
    split; [cbn [length]; lia|]. split; [|exact P].
    intros v [<-|[]]. rewrite length_splice; rewrite img_length by assumption; lia.
  - exists d. split; [apply memo_refl, W|].
    pose proof (full_write_spec d s bl (wf_loc _ _ W)) as P. destruct (full_write true d s bl) as [d1 hs].
    destruct Hp as (Hr & Hl). auto.
Qed.

Definition prim_off (K : nat) (p : prim) : nat := match p with PR _ off => off | PF s _ => s * K end.
Definition prim_data (p : prim) : list N := match p with PR buf _ => buf | PF _ bl => concat bl end.

Fixpoint tiles (K off : nat) (ps : list prim) : Prop :=
  match ps with
  | [] => True
  | p :: r => prim_off K p = off /\ tiles K (off + length (prim_data p)) r
  end.

(** the three-way split over the numbers: from unit [r] of block [q] to unit [eo] of block [q2],
    beyond the end of block [q] *)
Lemma split3 : forall K q r q2 eo len nb, r < K -> eo < K -> K - r < len ->
  len + (K * q + r) = K * q2 + eo -> K * q + r + len <= nb * K ->
  exists n, q2 = q + 1 + n /\ len = (K - r) + n * K + eo /\ q2 <= nb /\ (eo <> 0 -> q2 < nb).
Proof.
  intros K q r q2 eo len nb Hr He Hlen Heq Hnb.
  assert (H1 : q + 1 <= q2) by nia. exists (q2 - (q + 1)).
  assert (H2 : K * q2 = K * (q + 1) + (q2 - (q + 1)) * K) by nia.
  assert (H3 : q2 <= nb) by nia. assert (H4 : eo <> 0 -> q2 < nb) by nia.
  split; [lia|]. split; [lia|]. split; assumption.
Qed.

Lemma plan_spec : forall K nb data off, 0 < K -> off + length data <= nb * K ->
  Forall (prim_ok K nb) (plan K data off) /\ tiles K off (plan K data off) /\
  flat_map prim_data (plan K data off) = data.
Proof.
  intros K nb data off HK Hrange. unfold plan. assert (HK0 : K <> 0) by lia.
  pose proof (Nat.div_mod off K HK0) as Hdm. pose proof (Nat.mod_upper_bound off K HK0) as Hmo.
  pose proof (Nat.div_mod (length data + off) K HK0) as Hdm2.
  pose proof (Nat.mod_upper_bound (length data + off) K HK0) as Hmo2.
  (* quotients and remainders become opaque numbers here, because [lia] is slow to check on div and mod *)
  set (q := off / K) in *. set (r := off mod K) in *.
  set (q2 := (length data + off) / K) in *. set (eo := (length data + off) mod K) in *. clearbody q r q2 eo.
  destruct (Nat.eqb_spec (length data) 0) as [E0|N0].
  { destruct data; [|discriminate]. repeat constructor. }
  destruct ((r =? 0) && (eo =? 0)) eqn:Eal.
  { (* aligned: whole blocks *)
    apply andb_true_iff in Eal. destruct Eal as [A1 A2]. apply Nat.eqb_eq in A1, A2.
    assert (Hlen : length data = (q2 - q) * K) by nia.
    replace (length data / K) with (q2 - q) by (rewrite Hlen; symmetry; now apply Nat.div_mul).
    cbn [flat_map prim_data tiles prim_off]. rewrite app_nil_r, concat_chunks, <- Hlen, firstn_all by lia.
    split; [|split; [split; [lia|exact I]|reflexivity]].
    constructor; [|constructor]. split; [rewrite chunks_length; nia|]. intros v. apply chunks_len. lia. }
  destruct (Nat.leb_spec (length data) (K - r)) as [Hsingle|Hmulti].
  { (* inside one block *)
    cbn [flat_map prim_data tiles prim_off]. rewrite app_nil_r.
    split; [|split; [split; [reflexivity|exact I]|reflexivity]].
    constructor; [|constructor]. apply (prim_ok_PR K nb data off q r Hdm); [lia|nia]. }
  (* head fragment, whole blocks, tail fragment *)
  destruct (split3 K q r q2 eo (length data) nb) as (n & -> & Hlen & Hq2 & Hlast); try lia.
  set (sc := K - r) in *. assert (Hsc : r + sc = K) by lia. clearbody sc.
  replace (length data - eo - sc) with (n * K) by lia. replace (length data - eo) with (sc + n * K) by lia.
  replace (off + sc) with ((q + 1) * K) by lia. replace (off + length data - eo) with ((q + 1 + n) * K) by lia.
  set (A := firstn sc data). set (mid := firstn (n * K) (skipn sc data)). set (C := skipn (sc + n * K) data).
  assert (HlenA : length A = sc) by (apply firstn_length_le; lia).
  assert (HlenM : length mid = n * K) by (apply firstn_length_le; rewrite skipn_length; lia).
  assert (HlenC : length C = eo) by (unfold C; rewrite skipn_length; lia).
  rewrite HlenM, !Nat.div_mul by exact HK0.
  cbn [flat_map prim_data tiles prim_off].
  rewrite app_nil_r, (concat_chunks K n mid) by (rewrite HlenM; apply le_n). rewrite <- HlenM, firstn_all.
  split; [|split; [|apply firstn_mid_skipn]].
  - constructor; [|constructor; [|constructor; [|constructor]]].
    + apply (prim_ok_PR K nb A off q r Hdm); lia.
    + split; [rewrite chunks_length; lia|]. intros v. apply chunks_len. lia.
    + apply (prim_ok_PR K nb C _ (q + 1 + n) 0); [lia|lia|]. rewrite HlenC. exact Hlast.
  - split; [reflexivity|]. split; [lia|]. split; [lia|exact I].
Qed.

(** what a property [Q] of a state change needs to pass from memoising reads and block-aligned writes to WriteAt *)
Record lifts (K : nat) (Q : dd -> dd -> list hole -> Prop) : Prop := {
  lf_refl : forall d, wf K d -> Q d d [];
  lf_trans : forall d d1 d2 h1 h2, Q d d1 h1 -> Q d1 d2 h2 -> Q d d2 (h1 ++ h2);
  lf_memo : forall d d', wf K d -> memo d d' -> Q d d' [];
  lf_fw : forall d s bl d1 h, wf K d -> s + length bl <= nblk d -> (forall v, In v bl -> length v = K) ->
                              fw_post d s bl d1 h -> Q d d1 h
}.

Lemma stage_lifts : forall K, lifts K (stage K).
Proof. intros K. constructor; [apply stage_refl|apply stage_trans|apply stage_memo|apply stage_fw]. Qed.

Lemma exec_prim_lift : forall K Q d p, lifts K Q -> wf K d -> prim_ok K (nblk d) p ->
  let '(d1, h) := exec_prim K d p in Q d d1 h.
Proof.
  intros K Q d p L W Hp.
  destruct (exec_prim_fw K d p W Hp) as (d' & M & H). destruct (prim_fw K d p) as [s bl].
  destruct (exec_prim K d p) as [d1 h1]. destruct H as (Hr & Hl & P).
  rewrite <- (memo_nblk _ _ M) in Hr. change h1 with ([] ++ h1).
  apply (lf_trans K Q L d d'); [now apply (lf_memo K Q L)|].
  apply (lf_fw K Q L d' s bl); auto. exact (memo_wf K _ _ M W).
Qed.

Lemma exec_plan_lift : forall K Q ps d, lifts K Q -> wf K d -> Forall (prim_ok K (nblk d)) ps ->
  let '(d1, h) := exec_plan K d ps in Q d d1 h.
Proof.
  intros K Q ps. induction ps as [|p ps IH]; intros d L W Hok; [now apply (lf_refl K Q L)|].
  inversion Hok as [|? ? Hp Hps]; subst. cbn [exec_plan].
  pose proof (exec_prim_lift K Q d p L W Hp) as Q1. pose proof (exec_prim_lift K _ d p (stage_lifts K) W Hp) as S1.
  destruct (exec_prim K d p) as [d1 h1].
  specialize (IH d1 L (st_wf _ _ _ _ S1)). rewrite (sm_nblk _ _ (st_meta _ _ _ _ S1)) in IH. specialize (IH Hps).
  destruct (exec_plan K d1 ps) as [d2 h2]. exact (lf_trans K Q L _ _ _ _ _ Q1 IH).
Qed.

Lemma write_at_lift : forall K Q d data off, lifts K Q -> 0 < K -> wf K d -> off + length data <= nblk d * K ->
  let '(d1, h) := write_at true K d data off in Q d d1 h.
Proof.
  intros K Q d data off L HK W Hr. rewrite write_at_plan. apply exec_plan_lift; [exact L|exact W|]. now apply plan_spec.
Qed.

(** ** WriteAt: the three-way split writes exactly [off, off + len) *)
Lemma exec_prim_spec : forall K d p, 0 < K -> wf K d -> prim_ok K (nblk d) p ->
  let '(d1, hs) := exec_prim K d p in
  stage K d d1 hs /\
  forall u, uimg K (fl d1) (nf d) u = upd_range (uimg K (fl d) (nf d)) (prim_off K p) (prim_data p) u.
Proof.
  intros K d p HK W Hp.
  pose proof (exec_prim_lift K _ d p (stage_lifts K) W Hp) as S.
  destruct (exec_prim_fw K d p W Hp) as (d' & M & H).
  destruct (prim_fw K d p) as [s bl] eqn:Ef. destruct (exec_prim K d p) as [d1 hs]. destruct H as (_ & Hl & P).
  split; [exact S|]. intros u.
  rewrite <- (memo_nf _ _ M), (fw_uimg K d' s bl d1 hs u HK (memo_wf K _ _ M W) Hl P).
  rewrite (memo_nf _ _ M), (memo_fl _ _ M).
  destruct p as [[|x buf'] off|s0 bl0]; cbn [prim_fw prim_off prim_data] in *; inversion Ef; subst.
  - now rewrite !upd_range_nil.
  - cbn [concat]. rewrite app_nil_r. destruct Hp as [Hp|(Hfit & _)]; [discriminate|].
    rewrite upd_range_splice; rewrite ?img_length by assumption; [|exact Hfit|intros i Hi; now apply uimg_block].
    f_equal. pose proof (Nat.div_mod off K). lia.
  - reflexivity.
Qed.

Lemma exec_plan_spec : forall K ps d off, 0 < K -> wf K d -> Forall (prim_ok K (nblk d)) ps -> tiles K off ps ->
  let '(d1, hs) := exec_plan K d ps in
  stage K d d1 hs /\
  forall u, uimg K (fl d1) (nf d) u = upd_range (uimg K (fl d) (nf d)) off (flat_map prim_data ps) u.
Proof.
  intros K. induction ps as [|p ps IH]; intros d off HK W Hok Ht.
  - split; [now apply stage_refl|]. intros u. cbn [flat_map]. now rewrite upd_range_nil.
  - inversion Hok as [|? ? Hp Hps]; subst. destruct Ht as (<- & Ht). cbn [exec_plan flat_map].
    pose proof (exec_prim_spec K d p HK W Hp) as H1. destruct (exec_prim K d p) as [d1 h1]. destruct H1 as (S1 & U1).
    specialize (IH d1 _ HK (st_wf _ _ _ _ S1) ltac:(rewrite (sm_nblk _ _ (st_meta _ _ _ _ S1)); exact Hps) Ht).
    destruct (exec_plan K d1 ps) as [d2 h2]. destruct IH as (S2 & U2). rewrite (sm_nf _ _ (st_meta _ _ _ _ S1)) in U2.
    split; [exact (stage_trans _ _ _ _ _ _ S1 S2)|].
    intros u. rewrite U2, <- upd_range_app. apply upd_range_ext. exact U1.
Qed.

Theorem write_at_spec : forall K d data off, 0 < K -> wf K d ->
  off + length data <= nblk d * K ->
  let '(d1, hs) := write_at true K d data off in
  stage K d d1 hs /\
  forall u, uimg K (fl d1) (nf d) u = upd_range (uimg K (fl d) (nf d)) off data u.
Proof.
  intros K d data off HK W Hr. destruct (plan_spec K (nblk d) data off HK Hr) as (Hok & Ht & Hd).
  pose proof (exec_plan_spec K _ d off HK W Hok Ht) as H. now rewrite Hd, <- write_at_plan in H.
Qed.
