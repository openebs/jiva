(** * Block: the model (variant fx = true of fullWriteAt, the one /repo has) refines the flat specification.
    One simulation relation [Rel] with its frame lemmas over [kept] / [quiet]; a lemma for each operation that
    does more than refuse or memoise ([write_sim] .. [lun_sim], [deleted_sim]; the others are cases of
    [step_rel]); induction over histories. *)
From Coq Require Import List Arith Bool NArith Lia.
From Jiva Require Import Block.Model Block.Corr Block.Lemmas Block.ProofsWrite Block.ProofsUnit Block.ProofsRead
     Block.ProofsOps Block.ProofsPreload.
Import ListNotations.

Lemma listN_eqb_refl : forall l, listN_eqb l l = true.
Proof. induction l as [|x l IH]; [reflexivity|]. cbn. now rewrite N.eqb_refl, IH. Qed.

Lemma res_eqb_refl : forall r, res_eqb r r = true.
Proof. destruct r; reflexivity. Qed.

Lemma nth_error_app_l : forall A (l l' : list A) k, k < length l -> nth_error (l ++ l') k = nth_error l k.
Proof. intros. now apply nth_error_app1. Qed.

(** ** the simulation relation *)
Definition entry_ok (K : nat) (d : dd) (i : nat) (e : sentry) : Prop :=
  s_name e = nm d i /\ s_user e = usr d i /\ s_removed e = rmd d i /\
  (retained e = true -> s_img e = image K d i).

Record Rel (K : nat) (d : dd) (s : spec) : Prop := {
  r_size : size s = nblk d;
  r_live : live s = image K d (nf d);
  r_len : length (snaps s) = nf d - 1;
  r_snaps : forall i e, 1 <= i < nf d -> nth_error (snaps s) (i - 1) = Some e -> entry_ok K d i e
}.

Lemma rel_init : forall K nb p, Rel K (init nb p) (mkspec (repeat 0%N (nb * K)) [] nb).
Proof.
  intros K nb p. constructor; cbn [size live snaps init nblk nf].
  - reflexivity.
  - unfold image. cbn [init nblk fl nf]. symmetry. apply concat_zero_blocks. intros b _. reflexivity.
  - reflexivity.
  - intros i e Hi. lia.
Qed.

Lemma entry_ok_same : forall K d d' i i' e, entry_ok K d i e ->
  nm d' i' = nm d i -> usr d' i' = usr d i -> rmd d' i' = rmd d i ->
  (usr d i = true -> rmd d i = false -> image K d' i' = image K d i) -> entry_ok K d' i' e.
Proof.
  intros K d d' i i' e (A & B & C & D) E1 E2 E3 Him. unfold entry_ok. rewrite E1, E2, E3. repeat split; try assumption.
  intros Hr. rewrite (D Hr). symmetry. unfold retained in Hr. rewrite B, C in Hr. apply andb_true_iff in Hr.
  destruct Hr as [H1 H2]. apply negb_true_iff in H2. now apply Him.
Qed.

Lemma rel_kept : forall K d d' s, kept d d' -> Rel K d s ->
  Rel K d' (mkspec (image K d' (nf d)) (snaps s) (size s)).
Proof.
  intros K d d' s Q R. pose proof Q as [E1 E2 E3 E4 E5 _]. constructor; cbn [size live snaps].
  - rewrite E2. apply R.
  - now rewrite E1.
  - rewrite E1. apply R.
  - intros i e Hi Hn. rewrite E1 in Hi.
    apply (entry_ok_same K d d' i i e (r_snaps _ _ _ R i e Hi Hn)); [now rewrite E3|now rewrite E4|now rewrite E5|].
    intros Hu Hr. now apply kept_images.
Qed.

Lemma rel_quiet : forall K d d' s, quiet d d' -> Rel K d s -> Rel K d' s.
Proof.
  intros K d d' [lv sn sz] (Q & Hl) R.
  replace lv with (image K d' (nf d)); [exact (rel_kept K d d' _ Q R)|].
  transitivity (image K d (nf d)); [apply image_ext; [apply Q|assumption]|symmetry; exact (r_live _ _ _ R)].
Qed.

(** ** names: the specification's positions are the model's indices *)
Lemma pos_of_seq : forall d name n a,
  (pos_of (map (nm d) (seq a n)) name a = 0 /\ forall i, a <= i < a + n -> nm d i <> name) \/
  (a <= pos_of (map (nm d) (seq a n)) name a < a + n /\ nm d (pos_of (map (nm d) (seq a n)) name a) = name).
Proof.
  intros d name n. induction n as [|n IH]; intros a.
  - left. split; [reflexivity|intros; lia].
  - cbn [seq map pos_of]. destruct (N.eqb_spec (nm d a) name) as [E|N].
    + right. split; [lia|assumption].
    + destruct (IH (S a)) as [(A & B)|(A & B)].
      * left. split; [assumption|]. intros i Hi. destruct (Nat.eq_dec i a) as [->|]; [assumption|apply B; lia].
      * right. split; [lia|assumption].
Qed.

Lemma pos_of_find : forall d name, names_ok d ->
  pos_of (map (nm d) (seq 1 (nf d))) name 1 = find_name d name (nf d).
Proof.
  intros d name (_ & _ & Ninj).
  destruct (find_name_spec d name (nf d)) as (A & B & C).
  set (r := find_name d name (nf d)) in *.
  destruct (pos_of_seq d name (nf d) 1) as [(E & H)|(H1 & H2)].
  - rewrite E. destruct (Nat.eq_dec r 0) as [|Nr]; [congruence|]. exfalso. apply (H r); [lia|now apply B].
  - set (p := pos_of (map (nm d) (seq 1 (nf d))) name 1) in *.
    destruct (Nat.eq_dec r 0) as [E0|Nr].
    + exfalso. rewrite E0 in C. apply (C p); [lia|assumption].
    + apply Ninj; [lia|lia|]. rewrite H2. symmetry. now apply B.
Qed.

Lemma pos_of_snoc : forall l x name i, x <> name -> pos_of (l ++ [x]) name i = pos_of l name i.
Proof.
  induction l as [|y l IH]; intros x name i Hx; cbn [app pos_of].
  - destruct (N.eqb_spec x name); [contradiction|reflexivity].
  - destruct (N.eqb y name); [reflexivity|now apply IH].
Qed.

Lemma spos_pos_of : forall l name i, spos l name i = pos_of (map s_name l) name i.
Proof. induction l as [|e l IH]; intros name i; cbn; [reflexivity|]. now rewrite IH. Qed.

Lemma rel_entry : forall K d s n, Rel K d s -> n < nf d - 1 -> exists e, nth_error (snaps s) n = Some e.
Proof.
  intros K d s n R Hn. destruct (nth_error (snaps s) n) as [e|] eqn:E; [eauto|].
  apply nth_error_None in E. rewrite (r_len _ _ _ R) in E. lia.
Qed.

Lemma rel_names : forall K d s, Rel K d s -> map s_name (snaps s) = map (nm d) (seq 1 (nf d - 1)).
Proof.
  intros K d s R. apply (nth_ext _ _ 0%N 0%N).
  - now rewrite !map_length, seq_length, (r_len _ _ _ R).
  - intros n Hn. rewrite map_length, (r_len _ _ _ R) in Hn. rewrite nth_map_seq by assumption.
    destruct (rel_entry K d s n R Hn) as (e & En).
    rewrite (nth_indep _ 0%N (s_name e)) by (now rewrite map_length, (r_len _ _ _ R)).
    rewrite map_nth, (nth_error_nth _ _ e En).
    apply (r_snaps _ _ _ R (S n) e); [lia|]. now replace (S n - 1) with n by lia.
Qed.

Lemma spos_find : forall K d s name, names_ok d -> Rel K d s -> name <> 0%N ->
  spos (snaps s) name 1 = find_name d name (nf d).
Proof.
  intros K d s name N R Hn0. rewrite spos_pos_of, (rel_names K d s R), <- (pos_of_find d name N).
  destruct (nf d) as [|n] eqn:En; [reflexivity|]. replace (S n - 1) with n by lia.
  rewrite seq_S, map_app. symmetry. apply pos_of_snoc. cbn [plus]. rewrite <- En. destruct N as (-> & _). congruence.
Qed.

Lemma classify_eq : forall K d s name, names_ok d -> Rel K d s -> 1 <= nf d ->
  classify s name =
  if find_name d name (nf d) =? 0 then TAbsent else if find_name d name (nf d) =? nf d then THead
  else if S (find_name d name (nf d)) =? nf d then TLatest else if find_name d name (nf d) =? 1 then TBase
  else TMiddle (find_name d name (nf d)).
Proof.
  intros K d s name N R Hnf. unfold classify.
  destruct (N.eqb_spec name 0) as [E0|N0].
  - subst name. rewrite (find_head d N), Nat.eqb_refl. destruct (Nat.eqb_spec (nf d) 0); [lia|reflexivity].
  - rewrite (spos_find K d s name N R N0), (r_len _ _ _ R).
    pose proof (checkpoint_below_head d name N N0) as Hi. set (i := find_name d name (nf d)) in *.
    destruct (Nat.eqb_spec i 0); [reflexivity|]. destruct (Nat.eqb_spec i (nf d)); [lia|].
    destruct (Nat.eqb_spec i (nf d - 1)); destruct (Nat.eqb_spec (S i) (nf d)); try lia; reflexivity.
Qed.

(** read the other way: the class the specification gives a name says where the model finds it, in the terms
    of [prep_remove_cases], [delete_cases] and [clean_cases] *)
Lemma classify_cases : forall K d s name, names_ok d -> Rel K d s -> 1 <= nf d ->
  match classify s name with
  | TAbsent => find_name d name (nf d) = 0
  | THead => find_name d name (nf d) = nf d
  | TLatest => find_name d name (nf d) <> 0 /\ S (find_name d name (nf d)) = nf d
  | TBase => find_name d name (nf d) = 1 /\ 2 < nf d
  | TMiddle p => p = find_name d name (nf d) /\ 2 <= p /\ S p < nf d
  end.
Proof.
  intros K d s name N R Hnf. rewrite (classify_eq K d s name N R Hnf).
  pose proof (find_name_spec d name (nf d)) as (Hle & _). set (i := find_name d name (nf d)) in *.
  destruct (Nat.eqb_spec i 0); [assumption|]. destruct (Nat.eqb_spec i (nf d)); [assumption|].
  destruct (Nat.eqb_spec (S i) (nf d)); [auto|]. destruct (Nat.eqb_spec i 1); lia.
Qed.

Lemma classify_middle : forall K d s name, names_ok d -> Rel K d s ->
  2 <= find_name d name (nf d) -> S (find_name d name (nf d)) < nf d ->
  classify s name = TMiddle (find_name d name (nf d)).
Proof.
  intros K d s name N R H2 Hn. generalize (classify_cases K d s name N R ltac:(lia)).
  destruct (classify s name); intros C; try lia. now destruct C as (-> & _).
Qed.

(** ** what each operation does to the relation *)
Lemma memo_rel : forall K d d' s, memo d d' -> Rel K d s -> Rel K d' s.
Proof. intros K d d' s M. apply rel_quiet. now apply memo_quiet. Qed.

Lemma write_fin : forall K d data off ch, 0 < K -> inv K d -> off + length data <= nblk d * K ->
  let '(dw, hs) := write_at true K d data off in
  let d1 := punched dw hs ch in
  inv K d1 /\ kept d d1 /\ image K d1 (nf d) = lsplice (image K d (nf d)) off data.
Proof.
  intros K d data off ch HK I Hr.
  pose proof (inv_wf _ _ I) as W.
  pose proof (write_at_spec K d data off HK W Hr) as WS.
  destruct (write_at true K d data off) as [dw hs]. destruct WS as (S & U).
  destruct (stage_fin K d dw hs ch S) as (W2 & M & Hlive & Hprot).
  set (d1 := punched dw hs ch) in *.
  pose proof (sm_nblk _ _ M) as E7.
  split; [eapply inv_same; eauto|]. split; [exact (kept_below_snapix d d1 (inv_prot _ _ I) M Hprot)|].
  unfold lsplice. change (firstn off ?l ++ data ++ skipn (off + length data) ?l) with (splice l off data).
  assert (Hl : off + length data <= length (image K d (nf d))) by (rewrite image_length by assumption; lia).
  apply (nth_ext _ _ 0%N 0%N).
  - rewrite length_splice by assumption. rewrite !image_length by assumption. now rewrite E7.
  - intros u Hu. rewrite image_length in Hu by assumption.
    rewrite nth_splice by assumption.
    rewrite (image_nth K d1 (nf d) u W2) by assumption. rewrite E7 in Hu.
    rewrite (image_nth K d (nf d) u W Hu).
    assert (Hd1 : uimg K (fl d1) (nf d) u = uimg K (fl dw) (nf d) u).
    { unfold uimg, img. now rewrite Hlive. }
    rewrite Hd1, U. reflexivity.
Qed.

Lemma write_sim : forall K d s data off ch, 0 < K -> inv K d -> Rel K d s ->
  off + length data <= nblk d * K ->
  let '(dw, hs) := write_at true K d data off in
  let d1 := punched dw hs ch in
  inv K d1 /\ Rel K d1 (mkspec (lsplice (live s) off data) (snaps s) (size s)).
Proof.
  intros K d s data off ch HK I R Hr. pose proof (write_fin K d data off ch HK I Hr) as WF.
  destruct (write_at true K d data off) as [dw hs]. destruct WF as (I1 & Q & Hlive).
  split; [assumption|]. rewrite (r_live _ _ _ R), <- Hlive. now apply rel_kept.
Qed.

Lemma read_sim : forall K d s off len, 0 < K -> inv K d -> Rel K d s -> off + len <= nblk d * K ->
  let '(x, d1) := read_at K d off len in
  x = firstn len (skipn off (live s)) /\ inv K d1 /\ Rel K d1 s.
Proof.
  intros K d s off len HK I R Hr. pose proof (inv_wf _ _ I) as W.
  pose proof (read_at_spec K d off len HK W Hr) as RS.
  destruct (read_at K d off len) as [x d1]. destruct RS as (-> & M).
  split; [|split; [eapply inv_memo; eauto|eapply memo_rel; eauto]].
  rewrite (r_live _ _ _ R). symmetry. now apply image_slice.
Qed.

Lemma readfault_sim : forall K d s off len fi, 0 < K -> inv K d -> Rel K d s -> off + len <= nblk d * K ->
  let '(failed, d1) := read_at_fault K d off len fi in
  memo d d1 /\ inv K d1 /\ Rel K d1 s /\ fst (read_at K d off len) = firstn len (skipn off (live s)).
Proof.
  intros K d s off len fi HK I R Hin. pose proof (inv_wf _ _ I) as W.
  pose proof (read_at_fault_memo K d off len fi (wf_nf _ _ W) (wf_loc _ _ W)) as M.
  destruct (read_at_fault K d off len fi) as [failed d']. cbn [snd] in M.
  pose proof (read_sim K d s off len HK I R Hin) as RS. destruct (read_at K d off len) as [x d''].
  destruct RS as (Hx & _). split; [assumption|]. split; [eapply inv_memo; eauto|]. split; [eapply memo_rel; eauto|assumption].
Qed.

Lemma snap_sim : forall K d s name user, inv K d -> Rel K d s ->
  N.eqb name 0 || negb (spos (snaps s) name 1 =? 0) = false ->
  let '(d1, r) := snapshot d name user in
  if max_chain <? length (snaps s) + 3 then d1 = d /\ r = RErr
  else r = ROk /\ inv K d1 /\
       Rel K d1 (mkspec (live s) (snaps s ++ [mksentry name user false (live s)]) (size s)).
Proof.
  intros K d s name user I R Hfresh.
  pose proof (inv_wf _ _ I) as W. pose proof (wf_nf _ _ W) as Hnf.
  apply orb_false_iff in Hfresh. destruct Hfresh as [H0 Hp].
  apply N.eqb_neq in H0. apply negb_false_iff in Hp. apply Nat.eqb_eq in Hp.
  rewrite (spos_find K d s name (inv_names _ _ I) R H0) in Hp.
  rewrite (r_len _ _ _ R). replace (nf d - 1 + 3) with (nf d + 2) by lia.
  pose proof (snapshot_ok K d name user) as SO. unfold snapshot in *. rewrite Hp in *.
  destruct (N.eqb_spec name 0); [contradiction|]. cbn [orb negb Nat.eqb] in *.
  destruct (max_chain <? nf d + 2); [auto|]. split; [reflexivity|].
  destruct (SO _ I eq_refl) as (I1 & E1 & E2 & En & Eu & Er & Hold & Htop & Hhead). clear SO.
  split; [assumption|].
  constructor; cbn [size live snaps].
  - rewrite E2. apply R.
  - rewrite E1, (r_live _ _ _ R). symmetry. apply image_ext; assumption.
  - rewrite app_length, (r_len _ _ _ R), E1. cbn. lia.
  - intros i e Hi Hn. rewrite E1 in Hi.
    destruct (Nat.eq_dec i (nf d)) as [->|Hne].
    + rewrite nth_error_app2 in Hn by (rewrite (r_len _ _ _ R); lia).
      rewrite (r_len _ _ _ R), Nat.sub_diag in Hn. inversion Hn; subst e.
      unfold entry_ok. cbn [s_name s_user s_removed s_img]. repeat split; try congruence.
      intros _. rewrite (r_live _ _ _ R). symmetry. apply image_ext; [assumption|]. intros b. apply Htop. lia.
    + rewrite nth_error_app1 in Hn by (rewrite (r_len _ _ _ R); lia).
      destruct (Hold i ltac:(lia)) as (F1 & F2 & F3).
      apply (entry_ok_same K d _ i i e (r_snaps _ _ _ R i e ltac:(lia) Hn) F1 F2 F3).
      intros _ _. apply image_ext; [assumption|]. intros b. apply Htop. lia.
Qed.

Lemma mark_removed_spec : forall (l : list sentry) p,
  length (mark_removed l p) = length l /\
  forall k, nth_error (mark_removed l p) k =
            if k =? p - 1 then option_map (fun e => mksentry (s_name e) (s_user e) true (s_img e)) (nth_error l k)
            else nth_error l k.
Proof.
  intros l p. unfold mark_removed. generalize (p - 1) as n. clear p.
  induction l as [|x l IH]; intros n.
  - rewrite firstn_nil, skipn_nil. split; [reflexivity|]. intros k. destruct (k =? n); destruct k; reflexivity.
  - destruct n as [|n]; [split; [reflexivity|]; intros [|k]; reflexivity|].
    destruct (IH n) as (L & H). cbn [firstn skipn app length]. split; [now rewrite L|].
    intros [|k]; [reflexivity|]. apply H.
Qed.

Lemma mark_sim : forall K d s p, inv K d -> Rel K d s -> 2 <= p ->
  inv K (mark d p) /\ Rel K (mark d p) (mkspec (live s) (mark_removed (snaps s) p) (size s)).
Proof.
  intros K d s p I R Hp. split; [now apply mark_inv|].
  destruct (mark_removed_spec (snaps s) p) as (L & Hnth).
  constructor; cbn [size live snaps mark nf nblk].
  - apply R.
  - apply R.
  - rewrite L. apply R.
  - intros i e Hi Hn. rewrite Hnth in Hn. unfold entry_ok.
    destruct (Nat.eqb_spec (i - 1) (p - 1)) as [E|N].
    + destruct (nth_error (snaps s) (i - 1)) as [e0|] eqn:E0; [|discriminate]. injection Hn as <-.
      destruct (r_snaps _ _ _ R i e0 Hi E0) as (A & B & C & D).
      unfold retained. cbn [mark nm usr rmd s_name s_user s_removed s_img].
      replace i with p by lia. rewrite fupd_eq.
      replace p with i by lia. repeat split; try assumption. rewrite andb_false_r. discriminate.
    + destruct (r_snaps _ _ _ R i e Hi Hn) as (A & B & C & D).
      rewrite mark_rmd by lia. repeat split; assumption.
Qed.

Lemma nth_error_drop : forall (l : list sentry) p k, 1 <= p ->
  nth_error (drop_entry l p) k = if k <? p - 1 then nth_error l k else nth_error l (S k).
Proof.
  intros l p k Hp. unfold drop_entry. replace p with (S (p - 1)) at 2 by lia.
  generalize (p - 1) as n. clear p Hp. intros n. revert l k.
  induction n as [|n IH]; intros [|x l] k; try (destruct k; reflexivity).
  - destruct k; [reflexivity|]. cbn [firstn skipn app nth_error]. destruct (S k <? S n); reflexivity.
  - destruct k; [reflexivity|]. cbn [firstn skipn app nth_error]. change (S k <? S n) with (k <? n). apply IH.
Qed.

Lemma merged_sim : forall K d s p, inv K d -> Rel K d s -> 2 <= p -> S p < nf d ->
  retained_user d (p - 1) = false ->
  inv K (merged d p) /\ Rel K (merged d p) (mkspec (live s) (drop_entry (snaps s) p) (size s)).
Proof.
  intros K d s p I R Hp Hpn Hpar. split; [now apply merged_inv|].
  constructor; cbn [size live snaps].
  - apply R.
  - rewrite merged_live by lia. apply R.
  - change (nf (merged d p)) with (nf d - 1). unfold drop_entry.
    rewrite app_length, firstn_length, skipn_length, (r_len _ _ _ R). lia.
  - intros i e Hi Hn. change (nf (merged d p)) with (nf d - 1) in Hi. rewrite nth_error_drop in Hn by lia.
    assert (Ho : 1 <= old_ix p i < nf d /\ nth_error (snaps s) (old_ix p i - 1) = Some e).
    { destruct (old_ix_cases p i) as [(H & ->)|(H & ->)]; (split; [lia|]).
      - destruct (Nat.ltb_spec (i - 1) (p - 1)); [exact Hn|lia].
      - destruct (Nat.ltb_spec (i - 1) (p - 1)); [lia|]. replace (S i - 1) with (S (i - 1)) by lia. exact Hn. }
    destruct Ho as (Ho & Hn').
    apply (entry_ok_same K d _ _ i e (r_snaps _ _ _ R _ e Ho Hn')); [apply merged_nm|apply merged_usr|apply merged_rmd|].
    intros Hu Hrm. apply merged_image; [assumption|]. exact (merged_not_target d p i Hp Hpar Hu Hrm).
Qed.

Lemma drop_mark : forall (l : list sentry) p, 1 <= p -> p - 1 < length l ->
  drop_entry (mark_removed l p) p = drop_entry l p.
Proof.
  intros l p Hp Hlt. unfold drop_entry, mark_removed.
  assert (Hfl : length (firstn (p - 1) l) = p - 1) by (rewrite firstn_length; lia).
  rewrite firstn_app, Hfl, Nat.sub_diag, firstn_O, app_nil_r, firstn_firstn.
  replace (Nat.min (p - 1) (p - 1)) with (p - 1) by lia. f_equal.
  rewrite skipn_app, Hfl. replace (p - (p - 1)) with 1 by lia.
  rewrite skipn_all2 by lia. cbn [app].
  replace (skipn p l) with (skipn 1 (skipn (p - 1) l)) by (rewrite skipn_plus; f_equal; lia).
  now destruct (skipn (p - 1) l).
Qed.

Lemma deleted_sim : forall K d s p, inv K d -> Rel K d s -> 2 <= p -> S p < nf d ->
  retained_user d (p - 1) = false ->
  inv K (merged (mark d p) p) /\ Rel K (merged (mark d p) p) (mkspec (live s) (drop_entry (snaps s) p) (size s)).
Proof.
  intros K d s p I R Hp Hpn Hpar. destruct (mark_sim K d s p I R Hp) as (Im & Rm).
  rewrite <- (drop_mark (snaps s) p) by (rewrite ?(r_len _ _ _ R); lia).
  apply (merged_sim K (mark d p) _ p Im Rm Hp Hpn). now rewrite mark_retained by lia.
Qed.

Lemma reopen_sim : forall K d s pre ch, inv K d -> Rel K d s ->
  let '(d1, hs) := reopen d pre in
  inv K (punched d1 hs ch) /\ Rel K (punched d1 hs ch) s.
Proof.
  intros K d s pre ch I R.
  pose proof (reopen_spec K d pre ch (opened_inv K d I)) as RS.
  destruct (reopen d pre) as [d1 hs].
  destruct RS as (I2 & Q & _). split; [assumption|now apply (rel_quiet K d)].
Qed.

Lemma revert_sim : forall K d s p e ch, inv K d -> Rel K d s -> 1 <= p < nf d ->
  nth_error (snaps s) (p - 1) = Some e ->
  let '(d1, hs) := reopen (cut d p) true in
  let d2 := punched d1 hs ch in
  inv K d2 /\
  Rel K d2 (mkspec (if retained e then s_img e else image K d2 (nf d2)) (firstn p (snaps s)) (size s)).
Proof.
  intros K d s p e ch I R Hp He.
  (* the new head reads what the snapshot holds; reopening and preloading is quiet *)
  assert (Rc : Rel K (cut d p) (mkspec (image K d p) (firstn p (snaps s)) (size s))).
  { constructor; cbn [size live snaps cut nf nblk].
    - apply R.
    - symmetry. apply image_ext; [reflexivity|]. intros b. apply top_empty_head.
    - rewrite firstn_length, (r_len _ _ _ R). lia.
    - intros i e' Hi Hn. apply nth_error_firstn_some in Hn.
      apply (entry_ok_same K d _ i i e' (r_snaps _ _ _ R i e' ltac:(lia) Hn)); cbn [cut nm usr rmd];
        try now rewrite fupd_neq by lia.
      intros _ _. apply image_ext; [reflexivity|]. intros b. apply top_below_new. lia. }
  pose proof (reopen_spec K (cut d p) true ch (cut_opened_inv K d p I Hp)) as RS.
  destruct (reopen (cut d p) true) as [d1 hs]. destruct RS as (I2 & Q & _). set (d2 := punched d1 hs ch) in *.
  split; [assumption|]. pose proof (rel_quiet K _ d2 _ Q Rc) as R2.
  replace (if retained e then s_img e else image K d2 (nf d2)) with (image K d p); [exact R2|].
  destruct (retained e) eqn:Er; [symmetry; now apply (r_snaps _ _ _ R p e Hp He)|exact (r_live _ _ _ R2)].
Qed.

Lemma resize_sim : forall K d s nb, inv K d -> Rel K d s -> nblk d <= nb ->
  inv K (grown_dd d nb) /\
  Rel K (grown_dd d nb)
      (mkspec (grow_img K (size s) nb (live s))
              (map (fun e => mksentry (s_name e) (s_user e) (s_removed e) (grow_img K (size s) nb (s_img e))) (snaps s))
              nb).
Proof.
  intros K d s nb I R Hnb. pose proof (inv_wf _ _ I) as W.
  split; [now apply grown_inv|].
  constructor; cbn [size live snaps].
  - reflexivity.
  - unfold grow_img. rewrite (r_size _ _ _ R), (r_live _ _ _ R). symmetry. now apply grown_image.
  - rewrite map_length. apply R.
  - intros i e Hi Hn. cbn [grown_dd nf] in Hi. rewrite nth_error_map in Hn.
    destruct (nth_error (snaps s) (i - 1)) as [e0|] eqn:E0; [|discriminate]. inversion Hn; subst e; clear Hn.
    destruct (r_snaps _ _ _ R i e0 Hi E0) as (A & B & C & D).
    unfold entry_ok, retained. cbn [s_name s_user s_removed s_img grown_dd nm usr rmd].
    repeat split; try assumption.
    intros Hret. unfold grow_img. rewrite (r_size _ _ _ R), (D Hret). symmetry. now apply grown_image.
Qed.

Lemma lun_sim : forall K d s ch, inv K d -> Rel K d s ->
  let '(d1, hs) := update_lun_map d in
  inv K (punched d1 hs ch) /\ Rel K (punched d1 hs ch) s.
Proof.
  intros K d s ch I R.
  pose proof (update_lun_map_spec K d ch I) as US.
  destruct (update_lun_map d) as [d1 hs]. destruct US as (I2 & Q). split; [assumption|now apply (rel_quiet K d)].
Qed.

(** ** the cleaner's choice: membership in the model's candidate list is [s_picked] on the snapshot table *)
Lemma spos_zero : forall K d s, names_ok d -> Rel K d s -> spos (snaps s) 0%N 1 = 0.
Proof.
  intros K d s (_ & Nz & _) R. rewrite spos_pos_of, (rel_names K d s R).
  destruct (pos_of_seq d 0%N (nf d - 1) 1) as [(E & _)|(H1 & H2)]; [exact E|].
  exfalso. apply (Nz (pos_of (map (nm d) (seq 1 (nf d - 1))) 0%N 1)); [lia|exact H2].
Qed.

Lemma s_retained_at_rel : forall K d s k, Rel K d s -> 1 <= k < nf d ->
  s_retained_at (snaps s) k = retained_user d k.
Proof.
  intros K d s k R Hk. unfold s_retained_at, retained_user.
  destruct (rel_entry K d s (k - 1) R ltac:(lia)) as (e & En). rewrite En.
  destruct (r_snaps _ _ _ R k e Hk En) as (_ & B & C & _). unfold retained. now rewrite B, C.
Qed.

Lemma parent_entry : forall K d s name, names_ok d -> Rel K d s ->
  2 <= find_name d name (nf d) -> S (find_name d name (nf d)) < nf d ->
  classify s name = TMiddle (find_name d name (nf d)) /\
  exists par, nth_error (snaps s) (find_name d name (nf d) - 2) = Some par /\
              retained par = retained_user d (find_name d name (nf d) - 1).
Proof.
  intros K d s name N R H2 Hn. split; [now apply (classify_middle K d)|]. set (i := find_name d name (nf d)) in *.
  rewrite <- (s_retained_at_rel K d s (i - 1) R) by lia. unfold s_retained_at. replace (i - 1 - 1) with (i - 2) by lia.
  destruct (rel_entry K d s (i - 2) R ltac:(lia)) as (par & E). rewrite E. eauto.
Qed.

Lemma picked_spec : forall K d s c victim, names_ok d -> Rel K d s -> c <> 0%N ->
  existsb (N.eqb victim) (candidates d (Some c)) = s_picked s c victim.
Proof.
  intros K d s c victim N R Nc. apply Bool.eq_iff_eq_true. split.
  - intros H. destruct (picked_index d c victim N Nc H) as (H2 & Hlt & Hn & Hnm & Hv & R1 & R2).
    destruct (checkpoint_below_head d c N Nc) as [E|Hclt]; [lia|].
    unfold s_picked. rewrite (r_len _ _ _ R).
    rewrite (spos_find K d s victim N R Hv), (spos_find K d s c N R Nc).
    rewrite (s_retained_at_rel K d s _ R) by lia. rewrite (s_retained_at_rel K d s _ R) by lia.
    rewrite R1, R2.
    destruct (Nat.leb_spec 3 (nf d - 1)); [|lia].
    destruct (Nat.leb_spec 2 (find_name d victim (nf d))); [|lia].
    destruct (Nat.ltb_spec (find_name d victim (nf d)) (find_name d c (nf d))); [reflexivity|lia].
  - intros H. unfold s_picked in H. rewrite (r_len _ _ _ R) in H.
    apply andb_true_iff in H. destruct H as (H & Hr2). apply andb_true_iff in H. destruct H as (H & Hr1).
    apply andb_true_iff in H. destruct H as (H & Hlt). apply andb_true_iff in H. destruct H as (H3 & H2).
    apply Nat.leb_le in H3. apply Nat.leb_le in H2. apply Nat.ltb_lt in Hlt.
    apply negb_true_iff in Hr1. apply negb_true_iff in Hr2.
    destruct (N.eq_dec victim 0) as [E0|Hv].
    { exfalso. subst victim. rewrite (spos_zero K d s N R) in H2. lia. }
    rewrite (spos_find K d s victim N R Hv) in *. rewrite (spos_find K d s c N R Nc) in Hlt.
    set (k := find_name d victim (nf d)) in *.
    destruct (find_name_spec d victim (nf d)) as (_ & B & _). fold k in B. specialize (B ltac:(lia)).
    destruct (find_name_spec d c (nf d)) as (A & _ & _).
    rewrite (s_retained_at_rel K d s _ R) in Hr1 by lia. rewrite (s_retained_at_rel K d s _ R) in Hr2 by lia.
    apply existsb_exists. exists victim. split; [|apply N.eqb_refl].
    apply candidates_in. split; [lia|]. exists k. repeat split; try assumption; lia.
Qed.

(** ** one step of the model against one step of the specification *)
(* the conclusion of [step_rel] for an outcome [mkout r x]; a tautology, applied so that unification reduces
   [ores] and [odata] of the outcome the case has computed *)
Lemma sim_intro : forall K (o : op) d1 s1 r x data, inv K d1 -> Rel K d1 s1 -> (is_read o = true -> x = data) ->
  inv K d1 /\ Rel K d1 s1 /\ ores (mkout r x) = r /\ (is_read o = true -> odata (mkout r x) = data).
Proof. auto. Qed.

Lemma set_fl_same : forall d, set_fl d (fl d) = d.
Proof. now destruct d. Qed.

Lemma step_rel : forall K d s o ch, 0 < K -> inv K d -> Rel K d s ->
  let '(d1, x) := step true K d o ch in
  match spec_step K s o (ores x, image K d1 (nf d1)) with
  | Some (s1, r, data) => inv K d1 /\ Rel K d1 s1 /\ ores x = r /\ (is_read o = true -> odata x = data)
  | None => True
  end.
Proof.
  intros K d s o ch HK I R.
  pose proof (inv_wf _ _ I) as W. pose proof (wf_nf _ _ W) as Hnf. pose proof (inv_names _ _ I) as N.
  destruct o as [off wdata|off len|name user|name|src dst|name|name|name|pre|pre|pb|nb| |cp|off len fi|cp victim fail|off len];
    cbn [step spec_step snd].
  - (* Write *)
    rewrite (r_size _ _ _ R). destruct (Nat.ltb_spec (nblk d * K) (off + length wdata)) as [Hout|Hin].
    + now apply sim_intro.
    + pose proof (write_sim K d s wdata off ch HK I R Hin) as WS.
      destruct (write_at true K d wdata off) as [dw hs]. destruct WS as (I1 & R1).
      rewrite (r_size _ _ _ R) in R1. now apply sim_intro.
  - (* Read *)
    rewrite (r_size _ _ _ R). destruct (Nat.ltb_spec (nblk d * K) (off + len)) as [Hout|Hin].
    + now apply sim_intro.
    + pose proof (read_sim K d s off len HK I R Hin) as RS.
      destruct (read_at K d off len) as [xx d']. destruct RS as (Hx & I1 & R1). now apply sim_intro.
  - (* Snap *)
    pose proof (snap_sim K d s name user I R) as SS.
    destruct (snapshot d name user) as [d' r'].
    destruct (N.eqb name 0 || negb (spos (snaps s) name 1 =? 0)); [exact Logic.I|]. specialize (SS eq_refl).
    destruct (max_chain <? length (snaps s) + 3).
    + (* too many members: refused on both sides *)
      destruct SS as (-> & ->). now apply sim_intro.
    + destruct SS as (-> & I1 & R1). now apply sim_intro.
  - (* PrepRemove *)
    destruct (prep_remove_cases d name) as [(E & Hi)|[(E & Hi & Hc)|(H2 & Hn & E)]]; rewrite E.
    (* unknown or protected: the model's case and the specification's class both say where [name] is, [lia]
       drops the classes that disagree with the case, and on the others both sides answer alike *)
    1, 2: generalize (classify_cases K d s name N R Hnf); destruct (classify s name); intros C; try lia;
      now apply sim_intro.
    rewrite (classify_middle K d s name N R H2 Hn).
    destruct (mark_sim K d s _ I R H2) as (I1 & R1). now apply sim_intro.
  - (* Coalesce: outside the specification *)
    destruct (coalesce d src dst). exact Logic.I.
  - (* Remove: inside the specification only what is refused or absent *)
    rewrite (classify_eq K d s name N R Hnf). unfold remove, remove_g.
    destruct (find_name d name (nf d) =? 0); [now apply sim_intro|].
    destruct (find_name d name (nf d) =? nf d); [now apply sim_intro|].
    destruct (S (find_name d name (nf d)) =? nf d); [now apply sim_intro|].
    destruct (find_name d name (nf d) =? 1); exact Logic.I.
  - (* Delete *)
    destruct (delete_cases d name) as [(E & Hi)|[(E & Hi & Hc)|(H2 & Hn & E)]]; rewrite E.
    1, 2: generalize (classify_cases K d s name N R Hnf); destruct (classify s name); intros C; try lia;
      now apply sim_intro.
    destruct (parent_entry K d s name N R H2 Hn) as (Ec & par & Ep & Er). rewrite Ec, Ep, Er.
    destruct (retained_user d (find_name d name (nf d) - 1)) eqn:Hpar; [exact Logic.I|].
    destruct (deleted_sim K d s _ I R H2 Hn Hpar) as (I1 & R1). now apply sim_intro.
  - (* Revert *)
    generalize (classify_cases K d s name N R Hnf).
    destruct (revert_cases d name) as [(Hc & E)|(Hi & E)]; rewrite E.
    + unfold fin. cbn [apply_holes]. rewrite set_fl_same.
      destruct (classify s name); intros C; try lia; now apply sim_intro.
    + set (p := find_name d name (nf d)) in *.
      assert (Hsp : spos (snaps s) name 1 = p).
      { apply (spos_find K d s name N R). intros ->. unfold p in Hi. rewrite (find_head d N) in Hi. lia. }
      destruct (rel_entry K d s (p - 1) R ltac:(lia)) as (e & He).
      pose proof (revert_sim K d s p e ch I R Hi He) as RS.
      destruct (reopen (cut d p) true) as [dr hs]. cbn [fst snd]. destruct RS as (I1 & R1).
      destruct (classify s name); intros C; try lia; rewrite Hsp, He; now apply sim_intro.
  - (* Reopen *)
    pose proof (reopen_sim K d s pre ch I R) as RS. destruct (reopen d pre) as [dr hs].
    destruct RS. now apply sim_intro.
  - (* Reload *)
    assert (R' : Rel K (set_punch d true) s) by (apply (rel_quiet K d); [split; [constructor|]; auto|exact R]).
    pose proof (reopen_sim K (set_punch d true) s pre ch (set_punch_inv K d true I) R') as RS.
    destruct (reopen (set_punch d true) pre) as [dr hs]. destruct RS. now apply sim_intro.
  - (* SetPunch *)
    apply sim_intro; [now apply set_punch_inv|apply (rel_quiet K d); [split; [constructor|]; auto|exact R]|discriminate].
  - (* Resize *)
    rewrite (r_size _ _ _ R). unfold resize. destruct (Nat.ltb_spec nb (nblk d)) as [Hlt|Hge].
    + now apply sim_intro.
    + fold (grown_dd d nb). destruct (resize_sim K d s nb I R Hge) as (I1 & R1).
      rewrite (r_size _ _ _ R) in R1. now apply sim_intro.
  - (* UpdateLunMap *)
    pose proof (lun_sim K d s ch I R) as LS. destruct (update_lun_map d) as [dl hs].
    destruct LS. now apply sim_intro.
  - (* Candidates *)
    destruct cp as [c|]; [destruct (N.eqb c 0); [exact Logic.I|]|]; now apply sim_intro.
  - (* ReadFault: fails without touching anything but the location table, or returns the image *)
    rewrite (r_size _ _ _ R). destruct (Nat.ltb_spec (nblk d * K) (off + len)) as [Hout|Hin].
    + now apply sim_intro.
    + pose proof (readfault_sim K d s off len fi HK I R Hin) as RF.
      destruct (read_at_fault K d off len fi) as [failed d']. destruct RF as (_ & I' & R' & Hx).
      destruct failed; now apply sim_intro.
  - (* Clean *)
    destruct cp as [c|]; [|now apply sim_intro].
    destruct (N.eqb_spec c 0) as [|Nc]; [destruct (clean d (Some c) victim fail); exact Logic.I|].
    rewrite <- (picked_spec K d s c victim N R Nc).
    destruct (clean_cases d (Some c) victim fail) as [(Ep & E)|(Ep & HC)]; rewrite Ep.
    + rewrite E. now apply sim_intro.
    + destruct (picked_index d c victim N Nc Ep) as (H2 & Hlt & Hn & Hnm & Hv & R1 & R2).
      destruct HC as [(E & Hc)|(_ & _ & E)]; [exfalso; lia|]. rewrite E.
      rewrite (spos_find K d s victim N R Hv). destruct fail.
      * destruct (mark_sim K d s _ I R H2) as (Im & Rm). now apply sim_intro.
      * destruct (deleted_sim K d s _ I R H2 Hn R2) as (I1 & R1'). now apply sim_intro.
  - (* Unmap: outside the specification *)
    destruct ((len =? 0) || (nblk d * K <? off + len)); exact Logic.I.
Qed.

Lemma step_sim : forall K d s o ch d1 x s1 r data,
  0 < K -> inv K d -> Rel K d s ->
  step true K d o ch = (d1, x) ->
  spec_step K s o (ores x, image K d1 (nf d1)) = Some (s1, r, data) ->
  inv K d1 /\ Rel K d1 s1 /\ ores x = r /\ (is_read o = true -> odata x = data).
Proof.
  intros K d s o ch d1 x s1 r data HK I R Hstep Hspec.
  pose proof (step_rel K d s o ch HK I R) as H. rewrite Hstep in H. cbv beta iota in H.
  rewrite Hspec in H. exact H.
Qed.

(** what the hint does decide: the result class of a read under an injected fault, and the image after a revert to
    an unpromised snapshot *)
Lemma spec_step_hint : forall K s o h1 h2 s1 r data,
  spec_step K s o h1 = Some (s1, r, data) -> exists s1' r' data', spec_step K s o h2 = Some (s1', r', data').
Proof.
  intros K s o h1 h2 s1 r data H.
  destruct o; cbn [spec_step] in *; try (do 3 eexists; exact H).
  - destruct (classify s name); try (do 3 eexists; exact H);
      destruct (nth_error (snaps s) (spos (snaps s) name 1 - 1)); try discriminate;
      inversion H; subst; do 3 eexists; reflexivity.
  - destruct (size s * K <? off + len); [do 3 eexists; reflexivity|].
    destruct (fst h2); do 3 eexists; reflexivity.
Qed.

(** ** induction over histories: the oracles of C01 and C06 hold on every trace of the model *)
Lemma rev_image_spec : forall K d i, 0 < K -> inv K d -> 1 <= i < nf d -> rev_image K d i = image K d i.
Proof.
  intros K d i HK I Hi. unfold rev_image.
  set (d' := set_punch d false).
  pose proof (set_punch_inv K d false I) as I'. fold d' in I'.
  change (nm d i) with (nm d' i).
  destruct (revert_cases d' (nm d' i)) as [([H|H] & _)|(_ & E)];
    try (rewrite (find_name_at d' i (inv_names _ _ I')) in H by (exact Hi || (cbn; lia)); cbn in H; lia).
  rewrite E. rewrite (find_name_at d' i (inv_names _ _ I')) by (cbn; lia).
  pose proof (reopen_spec K (cut d' i) true [] (cut_opened_inv K d' i I' Hi)) as RS.
  destruct (reopen (cut d' i) true) as [d1 hs]. cbn [fst snd].
  destruct RS as (_ & _ & W1 & E1 & E2 & E3).
  rewrite (read_all_image K d1 HK W1), E1. cbn [cut nf]. apply image_ext; [exact E2|].
  intros b. rewrite E3. apply top_empty_head.
Qed.

Lemma observe_spec : forall K rv d x, 0 < K -> inv K d ->
  let '(d2, ob) := observe K rv d x in
  memo d d2 /\ o_res ob = ores x /\ o_data ob = odata x /\ o_live ob = image K d (nf d) /\
  o_chain ob = map (nm d) (seq 1 (nf d)) /\ o_attr ob = map (fun i => (usr d i, rmd d i)) (seq 1 (nf d)) /\
  o_snaps ob = map (image K d) (seq 1 (nf d - 1)) /\ o_nblk ob = nblk d /\
  (o_revs ob = [] \/ o_revs ob = map (image K d) (seq 1 (nf d - 1))).
Proof.
  intros K rv d x HK I. unfold observe, read_all.
  pose proof (read_whole K d HK (inv_wf _ _ I)) as RW.
  destruct (read_at K d 0 (nblk d * K)) as [lv d1]. destruct RW as (-> & M).
  cbn [o_res o_data o_live o_chain o_attr o_snaps o_revs o_nblk].
  rewrite (memo_nf _ _ M), (memo_nm _ _ M), (memo_usr _ _ M), (memo_rmd _ _ M), (memo_nblk _ _ M).
  repeat (split; [reflexivity || assumption|]).
  assert (Hs : map (image K d1) (seq 1 (nf d - 1)) = map (image K d) (seq 1 (nf d - 1))).
  { apply map_ext. intros j. now apply memo_image. }
  split; [exact Hs|]. split; [reflexivity|].
  destruct rv; [right|left; reflexivity]. rewrite <- Hs.
  apply map_ext_in. intros j Hj. apply in_seq in Hj.
  apply rev_image_spec; [assumption|eapply inv_memo; eassumption|rewrite (memo_nf _ _ M); lia].
Qed.

Lemma snaps_ok_intro : forall es imgs, length imgs = length es ->
  (forall k e, nth_error es k = Some e -> retained e = true -> nth k imgs [] = s_img e) ->
  snaps_ok es imgs [] = true /\ snaps_ok es imgs imgs = true.
Proof.
  induction es as [|e es IH]; intros imgs Hl H; [split; reflexivity|].
  destruct imgs as [|im imgs]; [discriminate|]. cbn [snaps_ok].
  assert (H0 : (if retained e then listN_eqb im (s_img e) else true) = true).
  { destruct (retained e) eqn:Er; [|reflexivity]. rewrite <- (H 0 e eq_refl Er). apply listN_eqb_refl. }
  destruct (IH imgs) as (A & B); [cbn in Hl; lia|intros k e0 Hk; apply (H (S k) e0 Hk)|].
  rewrite H0, A, B. split; reflexivity.
Qed.

Lemma c06_step_ok : forall K d s ob, Rel K d s ->
  o_snaps ob = map (image K d) (seq 1 (nf d - 1)) ->
  (o_revs ob = [] \/ o_revs ob = map (image K d) (seq 1 (nf d - 1))) ->
  c06_step s ob = true.
Proof.
  intros K d s ob R Hs Hr. unfold c06_step.
  destruct (snaps_ok_intro (snaps s) (o_snaps ob)) as (A & B).
  - rewrite Hs, map_length, seq_length. symmetry. apply R.
  - intros k e Hk Hret.
    assert (Hkl : k < nf d - 1) by (rewrite <- (r_len _ _ _ R); apply nth_error_Some; congruence).
    rewrite Hs, nth_map_seq by assumption. symmetry.
    destruct (r_snaps _ _ _ R (S k) e) as (_ & _ & _ & Him); [lia|now replace (S k - 1) with k by lia|now apply Him].
  - rewrite Hs at 1. rewrite map_length, seq_length, (r_len _ _ _ R), Nat.eqb_refl. cbn [andb].
    destruct Hr as [-> | ->]; [exact A|rewrite <- Hs; exact B].
Qed.

(** the state after the step satisfies the invariant whatever the hint, so the observation is the hint [step_sim]
    wants *)
Lemma trace_step : forall K rv d s o ch d1 x d2 ob s1 r data, 0 < K -> inv K d -> Rel K d s ->
  step true K d o ch = (d1, x) -> observe K rv d1 x = (d2, ob) ->
  spec_step K s o (o_res ob, o_live ob) = Some (s1, r, data) ->
  inv K d1 /\ Rel K d1 s1 /\ ores x = r /\ (is_read o = true -> odata x = data) /\
  spec_step K s o (ores x, image K d1 (nf d1)) = Some (s1, r, data).
Proof.
  intros K rv d s o ch d1 x d2 ob s1 r data HK I R Es Eo Esp.
  destruct (spec_step_hint K s o _ (ores x, image K d1 (nf d1)) s1 r data Esp) as (s1' & r' & data' & Esp').
  destruct (step_sim K d s o ch d1 x s1' r' data' HK I R Es Esp') as (I1 & _).
  pose proof (observe_spec K rv d1 x HK I1) as OS. rewrite Eo in OS. destruct OS as (_ & Ores & _ & Olive & _).
  rewrite Olive, Ores in Esp.
  destruct (step_sim K d s o ch d1 x s1 r data HK I R Es Esp) as (_ & R1 & Hr & Hd). auto.
Qed.

Lemma trace_refines : forall K rv h d s, 0 < K -> inv K d -> Rel K d s ->
  spec_oracle K c01_step s (map fst h) (trace true K rv d h) = true /\
  spec_oracle K (fun s1 _ _ _ cur => c06_step s1 cur) s (map fst h) (trace true K rv d h) = true.
Proof.
  intros K rv h. induction h as [|[o ch] h IH]; intros d s HK I R; [split; reflexivity|].
  cbn [map fst trace].
  destruct (step true K d o ch) as [d1 x] eqn:Es.
  destruct (observe K rv d1 x) as [d2 ob] eqn:Eo.
  cbn [spec_oracle].
  destruct (spec_step K s o (o_res ob, o_live ob)) as [[[s1 r] data]|] eqn:Esp; [|split; reflexivity].
  destruct (trace_step K rv d s o ch d1 x d2 ob s1 r data HK I R Es Eo Esp) as (I1 & R1 & Hr & Hd & _).
  pose proof (observe_spec K rv d1 x HK I1) as OS. rewrite Eo in OS.
  destruct OS as (M & Ores & Odata & Olive & _ & _ & Osnaps & _ & Orevs).
  destruct (IH d2 s1 HK (inv_memo K d1 d2 M I1) (memo_rel K d1 d2 s1 M R1)) as (IH1 & IH2).
  split; apply andb_true_iff; split; try assumption.
  - unfold c01_step. rewrite Ores, Hr, res_eqb_refl. cbn [andb].
    rewrite Olive, <- (r_live _ _ _ R1), listN_eqb_refl, andb_true_r.
    destruct (is_read o) eqn:Er; [|reflexivity]. rewrite Odata, (Hd eq_refl). apply listN_eqb_refl.
  - apply (c06_step_ok K d1 s1 ob R1 Osnaps Orevs).
Qed.

Theorem block_refines_spec : forall K nb p rv (h : list (op * list bool)), 0 < K ->
  c01_oracle (mkcfg K nb p rv) (map fst h) (trace true K rv (init nb p) h) = true /\
  c06_oracle (mkcfg K nb p rv) (map fst h) (trace true K rv (init nb p) h) = true.
Proof.
  intros K nb p rv h HK. unfold c01_oracle, c06_oracle, spec0. cbn [cK cnb].
  apply trace_refines; [assumption|apply inv_init|apply rel_init].
Qed.
