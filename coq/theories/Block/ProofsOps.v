(** * Block: the state invariant and the chain operations (snapshot, deletion, the cleaner, resize). *)
From Coq Require Import List Arith Bool NArith Lia.
From Jiva Require Import Block.Model Block.Lemmas Block.ProofsWrite.
Import ListNotations.

(** ** names: [find_name] on a chain whose members have distinct names, the head's being 0 *)
Definition names_ok (d : dd) : Prop :=
  nm d (nf d) = 0%N /\ (forall i, 1 <= i < nf d -> nm d i <> 0%N) /\
  (forall i j, 1 <= i <= nf d -> 1 <= j <= nf d -> nm d i = nm d j -> i = j).

Lemma find_name_spec : forall d name n,
  let r := find_name d name n in
  r <= n /\ (r <> 0 -> nm d r = name) /\ (forall i, r < i <= n -> nm d i <> name).
Proof.
  intros d name. induction n as [|n IH]; cbn [find_name].
  - split; [lia|]. split; [intros H; contradiction|intros; lia].
  - destruct (N.eqb_spec (nm d (S n)) name) as [E|E].
    + split; [lia|]. split; [auto|intros; lia].
    + destruct IH as (A & B & C). split; [lia|]. split; [assumption|].
      intros i Hi. destruct (Nat.eq_dec i (S n)) as [->|]; [assumption|apply C; lia].
Qed.

Lemma find_name_at : forall d i, names_ok d -> 1 <= i <= nf d -> find_name d (nm d i) (nf d) = i.
Proof.
  intros d i (_ & _ & Hinj) Hi.
  destruct (find_name_spec d (nm d i) (nf d)) as (A & B & C).
  set (r := find_name d (nm d i) (nf d)) in *.
  destruct (Nat.lt_trichotomy r i) as [H|[H|H]]; [|assumption|].
  - exfalso. apply (C i); [lia|reflexivity].
  - apply Hinj; [lia|lia|]. apply B. lia.
Qed.

Lemma find_name_none : forall d name, find_name d name (nf d) = 0 ->
  forall i, 1 <= i <= nf d -> nm d i <> name.
Proof.
  intros d name H i Hi. destruct (find_name_spec d name (nf d)) as (_ & _ & C). rewrite H in C. apply C. lia.
Qed.

Lemma find_name_nm : forall d d' name n, nm d' = nm d -> find_name d' name n = find_name d name n.
Proof. intros d d' name n E. induction n as [|n IH]; cbn [find_name]; [reflexivity|]. now rewrite E, IH. Qed.

(** a new head on top of members 1 .. [n]; member [n] may get a new name (createDisk) *)
Lemma names_ok_head : forall d d' n, names_ok d -> nf d' = S n -> n <= nf d ->
  (forall i, 1 <= i < n -> nm d' i = nm d i) -> nm d' n <> 0%N ->
  (forall i, 1 <= i < n -> nm d i <> nm d' n) -> nm d' (S n) = 0%N -> names_ok d'.
Proof.
  intros d d' n (Nh & Nz & Ninj) En Hn Hold Hn0 Hfresh Hhead. unfold names_ok. rewrite En.
  assert (Hnz : forall i, 1 <= i < S n -> nm d' i <> 0%N).
  { intros i Hi. destruct (Nat.eq_dec i n) as [->|Hne]; [assumption|]. rewrite Hold by lia. apply Nz. lia. }
  assert (Hlt : forall i j, 1 <= i < j -> j <= S n -> nm d' i <> nm d' j).
  { intros i j Hi Hj E. destruct (Nat.eq_dec j (S n)) as [->|N1]; [apply (Hnz i); [lia|congruence]|].
    destruct (Nat.eq_dec j n) as [->|N2]; [apply (Hfresh i); [lia|rewrite <- Hold by lia; assumption]|].
    rewrite !Hold in E by lia. apply Ninj in E; lia. }
  split; [assumption|]. split; [assumption|]. intros i j Hi Hj E.
  destruct (Nat.lt_trichotomy i j) as [H|[H|H]]; [|assumption|]; exfalso.
  - apply (Hlt i j); [lia|lia|assumption].
  - apply (Hlt j i); [lia|lia|congruence].
Qed.

Lemma find_head : forall d, names_ok d -> find_name d 0%N (nf d) = nf d.
Proof.
  intros d (Nh & _ & _). destruct (find_name_spec d 0%N (nf d)) as (A & _ & C).
  destruct (Nat.eq_dec (find_name d 0%N (nf d)) (nf d)) as [|Hne]; [assumption|].
  exfalso. apply (C (nf d)); [lia|assumption].
Qed.

Lemma checkpoint_below_head : forall d c, names_ok d -> c <> 0%N ->
  find_name d c (nf d) = 0 \/ find_name d c (nf d) < nf d.
Proof.
  intros d c (Nh & _ & _) Nc. destruct (find_name_spec d c (nf d)) as (A & B & _).
  destruct (Nat.eq_dec (find_name d c (nf d)) 0) as [|N0]; [left; assumption|right].
  destruct (Nat.eq_dec (find_name d c (nf d)) (nf d)) as [E|]; [|lia].
  exfalso. apply Nc. rewrite <- (B N0), E. exact Nh.
Qed.

(** ** the state invariant *)
Record inv (K : nat) (d : dd) : Prop := {
  inv_wf : wf K d;
  inv_prot : prot d;
  inv_names : names_ok d;
  inv_head : usr d (nf d) = false
}.

Lemma inv_init : forall K nb p, inv K (init nb p).
Proof.
  intros. constructor.
  - constructor; cbn; try lia.
    + intros b. left. reflexivity.
    + reflexivity.
    + discriminate.
  - unfold prot, init. cbn [nf]. intros i Hi. lia.
  - unfold names_ok, init. cbn [nf nm]. split; [reflexivity|]. split; [intros; lia|intros; lia].
  - reflexivity.
Qed.

Lemma inv_same : forall K d d', wf K d' -> same_meta d d' -> inv K d -> inv K d'.
Proof.
  intros K d d' W M I.
  constructor; [assumption| eapply prot_same_meta; [eassumption|apply I] | |].
  - destruct (inv_names _ _ I) as (A & B & C). unfold names_ok. rewrite (sm_nf _ _ M), (sm_nm _ _ M). auto.
  - rewrite (sm_nf _ _ M), (sm_usr _ _ M). apply I.
Qed.

Lemma inv_memo : forall K d d', memo d d' -> inv K d -> inv K d'.
Proof. intros K d d' M I. exact (inv_same K d d' (memo_wf K d d' M (inv_wf _ _ I)) (memo_same_meta d d' M) I). Qed.

Lemma set_punch_inv : forall K d p, inv K d -> inv K (set_punch d p).
Proof.
  intros K d p [[A B C D] P N H]. constructor; [constructor|..]; assumption.
Qed.

(** ** retained user-created snapshots, from one state to another *)
Lemma retained_user_false : forall d k, retained_user d k = false <-> (usr d k = true -> rmd d k = true).
Proof. intros d k. unfold retained_user. destruct (usr d k), (rmd d k); cbn; intuition congruence. Qed.

Definition users_in (K : nat) (d d' : dd) : Prop :=
  forall k, 1 <= k < nf d -> usr d k = true -> rmd d k = false ->
    exists k', 1 <= k' < nf d' /\ nm d' k' = nm d k /\ usr d' k' = true /\ rmd d' k' = false /\
               image K d' k' = image K d k.

Lemma users_in_trans : forall K a b c, users_in K a b -> users_in K b c -> users_in K a c.
Proof.
  intros K a b c H1 H2 k Hk Hu Hr. destruct (H1 k Hk Hu Hr) as (k1 & Hk1 & En & Hu1 & Hr1 & Ei).
  destruct (H2 k1 Hk1 Hu1 Hr1) as (k2 & Hk2 & En2 & Hu2 & Hr2 & Ei2).
  exists k2. rewrite En2, Ei2. auto.
Qed.

Lemma users_in_place : forall K d d', nf d' = nf d -> nm d' = nm d ->
  (forall k, 1 <= k < nf d -> usr d k = true -> rmd d k = false ->
     usr d' k = true /\ rmd d' k = false /\ image K d' k = image K d k) ->
  users_in K d d'.
Proof.
  intros K d d' E1 E2 H k Hk Hu Hr. destruct (H k Hk Hu Hr) as (A & B & C).
  exists k. rewrite E1, E2. auto.
Qed.

Lemma users_in_refl : forall K d, users_in K d d.
Proof. intros K d. apply users_in_place; auto. Qed.

Lemma kept_users : forall K d d', kept d d' -> users_in K d d' /\ users_in K d' d.
Proof.
  intros K d d' Q. pose proof Q as [A B C D E F].
  split; apply users_in_place; try congruence; intros k Hk Hu Hr; rewrite ?A, ?D, ?E in *;
    (split; [exact Hu|]); (split; [exact Hr|]); [|symmetry]; now apply kept_images.
Qed.

(** ** createDisk *)
(** createDisk and revertDisk put an empty head on top of members 1 .. [n] *)
Lemma wf_new_head : forall K d d' n, wf K d -> n <= nf d -> nf d' = S n -> fl d' = fupd (fl d) (S n) fempty ->
  nblk d' = nblk d -> loc_ok d' -> wf K d'.
Proof.
  intros K d d' n W Hn E1 E2 E3 Hok. constructor; rewrite ?E1, ?E2, ?E3; [lia|exact Hok| |]; intros j b;
    destruct (fupd_cases _ (fl d) (S n) fempty j) as [[-> E]|[_ E]]; rewrite E; [reflexivity|apply W|discriminate|apply W].
Qed.

Lemma snapshot_ok : forall K d name user d1, inv K d -> snapshot d name user = (d1, ROk) ->
  inv K d1 /\ nf d1 = S (nf d) /\ nblk d1 = nblk d /\
  nm d1 (nf d) = name /\ usr d1 (nf d) = user /\ rmd d1 (nf d) = false /\
  (forall i, i < nf d -> nm d1 i = nm d i /\ usr d1 i = usr d i /\ rmd d1 i = rmd d i) /\
  (forall J b, J <= nf d -> top (fl d1) J b = top (fl d) J b) /\
  (forall b, top (fl d1) (S (nf d)) b = top (fl d) (nf d) b).
Proof.
  intros K d name user d1 I H. unfold snapshot in H.
  destruct (N.eqb_spec name 0) as [E0|N0]; [discriminate|]. cbn [orb] in H.
  destruct (Nat.eqb_spec (find_name d name (nf d)) 0) as [Ef|Nf]; [|discriminate]. cbn [negb] in H.
  destruct (max_chain <? nf d + 2); [discriminate|].
  inversion H; subst d1; clear H.
  pose proof (inv_wf _ _ I) as W. pose proof (wf_nf _ _ W) as Hnf.
  pose proof (find_name_none d name Ef) as Hfresh.
  cbn [nf fl nm usr rmd ucs snapix loc nblk punch].
  split; [|repeat split].
  - constructor.
    + apply (wf_new_head K d _ (nf d) W); [lia|reflexivity|reflexivity|reflexivity|].
      intros b. cbn [nf fl loc]. destruct (wf_loc _ _ W b) as [H0|(H1 & H2 & H3)]; [left; assumption|right].
      split; [lia|]. split.
      * intros j Hj. destruct (Nat.eq_dec j (S (nf d))) as [->|Hne]; [rewrite fupd_eq; reflexivity|].
        rewrite fupd_neq by lia. apply H2. lia.
      * intros H. rewrite fupd_neq by lia. now apply H3.
    + intros i Hi Hu Hr. cbn [nf usr rmd ucs snapix] in *.
      destruct (Nat.eq_dec i (nf d)) as [->|Hne].
      * rewrite fupd_neq in Hu by lia. rewrite fupd_eq in Hu. subst user.
        split; [lia|]. right. rewrite fupd_eq. reflexivity.
      * rewrite !fupd_neq in Hu by lia. rewrite !fupd_neq in Hr by lia.
        destruct (inv_prot _ _ I i ltac:(lia) Hu Hr) as (A & B).
        split; [destruct user; lia|]. rewrite !fupd_neq by lia. assumption.
    + apply (names_ok_head d _ (nf d) (inv_names _ _ I)); cbn [nf nm]; [reflexivity|lia| | | |apply fupd_eq].
      * intros i Hi. rewrite !fupd_neq by lia. reflexivity.
      * rewrite fupd_neq by lia. now rewrite fupd_eq.
      * intros i Hi. rewrite fupd_neq by lia. rewrite fupd_eq. apply Hfresh. lia.
    + cbn [nf usr]. now rewrite fupd_eq.
  - rewrite fupd_neq by lia. now rewrite fupd_eq.
  - rewrite fupd_neq by lia. now rewrite fupd_eq.
  - rewrite fupd_neq by lia. now rewrite fupd_eq.
  - rewrite !fupd_neq by lia. reflexivity.
  - rewrite !fupd_neq by lia. reflexivity.
  - rewrite !fupd_neq by lia. reflexivity.
  - intros J b HJ. now apply top_below_new.
  - intros b. apply top_empty_head.
Qed.

Lemma snapshot_err : forall d name user d1, snapshot d name user = (d1, RErr) -> d1 = d.
Proof.
  intros d name user d1 H. unfold snapshot in H.
  destruct (N.eqb name 0 || negb (find_name d name (nf d) =? 0)); [now inversion H|].
  destruct (max_chain <? nf d + 2); [now inversion H|discriminate].
Qed.

Lemma snapshot_head_empty : forall d name user, snd (snapshot d name user) = ROk ->
  forall b, fl (fst (snapshot d name user)) (nf (fst (snapshot d name user))) b = None.
Proof.
  intros d name user H b. unfold snapshot in *.
  destruct (N.eqb name 0 || negb (find_name d name (nf d) =? 0)); [discriminate|].
  destruct (max_chain <? nf d + 2); [discriminate|]. cbn [fst nf fl]. now rewrite fupd_eq.
Qed.

Lemma snapshot_inv : forall K d name user, inv K d -> snd (snapshot d name user) = ROk ->
  inv K (fst (snapshot d name user)).
Proof.
  intros K d name user I H. destruct (snapshot d name user) as [d1 r] eqn:E. cbn [snd fst] in *. subst r.
  now destruct (snapshot_ok K d name user d1 I E) as (I1 & _).
Qed.

(** ** PrepareRemoveDisk: the member is marked Removed *)
Definition mark (d : dd) (i : nat) : dd :=
  mkdd (nf d) (fl d) (nm d) (usr d) (fupd (rmd d) i true) (ucs d) (snapix d) (loc d) (nblk d) (punch d).

Lemma prep_remove_cases : forall d name,
  let i := find_name d name (nf d) in
  (prep_remove d name = (d, ROk) /\ i = 0) \/
  (prep_remove d name = (d, RErr) /\ i <> 0 /\ (i = nf d \/ S i = nf d \/ i = 1)) \/
  (2 <= i /\ S i < nf d /\
   prep_remove d name = (mark d i, ROk)).
Proof.
  intros d name i. unfold prep_remove. fold i.
  destruct (Nat.eqb_spec i 0); [left; auto|].
  destruct (Nat.eqb_spec i (nf d)); [right; left; auto|].
  destruct (Nat.eqb_spec (S i) (nf d)); [right; left; auto|].
  destruct (Nat.eqb_spec i 1); [right; left; auto|].
  right. right. pose proof (find_name_spec d name (nf d)) as (A & _). fold i in A. split; [lia|]. split; [lia|reflexivity].
Qed.

Lemma mark_rmd : forall d i k, k <> i -> rmd (mark d i) k = rmd d k.
Proof. intros d i k H. cbn [mark rmd]. now apply fupd_neq. Qed.

Lemma mark_rmd_false : forall d i k, rmd (mark d i) k = false -> k <> i /\ rmd d k = false.
Proof.
  intros d i k H. cbn [mark rmd] in H.
  destruct (fupd_cases _ (rmd d) i true k) as [[_ E]|[Hn E]]; rewrite E in H; [discriminate|auto].
Qed.

Lemma mark_retained : forall d i k, k <> i -> retained_user (mark d i) k = retained_user d k.
Proof. intros d i k H. unfold retained_user. now rewrite mark_rmd. Qed.

Lemma mark_inv : forall K d i, inv K d -> inv K (mark d i).
Proof.
  intros K d i I. constructor.
  - destruct (inv_wf _ _ I) as [A B C D]. constructor; assumption.
  - intros k Hk Hu Hr. apply mark_rmd_false in Hr. now apply (inv_prot _ _ I).
  - apply I.
  - apply I.
Qed.

Lemma users_old_mark : forall K d i, users_in K (mark d i) d.
Proof.
  intros K d i. apply users_in_place; [reflexivity|reflexivity|].
  intros k _ Hu Hr. apply mark_rmd_false in Hr. now repeat split.
Qed.

Lemma users_survive_mark : forall K d i, retained_user d i = false -> users_in K d (mark d i).
Proof.
  intros K d i Hi. apply users_in_place; [reflexivity|reflexivity|].
  intros k _ Hu Hr. rewrite mark_rmd; [now repeat split|].
  intros ->. apply retained_user_false in Hi; [congruence|assumption].
Qed.

(** ** [last_true]: SnapIndx as RemoveIndex and openLiveChain recompute it *)
Lemma last_true_ge : forall u n dflt p, p <= n -> u p = true -> p <= last_true u n dflt.
Proof.
  induction n as [|n IH]; intros dflt p Hp Hu.
  - assert (p = 0) by lia. subst. cbn. rewrite Hu. lia.
  - cbn [last_true]. destruct (u (S n)) eqn:E; [lia|].
    destruct (Nat.eq_dec p (S n)) as [->|]; [congruence|]. apply IH; [lia|assumption].
Qed.

Lemma last_true_spec : forall u n dflt,
  (last_true u n dflt = dflt /\ forall p, p <= n -> u p = false) \/
  (last_true u n dflt <= n /\ u (last_true u n dflt) = true).
Proof.
  induction n as [|n IH]; intros dflt; cbn [last_true].
  - destruct (u 0) eqn:E; [right; split; [lia|assumption]|].
    left. split; [reflexivity|]. intros p Hp. assert (p = 0) by lia. now subst.
  - destruct (u (S n)) eqn:E; [right; split; [lia|assumption]|].
    destruct (IH dflt) as [(A & B)|(A & B)].
    + left. split; [assumption|]. intros p Hp. destruct (Nat.eq_dec p (S n)) as [->|]; [assumption|apply B; lia].
    + right. split; [lia|assumption].
Qed.

(** ** fold the member into its parent, then RemoveIndex: the shift lemma *)
Definition merged (d : dd) (i : nat) : dd := remove_index (coalesce_ix d i (i - 1)) i.

(** the member of the old chain that is member [k] once member [i] has left *)
Definition old_ix (i k : nat) : nat := if k <? i then k else S k.

Lemma old_ix_lt : forall i k, k < i -> old_ix i k = k.
Proof. intros i k H. unfold old_ix. destruct (Nat.ltb_spec k i); [reflexivity|lia]. Qed.

Lemma old_ix_ge : forall i k, i <= k -> old_ix i k = S k.
Proof. intros i k H. unfold old_ix. destruct (Nat.ltb_spec k i); [lia|reflexivity]. Qed.

Lemma old_ix_cases : forall i k, (k < i /\ old_ix i k = k) \/ (i <= k /\ old_ix i k = S k).
Proof.
  intros i k. destruct (Nat.lt_ge_cases k i); [left; auto using old_ix_lt|right; auto using old_ix_ge].
Qed.

Lemma shift_out_old_ix : forall A (f : nat -> A) i k, shift_out f i k = f (old_ix i k).
Proof. intros. unfold shift_out, old_ix. now destruct (k <? i). Qed.

Lemma merged_nm : forall d i k, nm (merged d i) k = nm d (old_ix i k).
Proof. intros. apply shift_out_old_ix. Qed.

Lemma merged_usr : forall d i k, usr (merged d i) k = usr d (old_ix i k).
Proof. intros. apply shift_out_old_ix. Qed.

Lemma merged_rmd : forall d i k, rmd (merged d i) k = rmd d (old_ix i k).
Proof. intros. apply shift_out_old_ix. Qed.

Lemma merged_ucs : forall d i k, ucs (merged d i) k = ucs d (old_ix i k).
Proof. intros. apply shift_out_old_ix. Qed.

Lemma merged_not_target : forall d i k, 2 <= i -> retained_user d (i - 1) = false ->
  usr d (old_ix i k) = true -> rmd d (old_ix i k) = false -> k <> i - 1.
Proof.
  intros d i k Hi Hpar Hu Hr ->. rewrite old_ix_lt in Hu, Hr by lia.
  apply retained_user_false in Hpar; [congruence|assumption].
Qed.

Lemma merged_fl : forall d i k b, 2 <= i ->
  fl (merged d i) k b =
  if k <? i - 1 then fl d k b
  else if k =? i - 1 then fold_into (fl d i) (fl d (i - 1)) b
  else fl d (S k) b.
Proof.
  intros d i k b Hi. unfold merged, remove_index, coalesce_ix, shift_out. cbn [fl set_fl].
  destruct (Nat.ltb_spec k (i - 1)); destruct (Nat.ltb_spec k i); try lia.
  - rewrite fupd_neq by lia. reflexivity.
  - destruct (Nat.eqb_spec k (i - 1)); [|lia]. subst k. rewrite fupd_eq. reflexivity.
  - destruct (Nat.eqb_spec k (i - 1)); [lia|]. rewrite fupd_neq by lia. reflexivity.
Qed.

Lemma merged_top_low : forall d i J b, 2 <= i -> J < i - 1 -> top (fl (merged d i)) J b = top (fl d) J b.
Proof.
  intros d i J b Hi HJ. apply top_ext. intros k Hk. rewrite merged_fl by assumption.
  destruct (Nat.ltb_spec k (i - 1)); [reflexivity|lia].
Qed.

Lemma merged_top_high : forall d i J b, 2 <= i -> i - 1 <= J -> top (fl (merged d i)) J b = top (fl d) (S J) b.
Proof.
  intros d i J b Hi. induction J as [|J IH]; intros HJ; [lia|].
  rewrite (top_S (fl (merged d i))). rewrite merged_fl by assumption.
  destruct (Nat.ltb_spec (S J) (i - 1)); [lia|].
  destruct (Nat.eqb_spec (S J) (i - 1)) as [E|N].
  - (* the merge target itself *)
    rewrite merged_top_low by lia. unfold fold_into.
    rewrite (top_S (fl d) (S J)). replace (S (S J)) with i by lia.
    destruct (fl d i b); [reflexivity|]. rewrite top_S. replace (S J) with (i - 1) by lia. reflexivity.
  - rewrite IH by lia. rewrite (top_S (fl d) (S J)). reflexivity.
Qed.

Lemma merged_image : forall K d i k, 2 <= i -> k <> i - 1 -> image K (merged d i) k = image K d (old_ix i k).
Proof.
  intros K d i k Hi Hk. apply image_ext; [reflexivity|]. intros b.
  destruct (old_ix_cases i k) as [(H & ->)|(H & ->)]; [apply merged_top_low|apply merged_top_high]; lia.
Qed.

Lemma merged_live : forall K d i, 2 <= i -> i < nf d ->
  image K (merged d i) (nf (merged d i)) = image K d (nf d).
Proof.
  intros K d i Hi Hn. change (nf (merged d i)) with (nf d - 1). rewrite merged_image by lia.
  rewrite old_ix_ge by lia. f_equal. lia.
Qed.

Lemma merged_fl_cases : forall d i k b, 2 <= i ->
  (fl (merged d i) k b = fl d (old_ix i k) b /\ (k = i - 1 -> fl d i b = None)) \/
  (k = i - 1 /\ fl (merged d i) k b = fl d i b /\ fl d i b <> None).
Proof.
  intros d i k b Hi. rewrite merged_fl by assumption. unfold fold_into.
  destruct (Nat.ltb_spec k (i - 1)); [left; rewrite old_ix_lt by lia; split; [reflexivity|lia]|].
  destruct (Nat.eqb_spec k (i - 1)) as [->|N]; [|left; rewrite old_ix_ge by lia; split; [reflexivity|lia]].
  destruct (fl d i b) eqn:E; [right; repeat split; discriminate|left; rewrite old_ix_lt by lia; auto].
Qed.

Lemma merged_inv : forall K d i, inv K d -> 2 <= i -> S i < nf d ->
  retained_user d (i - 1) = false ->
  inv K (merged d i).
Proof.
  intros K d i I Hi Hin Hpar.
  pose proof (inv_wf _ _ I) as W.
  assert (Enf : nf (merged d i) = nf d - 1) by reflexivity.
  constructor.
  - constructor.
    + rewrite Enf. lia.
    + intros b. rewrite Enf. cbn [merged remove_index coalesce_ix set_fl loc].
      destruct (wf_loc _ _ W b) as [H0|(H1 & H2 & H3)].
      { left. rewrite H0. destruct (i <=? 0); reflexivity. }
      right. set (p := if i <=? loc d b then loc d b - 1 else loc d b).
      assert (Hp : (i <= loc d b /\ p = loc d b - 1) \/ (loc d b < i /\ p = loc d b))
        by (unfold p; destruct (Nat.leb_spec i (loc d b)); auto).
      split; [lia|]. split.
      * intros j Hj. destruct (merged_fl_cases d i j b Hi) as [(E & _)|(-> & E & _)]; rewrite E; apply H2;
          [destruct (old_ix_cases i j) as [(? & ->)|(? & ->)]|]; lia.
      * intros H. destruct (merged_fl_cases d i p b Hi) as [(E & Hn)|(_ & E & Hn)]; rewrite E; [|exact Hn].
        destruct (Nat.eq_dec (loc d b) i) as [El|Nl]; [exfalso; rewrite <- El in Hn; apply H3; [lia|apply Hn; lia]|].
        replace (old_ix i p) with (loc d b); [apply H3; lia|].
        destruct (old_ix_cases i p) as [(? & ->)|(? & ->)]; lia.
    + intros j b Hb. assert (Hb' : nblk d <= b) by exact Hb.
      destruct (merged_fl_cases d i j b Hi) as [(E & _)|(_ & E & _)]; rewrite E; now apply W.
    + intros j b v. destruct (merged_fl_cases d i j b Hi) as [(E & _)|(_ & E & _)]; rewrite E; apply W.
  - (* protection: flags shift with their members; the merge target is not protected *)
    intros k Hk. rewrite Enf in Hk. rewrite merged_usr, merged_rmd. intros Hu Hr.
    pose proof (merged_not_target d i k Hi Hpar Hu Hr) as Hkp.
    assert (Hflag : ucs (merged d i) k = true \/ ucs (merged d i) (S k) = true).
    { rewrite !merged_ucs. replace (old_ix i (S k)) with (S (old_ix i k))
        by (destruct (old_ix_cases i k) as [(? & ->)|(? & ->)]; [rewrite old_ix_lt|rewrite old_ix_ge]; lia).
      apply (inv_prot _ _ I (old_ix i k)); [destruct (old_ix_cases i k) as [(? & ->)|(? & ->)]; lia|assumption|assumption]. }
    split; [|exact Hflag].
    change (snapix (merged d i)) with (last_true (ucs (merged d i)) (nf d - 1) (snapix d)).
    destruct Hflag as [F|F]; [apply last_true_ge; [lia|exact F]|].
    pose proof (last_true_ge _ (nf d - 1) (snapix d) (S k) ltac:(lia) F). lia.
  - destruct (inv_names _ _ I) as (Nh & Nz & Ninj). unfold names_ok. rewrite Enf. split; [|split].
    + rewrite merged_nm, old_ix_ge by lia. replace (S (nf d - 1)) with (nf d) by lia. assumption.
    + intros k Hk. rewrite merged_nm. apply Nz. destruct (old_ix_cases i k) as [(? & ->)|(? & ->)]; lia.
    + intros a c Ha Hc. rewrite !merged_nm. intros E. apply Ninj in E;
        destruct (old_ix_cases i a) as [(? & Ea)|(? & Ea)]; destruct (old_ix_cases i c) as [(? & Ec)|(? & Ec)]; lia.
  - rewrite Enf, merged_usr, old_ix_ge by lia. replace (S (nf d - 1)) with (nf d) by lia. apply I.
Qed.

Lemma users_old_merged : forall K d i, 2 <= i -> retained_user d (i - 1) = false ->
  users_in K (merged d i) d.
Proof.
  intros K d i Hi Hpar k Hk. change (nf (merged d i)) with (nf d - 1) in Hk.
  rewrite merged_usr, merged_rmd, merged_nm. intros Hu Hr.
  pose proof (merged_not_target d i k Hi Hpar Hu Hr) as Hkp.
  rewrite merged_image by assumption. exists (old_ix i k).
  split; [destruct (old_ix_cases i k) as [(H & ->)|(H & ->)]; lia|auto].
Qed.

Lemma users_survive_merged : forall K d i, 2 <= i -> S i < nf d -> retained_user d (i - 1) = false ->
  retained_user d i = false -> users_in K d (merged d i).
Proof.
  intros K d i Hi Hn Hpar Hri k Hk Hu Hr.
  assert (Hne : k <> i /\ k <> i - 1).
  { split; intros ->; [apply retained_user_false in Hri|apply retained_user_false in Hpar]; congruence. }
  assert (E : exists k', 1 <= k' < nf d - 1 /\ k' <> i - 1 /\ old_ix i k' = k).
  { destruct (Nat.lt_ge_cases k i) as [Hlt|Hge]; [exists k|exists (k - 1)];
      (split; [lia|]); (split; [lia|]); [apply old_ix_lt; lia|rewrite old_ix_ge; lia]. }
  destruct E as (k' & Hk' & Hkp & <-). exists k'.
  rewrite merged_nm, merged_usr, merged_rmd, merged_image by assumption. auto.
Qed.

Lemma deleted_inv : forall K d i, inv K d -> 2 <= i -> S i < nf d -> retained_user d (i - 1) = false ->
  inv K (merged (mark d i) i).
Proof.
  intros K d i I Hi Hn Hpar. apply merged_inv; try assumption; [now apply mark_inv|].
  now rewrite mark_retained by lia.
Qed.

Lemma users_old_deleted : forall K d i, 2 <= i -> retained_user d (i - 1) = false ->
  users_in K (merged (mark d i) i) d.
Proof.
  intros K d i Hi Hpar. apply users_in_trans with (mark d i); [|apply users_old_mark].
  apply users_old_merged; try assumption. rewrite mark_retained by lia. assumption.
Qed.

Lemma users_survive_deleted : forall K d i, 2 <= i -> S i < nf d -> retained_user d (i - 1) = false ->
  retained_user d i = false -> users_in K d (merged (mark d i) i).
Proof.
  intros K d i Hi Hn Hpar Hri. apply users_in_trans with (mark d i); [now apply users_survive_mark|].
  apply users_survive_merged; try assumption; [rewrite mark_retained by lia; assumption|].
  unfold retained_user. cbn [mark rmd]. rewrite fupd_eq. apply andb_false_r.
Qed.

Lemma remove_mid : forall d name, let i := find_name d name (nf d) in
  2 <= i -> i <> nf d -> S i <> nf d -> remove d name = (remove_index d i, ROk).
Proof.
  intros d name i H0 H1 H2. unfold remove, remove_g. fold i.
  destruct (Nat.eqb_spec i 0); [lia|]. destruct (Nat.eqb_spec i (nf d)); [lia|].
  destruct (Nat.eqb_spec (S i) (nf d)); [lia|]. destruct (Nat.eqb_spec i 1); [lia|].
  rewrite andb_false_r. reflexivity.
Qed.

Lemma delete_cases : forall d name,
  let i := find_name d name (nf d) in
  (delete d name = (d, ROk) /\ i = 0) \/
  (delete d name = (d, RErr) /\ i <> 0 /\ (i = nf d \/ S i = nf d \/ i = 1)) \/
  (2 <= i /\ S i < nf d /\ delete d name = (merged (mark d i) i, ROk)).
Proof.
  intros d name i. unfold delete.
  destruct (prep_remove_cases d name) as [(E & Hi)|[(E & Hi)|(H2 & Hn & E)]]; rewrite E.
  - left. fold i in Hi |- *. rewrite Hi. cbn. auto.
  - right. left. auto.
  - right. right. fold i in H2, Hn, E |- *. split; [assumption|]. split; [assumption|].
    destruct (Nat.eqb_spec i 0); [lia|].
    pose proof (remove_mid (coalesce_ix (mark d i) i (i - 1)) name) as R.
    rewrite (find_name_nm d (coalesce_ix (mark d i) i (i - 1))) in R by reflexivity.
    change (nf (coalesce_ix (mark d i) i (i - 1))) with (nf d) in R. fold i in R.
    rewrite R by lia. reflexivity.
Qed.

(** ** the cleaner's candidates and one pass of its loop body *)
Lemma cand_range_in : forall d cnt i name, In name (cand_range d cnt i) <->
  exists k, i <= k < i + cnt /\ nm d k = name /\ retained_user d k = false /\
            ((2 <=? k) && retained_user d (k - 1)) = false.
Proof.
  intros d cnt. induction cnt as [|cnt IH]; intros i name; cbn [cand_range].
  - split; [intros []|intros (k & Hk & _); lia].
  - destruct (retained_user d i || (2 <=? i) && retained_user d (i - 1)) eqn:E.
    + rewrite IH. split; intros (k & Hk & R).
      * exists k. split; [lia|assumption].
      * exists k. split; [|assumption]. destruct (Nat.eq_dec k i) as [Ek|]; [|lia].
        exfalso. subst k. destruct R as (_ & R1 & R2). rewrite R1, R2 in E. discriminate.
    + apply orb_false_iff in E. destruct E as [E1 E2]. cbn [In]. rewrite IH. split.
      * intros [Hn|(k & Hk & R)].
        -- exists i. split; [lia|]. split; [assumption|]. split; assumption.
        -- exists k. split; [lia|assumption].
      * intros (k & Hk & R). destruct (Nat.eq_dec k i) as [Ek|].
        -- subst k. left. apply R.
        -- right. exists k. split; [lia|assumption].
Qed.

Lemma candidates_in : forall d c name, In name (candidates d (Some c)) <->
  3 < nf d /\ exists k, 2 <= k < find_name d c (nf d) /\ nm d k = name /\
     retained_user d k = false /\ retained_user d (k - 1) = false.
Proof.
  intros d c name. unfold candidates.
  destruct (Nat.leb_spec (nf d) 3) as [H3|H3]; [split; [intros []|intros (H & _); lia]|].
  destruct (Nat.leb_spec (find_name d c (nf d)) 2) as [Hc|Hc]; [split; [intros []|intros (_ & k & Hk & _); lia]|].
  rewrite cand_range_in. split.
  - intros (k & Hk & Hn & R1 & R2). split; [assumption|]. exists k. split; [lia|]. split; [assumption|].
    split; [assumption|]. destruct (Nat.leb_spec 2 k); [exact R2|lia].
  - intros (_ & k & Hk & Hn & R1 & R2). exists k. split; [lia|]. split; [assumption|]. split; [assumption|].
    rewrite R2. apply andb_false_r.
Qed.

Lemma picked_index : forall d c victim, names_ok d -> c <> 0%N ->
  existsb (N.eqb victim) (candidates d (Some c)) = true ->
  let i := find_name d victim (nf d) in
  2 <= i /\ i < find_name d c (nf d) /\ S i < nf d /\ nm d i = victim /\ victim <> 0%N /\
  retained_user d i = false /\ retained_user d (i - 1) = false.
Proof.
  intros d c victim N Nc H. cbn zeta.
  apply existsb_exists in H. destruct H as (x & Hin & Ex). apply N.eqb_eq in Ex. subst x.
  apply candidates_in in Hin. destruct Hin as (H3 & k & Hk & Hn & R1 & R2).
  destruct (checkpoint_below_head d c N Nc) as [E|Hlt]; [lia|].
  assert (Hi : find_name d victim (nf d) = k) by (rewrite <- Hn; apply find_name_at; [assumption|lia]).
  rewrite Hi. destruct N as (_ & Nz & _).
  repeat split; try assumption; try lia. rewrite <- Hn. apply Nz. lia.
Qed.

Lemma clean_cases : forall d cp victim fail,
  let i := find_name d victim (nf d) in
  (existsb (N.eqb victim) (candidates d cp) = false /\ clean d cp victim fail = (d, ROk)) \/
  (existsb (N.eqb victim) (candidates d cp) = true /\
   ((clean d cp victim fail = (d, ROk) /\ (i = 0 \/ i = nf d \/ S i = nf d \/ i = 1)) \/
    (2 <= i /\ S i < nf d /\
     clean d cp victim fail = if fail then (mark d i, RErr) else (merged (mark d i) i, ROk)))).
Proof.
  intros d cp victim fail. cbn zeta. unfold clean.
  destruct (existsb (N.eqb victim) (candidates d cp)); [right|left; auto]. split; [reflexivity|]. cbn [negb].
  destruct fail.
  - destruct (prep_remove_cases d victim) as [(E & Hi)|[(E & Hi & Hc)|(H2 & Hn & E)]]; rewrite E;
      set (i := find_name d victim (nf d)) in *.
    + left. rewrite Hi. cbn. auto.
    + left. split; [reflexivity|]. tauto.
    + right. split; [assumption|]. split; [assumption|].
      destruct (Nat.eqb_spec i 0); [lia|]. reflexivity.
  - destruct (delete_cases d victim) as [(E & Hi)|[(E & Hi & Hc)|(H2 & Hn & E)]]; rewrite E;
      set (i := find_name d victim (nf d)) in *.
    + left. auto.
    + left. split; [reflexivity|]. tauto.
    + right. auto.
Qed.

(** ** Replica.Resize *)
Definition grown_dd (d : dd) (nb : nat) : dd :=
  mkdd (nf d) (fl d) (nm d) (usr d) (rmd d) (ucs d) (snapix d)
       (fun b => if b <? nblk d then loc d b else 0) nb (punch d).

Lemma resize_cases : forall d nb,
  (nb < nblk d /\ resize d nb = (d, RErr)) \/
  (nblk d <= nb /\ resize d nb = (grown_dd d nb, ROk)).
Proof.
  intros d nb. unfold resize. destruct (Nat.ltb_spec nb (nblk d)); [left|right]; auto.
Qed.

Lemma grown_inv : forall K d nb, inv K d -> nblk d <= nb -> inv K (grown_dd d nb).
Proof.
  intros K d nb I Hnb. pose proof (inv_wf _ _ I) as W. constructor.
  - constructor; cbn [grown_dd nf fl loc nblk].
    + apply W.
    + intros b. unfold grown_dd; cbn [nf fl loc nblk].
      destruct (Nat.ltb_spec b (nblk d)); [apply (wf_loc _ _ W)|left; reflexivity].
    + intros j b Hb. unfold grown_dd in *; cbn [nf fl loc nblk] in *. apply W. lia.
    + intros j b v. unfold grown_dd; cbn [nf fl loc nblk]. apply W.
  - apply I.
  - apply I.
  - apply I.
Qed.

Lemma concat_zero_blocks : forall K (f : nat -> list N) m s, (forall b, s <= b -> f b = zeros K) ->
  concat (map f (seq s m)) = repeat 0%N (m * K).
Proof.
  intros K f m. induction m as [|m IH]; intros s H; [reflexivity|].
  cbn [seq map concat]. rewrite IH by (intros; apply H; lia). rewrite H by lia.
  unfold zeros. rewrite <- repeat_app. reflexivity.
Qed.

Lemma grown_image : forall K d nb j, wf K d -> nblk d <= nb ->
  image K (grown_dd d nb) j = image K d j ++ repeat 0%N ((nb - nblk d) * K).
Proof.
  intros K d nb j W Hnb. unfold image. cbn [grown_dd nblk fl].
  replace nb with (nblk d + (nb - nblk d)) at 1 by lia.
  rewrite seq_app, map_app, concat_app. f_equal.
  apply concat_zero_blocks. intros b Hb. cbn [plus] in Hb.
  unfold img. rewrite top_all_none; [reflexivity|]. intros i Hi. apply W. lia.
Qed.
