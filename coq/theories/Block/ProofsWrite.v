(** * Block: fullWriteAt (variant fx = true, the one /repo has) -- the run loop and its holes, applying holes
    to a chain, and what every stage of a write guarantees before they are applied.  Also defined here:
    [same_meta] and the clauses [wf] and [prot] of the state invariant. *)
From Coq Require Import List Arith Bool NArith Lia.
From Jiva Require Import Block.Model Block.Lemmas.
Import ListNotations.

Definition same_meta (d d' : dd) : Prop :=
  nf d' = nf d /\ nm d' = nm d /\ usr d' = usr d /\ rmd d' = rmd d /\ ucs d' = ucs d
  /\ snapix d' = snapix d /\ nblk d' = nblk d /\ punch d' = punch d.

Lemma same_meta_refl : forall d, same_meta d d.
Proof. intros; repeat split. Qed.
Lemma same_meta_trans : forall a b c, same_meta a b -> same_meta b c -> same_meta a c.
Proof. unfold same_meta; intros a b c H1 H2; intuition congruence. Qed.
Lemma memo_same_meta : forall d d', memo d d' -> same_meta d d'.
Proof. unfold memo, same_meta; intuition. Qed.

Lemma sm_nf : forall d d', same_meta d d' -> nf d' = nf d.
Proof. intros d d' M. apply M. Qed.
Lemma sm_nm : forall d d', same_meta d d' -> nm d' = nm d.
Proof. intros d d' M. apply M. Qed.
Lemma sm_usr : forall d d', same_meta d d' -> usr d' = usr d.
Proof. intros d d' M. apply M. Qed.
Lemma sm_rmd : forall d d', same_meta d d' -> rmd d' = rmd d.
Proof. intros d d' M. apply M. Qed.
Lemma sm_ucs : forall d d', same_meta d d' -> ucs d' = ucs d.
Proof. intros d d' M. apply M. Qed.
Lemma sm_snapix : forall d d', same_meta d d' -> snapix d' = snapix d.
Proof. intros d d' M. apply M. Qed.
Lemma sm_nblk : forall d d', same_meta d d' -> nblk d' = nblk d.
Proof. intros d d' M. apply M. Qed.

Definition in_range (lo n b : nat) : bool := (lo <=? b) && (b <? lo + n).

Lemma in_range_spec : forall lo n b, reflect (lo <= b < lo + n) (in_range lo n b).
Proof.
  intros. apply iff_reflect. unfold in_range. rewrite andb_true_iff, Nat.leb_le, Nat.ltb_lt. reflexivity.
Qed.

Lemma write_blocks_spec : forall blocks f b x,
  write_blocks f b blocks x =
  if in_range b (length blocks) x then Some (nth (x - b) blocks []) else f x.
Proof.
  induction blocks as [|v r IH]; intros f b x.
  - cbn [write_blocks length]. destruct (in_range_spec b 0 x); [lia|reflexivity].
  - cbn [write_blocks length]. rewrite IH.
    destruct (in_range_spec (S b) (length r) x) as [E1|E1]; destruct (in_range_spec b (S (length r)) x) as [E2|E2];
      try lia.
    + replace (x - b) with (S (x - S b)) by lia. reflexivity.
    + assert (x = b) by lia. subst. rewrite fupd_eq, Nat.sub_diag. reflexivity.
    + rewrite fupd_neq by lia. reflexivity.
Qed.

Lemma write_blocks_ext : forall bl f g s x, f x = g x -> write_blocks f s bl x = write_blocks g s bl x.
Proof. intros bl f g s x H. rewrite !write_blocks_spec. destruct (in_range s (length bl) x); auto. Qed.

Lemma full_write_head : forall fx d s bl b,
  fl (fst (full_write fx d s bl)) (nf d) b = write_blocks (fl d (nf d)) s bl b.
Proof. intros. unfold full_write. cbn [fst fl set_loc set_fl]. now rewrite fupd_eq. Qed.

Lemma can_punch_true : forall file fidx bound p,
  can_punch file fidx bound p = true -> exists f, file = Some f /\ bound < fidx.
Proof.
  intros [f|] fidx bound p H; cbn in H; [|discriminate].
  apply andb_true_iff in H. destruct H as [H _]. apply Nat.ltb_lt in H. eauto.
Qed.

(** the three clauses of [fw_inv d lo b]: the loop of fullWriteAt started at block [lo] has arrived at block [b] *)
Definition run_ok (d : dd) (lo hi : nat) (w : wst) : Prop :=
  match wfile w with
  | None => True
  | Some f => f = wfidx w /\ 1 <= f < nf d /\ lo <= woff w /\ woff w + wlen w <= hi
  end.

Definition holes_in (d : dd) (lo hi : nat) (hs : list hole) : Prop :=
  forall f s l, In (f, s, l) hs -> snapix d < f < nf d /\ lo <= s /\ s + l <= hi.

Definition loc_done (d : dd) (lo b : nat) (l : nat -> nat) : Prop :=
  (forall x, lo <= x < b -> l x = nf d) /\ (forall x, ~ lo <= x < b -> l x = loc d x).

Definition fw_inv (d : dd) (lo b : nat) (w : wst) : Prop :=
  loc_done d lo b (wl w) /\ run_ok d lo b w /\ holes_in d lo b (wholes w).

Lemma fw_emit_in : forall d lo hi w, run_ok d lo hi w -> holes_in d lo hi (wholes w) ->
  holes_in d lo hi (if can_punch (wfile w) (wfidx w) (snapix d) (punch d)
                    then wholes w ++ [(match wfile w with Some f => f | None => 0 end, woff w, wlen w)]
                    else wholes w).
Proof.
  intros d lo hi w Hr Hh. destruct (can_punch (wfile w) (wfidx w) (snapix d) (punch d)) eqn:Ec; [|exact Hh].
  apply can_punch_true in Ec. destruct Ec as (f & Ef & Hb).
  unfold run_ok in Hr. rewrite Ef in *. destruct Hr as (-> & Hf & Ho & Hlen).
  intros f' s l Hin. apply in_app_or in Hin. destruct Hin as [Hin|[Hin|[]]]; [now apply Hh|].
  inversion Hin; subst. repeat split; lia.
Qed.

Lemma fw_step_spec : forall d lo b w, loc_ok d -> lo <= b ->
  fw_inv d lo b w -> fw_inv d lo (S b) (fw_step true d (nf d) w b).
Proof.
  intros d lo b w Hok Hlo (Hl & Hr & Hh).
  assert (Hval : wl w b = loc d b) by (apply Hl; lia).
  assert (Hdone : loc_done d lo (S b) (fupd (wl w) b (nf d))).
  { split; intros x Hx; destruct (fupd_cases _ (wl w) b (nf d) x) as [[-> H]|[Hn H]]; rewrite H.
    - reflexivity.
    - apply Hl. lia.
    - lia.
    - apply Hl. lia. }
  assert (Hr1 : run_ok d lo (S b) w) by (unfold run_ok in *; destruct (wfile w); [|exact I]; intuition lia).
  assert (Hh1 : holes_in d lo (S b) (wholes w)).
  { intros f s l Hin. destruct (Hh f s l Hin) as (A & B & C). repeat split; lia. }
  unfold fw_step. rewrite Hval.
  destruct (Nat.eqb_spec (loc d b) 0) as [E0|N0]; [exact (conj Hdone (conj Hr1 Hh1))|].
  destruct (Nat.eqb_spec (loc d b) (nf d)) as [Et|Nt]; [exact (conj Hdone (conj Hr1 Hh1))|].
  assert (Hv : 1 <= loc d b < nf d).
  { destruct (Hok b) as [H0|(H1 & _)]; [contradiction|lia]. }
  destruct (negb (loc d b =? wfidx w) || negb (b =? woff w + wlen w)) eqn:Ebr.
  - split; [exact Hdone|]. split; [|exact (fw_emit_in d lo (S b) w Hr1 Hh1)].
    unfold run_ok. cbn [wfile wfidx wlen woff]. repeat split; lia.
  - split; [exact Hdone|]. split; [|exact Hh1].
    apply orb_false_iff in Ebr. destruct Ebr as [_ E2]. apply negb_false_iff in E2. apply Nat.eqb_eq in E2.
    unfold run_ok in *. cbn [wfile wfidx wlen woff]. destruct (wfile w); [|exact I]. intuition lia.
Qed.

(** ** fullWriteAt, before the holes are applied *)
Record fw_post (d : dd) (start : nat) (blocks : list blockdata) (d1 : dd) (hs : list hole) : Prop := {
  fw_meta : same_meta d d1;
  fw_other : forall j b, j <> nf d -> fl d1 j b = fl d j b;
  fw_head : forall b, fl d1 (nf d) b =
              if in_range start (length blocks) b then Some (nth (b - start) blocks []) else fl d (nf d) b;
  fw_loc : forall b, loc d1 b = if in_range start (length blocks) b then nf d else loc d b;
  fw_holes : holes_in d start (start + length blocks) hs
}.

Lemma full_write_spec : forall d start blocks, loc_ok d ->
  let '(d1, hs) := full_write true d start blocks in fw_post d start blocks d1 hs.
Proof.
  intros d start blocks Hok. unfold full_write.
  set (w0 := mkwst (loc d) None 0 0 0 []).
  assert (I0 : fw_inv d start start w0).
  { split; [split; [intros x Hx; lia|reflexivity]|split; [exact I|intros f s l []]]. }
  destruct (loop_inv _ (fw_step true d (nf d)) (fw_loop true d (nf d)) (fw_inv d start) start (start + length blocks)
              (fun _ _ _ => eq_refl) (fun _ _ => eq_refl) (fun b w Hb => fw_step_spec d start b w Hok (proj1 Hb))
              (length blocks) start w0 (le_n _) (le_n _) I0) as (A & B & C).
  set (w := fw_loop true d (nf d) (length blocks) start w0) in *.
  constructor.
  - repeat split.
  - intros j b Hj. cbn [fl set_loc set_fl]. now rewrite fupd_neq.
  - intros b. cbn [fl set_loc set_fl]. rewrite fupd_eq. apply write_blocks_spec.
  - intros b. cbn [loc set_loc]. destruct (in_range_spec start (length blocks) b); apply A; lia.
  - now apply fw_emit_in.
Qed.

(** ** the clauses [wf] and [prot] of the state invariant, sound holes, and what [fw_post] gives for them *)
Record wf (K : nat) (d : dd) : Prop := {
  wf_nf  : 1 <= nf d;
  wf_loc : loc_ok d;
  wf_ext : forall j b, nblk d <= b -> fl d j b = None;
  wf_len : forall j b v, fl d j b = Some v -> length v = K
}.

Lemma wf_files : forall K d d', wf K d -> nf d' = nf d -> fl d' = fl d -> nblk d' = nblk d -> loc_ok d' -> wf K d'.
Proof.
  intros K d d' W E1 E2 E3 Hok. constructor; rewrite ?E1, ?E2, ?E3; [apply W|exact Hok|apply W|apply W].
Qed.

Lemma memo_wf : forall K d d', memo d d' -> wf K d -> wf K d'.
Proof.
  intros K d d' M W.
  exact (wf_files K d d' W (memo_nf _ _ M) (memo_fl _ _ M) (memo_nblk _ _ M) (memo_loc_ok _ _ M)).
Qed.

(** the UserCreatedSnap flag of snapshot [i] sits at [i] after openLiveChain, at [S i] after createDisk *)
Definition prot (d : dd) : Prop :=
  forall i, 1 <= i < nf d -> usr d i = true -> rmd d i = false ->
            i <= snapix d /\ (ucs d i = true \/ ucs d (S i) = true).

Lemma prot_same_meta : forall d d', same_meta d d' -> prot d -> prot d'.
Proof.
  intros d d' (E1 & E2 & E3 & E4 & E5 & E6 & _) P i Hi Hu Hr.
  rewrite E1 in Hi. rewrite E3 in Hu. rewrite E4 in Hr. rewrite E5, E6. now apply P.
Qed.

Lemma kept_below_snapix : forall d d', prot d -> same_meta d d' ->
  (forall J b, J <= snapix d -> J < nf d -> top (fl d') J b = top (fl d) J b) -> kept d d'.
Proof.
  intros d d' P (E1 & E2 & E3 & E4 & _ & _ & E7 & _) H. constructor; auto.
  intros i b Hi Hu Hr. apply H; [apply (P i Hi Hu Hr)|lia].
Qed.

Definition hs_sound (d : dd) (hs : list hole) : Prop :=
  forall f s l, In (f, s, l) hs ->
    snapix d < f < nf d /\ forall b, s <= b < s + l -> fl d (nf d) b <> None.

Lemma hs_sound_app : forall d a b, hs_sound d a -> hs_sound d b -> hs_sound d (a ++ b).
Proof. intros d a b Ha Hb f s l Hin. apply in_app_or in Hin. destruct Hin; eauto. Qed.

Lemma hs_sound_nil : forall d, hs_sound d [].
Proof. intros d f s l []. Qed.

Lemma hs_sound_mono : forall d d' hs, nf d' = nf d -> snapix d' = snapix d ->
  (forall b, fl d (nf d) b <> None -> fl d' (nf d) b <> None) ->
  hs_sound d hs -> hs_sound d' hs.
Proof.
  intros d d' hs E1 E2 Hm H f s l Hin. destruct (H f s l Hin) as (A & B).
  rewrite E1, E2. split; [assumption|]. intros b Hb. apply Hm. now apply B.
Qed.

Lemma fw_post_sound : forall d start blocks d1 hs,
  fw_post d start blocks d1 hs -> hs_sound d1 hs.
Proof.
  intros d start blocks d1 hs P f s l Hin.
  destruct (fw_holes _ _ _ _ _ P f s l Hin) as (A & B & C).
  rewrite (sm_nf _ _ (fw_meta _ _ _ _ _ P)), (sm_snapix _ _ (fw_meta _ _ _ _ _ P)).
  split; [assumption|]. intros b Hb.
  rewrite (fw_head _ _ _ _ _ P).
  destruct (in_range_spec start (length blocks) b); [discriminate|lia].
Qed.

Lemma fw_post_wf : forall K d start blocks d1 hs, wf K d ->
  start + length blocks <= nblk d -> (forall v, In v blocks -> length v = K) ->
  fw_post d start blocks d1 hs -> wf K d1.
Proof.
  intros K d start blocks d1 hs W Hr Hlen P.
  pose proof (sm_nf _ _ (fw_meta _ _ _ _ _ P)) as E1.
  constructor.
  - rewrite E1. apply W.
  - intros b. rewrite E1, (fw_loc _ _ _ _ _ P).
    destruct (in_range start (length blocks) b) eqn:Er.
    + right. split; [pose proof (wf_nf _ _ W); lia|]. split; [intros; lia|].
      intros _. rewrite (fw_head _ _ _ _ _ P), Er. discriminate.
    + destruct (wf_loc _ _ W b) as [H0|(H1 & H2 & H3)]; [left; assumption|right].
      split; [assumption|]. split.
      * intros j Hj. destruct (Nat.eq_dec j (nf d)) as [->|Hne].
        -- rewrite (fw_head _ _ _ _ _ P), Er. apply H2. lia.
        -- rewrite (fw_other _ _ _ _ _ P) by assumption. now apply H2.
      * intros H. destruct (Nat.eq_dec (loc d b) (nf d)) as [Ee|Hne].
        -- rewrite Ee, (fw_head _ _ _ _ _ P), Er. rewrite <- Ee. now apply H3.
        -- rewrite (fw_other _ _ _ _ _ P) by assumption. now apply H3.
  - intros j b Hb. rewrite (sm_nblk _ _ (fw_meta _ _ _ _ _ P)) in Hb. destruct (Nat.eq_dec j (nf d)) as [->|Hne].
    + rewrite (fw_head _ _ _ _ _ P).
      destruct (in_range_spec start (length blocks) b); [lia|now apply W].
    + rewrite (fw_other _ _ _ _ _ P) by assumption. now apply W.
  - intros j b v. destruct (Nat.eq_dec j (nf d)) as [->|Hne].
    + rewrite (fw_head _ _ _ _ _ P). destruct (in_range_spec start (length blocks) b) as [Er|Er].
      * intros H. inversion H; subst. apply Hlen. apply nth_In. lia.
      * apply W.
    + rewrite (fw_other _ _ _ _ _ P) by assumption. apply W.
Qed.

Lemma fw_top : forall d s bl d1 h b, 1 <= nf d -> fw_post d s bl d1 h ->
  top (fl d1) (nf d) b = if in_range s (length bl) b then Some (nth (b - s) bl []) else top (fl d) (nf d) b.
Proof.
  intros d s bl d1 h b Hnf P. destruct (nf d) as [|n] eqn:En; [lia|].
  rewrite !top_S. rewrite <- En. rewrite (fw_head _ _ _ _ _ P).
  destruct (in_range s (length bl) b); [reflexivity|].
  rewrite En. destruct (fl d (S n) b); [reflexivity|].
  apply top_ext. intros i Hi. apply (fw_other _ _ _ _ _ P). lia.
Qed.

(** ** applying holes to a chain *)
Definition punched (d : dd) (hs : list hole) (ch : list bool) : dd := set_fl d (apply_holes (fl d) hs ch).

Lemma punched_meta : forall d hs ch, same_meta d (punched d hs ch).
Proof. intros; repeat split. Qed.

Lemma punched_cases : forall d hs ch f b,
  fl (punched d hs ch) f b = fl d f b \/
  (fl (punched d hs ch) f b = None /\ exists h, In h hs /\ covers h f b).
Proof. intros. apply apply_holes_cases. Qed.

(** every notion of a harmless hole ([hs_sound], ProofsPreload.holes_ok, RebuildLemmas.hole_cov) is used through
    this one *)
Definition overlaid (d : dd) (J : nat) (hs : list hole) : Prop :=
  forall f s l b, In (f, s, l) hs -> s <= b < s + l -> f <= J -> exists i, f < i <= J /\ fl d i b <> None.

Lemma punched_top : forall d hs ch J b, overlaid d J hs ->
  top (fl (punched d hs ch)) J b = top (fl d) J b.
Proof.
  intros d hs ch J b Hs. apply punch_safe.
  - intros f. destruct (punched_cases d hs ch f b) as [H|[H _]]; auto.
  - intros f Hf Hne. destruct (punched_cases d hs ch f b) as [H|[_ ([[i s] l] & Hin & -> & Hb)]]; [contradiction|].
    apply (Hs f s l b Hin Hb). lia.
Qed.

Lemma punched_wf_overlaid : forall K d hs ch, wf K d -> overlaid d (nf d) hs -> wf K (punched d hs ch).
Proof.
  intros K d hs ch W Hs. constructor.
  - apply W.
  - intros b. cbn [loc nf punched set_fl].
    destruct (wf_loc _ _ W b) as [H0|(H1 & H2 & H3)]; [left; assumption|right].
    split; [assumption|]. split.
    + intros j Hj. destruct (punched_cases d hs ch j b) as [H|[H _]]; [rewrite H; now apply H2 | exact H].
    + intros H. destruct (punched_cases d hs ch (loc d b) b) as [H'|[_ ([[i s] l] & Hin & -> & Hb)]].
      * rewrite H'. now apply H3.
      * (* a known entry is the topmost extent, an overlaid block is not *)
        destruct (Hs _ s l b Hin Hb) as (k & Hk & Hx); [lia|]. exfalso. apply Hx. apply H2. lia.
  - intros j b Hb. destruct (punched_cases d hs ch j b) as [H|[H _]]; [rewrite H; now apply W | exact H].
  - intros j b v Hv. destruct (punched_cases d hs ch j b) as [H|[H _]]; [rewrite H in Hv; eapply W; eauto | congruence].
Qed.

Lemma hs_sound_overlaid : forall d hs, hs_sound d hs -> overlaid d (nf d) hs.
Proof.
  intros d hs Hs f s l b Hin Hb _. destruct (Hs f s l Hin) as (A & B).
  exists (nf d). split; [lia|now apply B].
Qed.

Lemma hs_sound_below : forall d hs J, hs_sound d hs -> J <= snapix d -> overlaid d J hs.
Proof. intros d hs J Hs HJ f s l b Hin _ Hf. destruct (Hs f s l Hin) as (A & _). lia. Qed.

Lemma punched_live : forall d hs ch b, hs_sound d hs ->
  top (fl (punched d hs ch)) (nf d) b = top (fl d) (nf d) b.
Proof. intros d hs ch b Hs. apply punched_top. now apply hs_sound_overlaid. Qed.

Lemma punched_protected : forall d hs ch J b, hs_sound d hs -> J <= snapix d ->
  top (fl (punched d hs ch)) J b = top (fl d) J b.
Proof. intros d hs ch J b Hs HJ. apply punched_top. now apply hs_sound_below. Qed.

Lemma punched_wf : forall K d hs ch, wf K d -> hs_sound d hs -> wf K (punched d hs ch).
Proof. intros K d hs ch W Hs. apply punched_wf_overlaid; [exact W|now apply hs_sound_overlaid]. Qed.

(** ** stages of a write: what every sub-write guarantees before the holes are applied *)
Record stage (K : nat) (d d1 : dd) (hs : list hole) : Prop := {
  st_wf : wf K d1;
  st_meta : same_meta d d1;
  st_other : forall j b, j <> nf d -> fl d1 j b = fl d j b;
  st_head : forall b, fl d (nf d) b <> None -> fl d1 (nf d) b <> None;
  st_sound : hs_sound d1 hs
}.

Lemma stage_refl : forall K d, wf K d -> stage K d d [].
Proof. intros. constructor; auto using same_meta_refl, hs_sound_nil. Qed.

Lemma stage_trans : forall K d d1 d2 h1 h2, stage K d d1 h1 -> stage K d1 d2 h2 -> stage K d d2 (h1 ++ h2).
Proof.
  intros K d d1 d2 h1 h2 A B.
  pose proof (sm_nf _ _ (st_meta _ _ _ _ A)) as E1.
  constructor.
  - apply B.
  - eapply same_meta_trans; [apply A|apply B].
  - intros j b Hj. rewrite (st_other _ _ _ _ B) by congruence. now apply (st_other _ _ _ _ A).
  - intros b Hb. rewrite <- E1. apply (st_head _ _ _ _ B). rewrite E1. now apply (st_head _ _ _ _ A).
  - apply hs_sound_app; [|apply B].
    apply (hs_sound_mono d1 d2); [apply (sm_nf _ _ (st_meta _ _ _ _ B))|apply (sm_snapix _ _ (st_meta _ _ _ _ B))| |apply A].
    intros b. apply (st_head _ _ _ _ B).
Qed.

Lemma stage_memo : forall K d d', wf K d -> memo d d' -> stage K d d' [].
Proof.
  intros K d d' W M. constructor.
  - eapply memo_wf; eauto.
  - now apply memo_same_meta.
  - intros. now rewrite (memo_fl _ _ M).
  - intros. now rewrite (memo_fl _ _ M).
  - apply hs_sound_nil.
Qed.

Lemma stage_fw : forall K d start blocks d1 hs, wf K d ->
  start + length blocks <= nblk d -> (forall v, In v blocks -> length v = K) ->
  fw_post d start blocks d1 hs -> stage K d d1 hs.
Proof.
  intros K d start blocks d1 hs W Hr Hl P. constructor.
  - eapply fw_post_wf; eauto.
  - apply P.
  - apply P.
  - intros b Hb. rewrite (fw_head _ _ _ _ _ P). destruct (in_range start (length blocks) b); [discriminate|assumption].
  - eapply fw_post_sound; eauto.
Qed.

(** a write leaves every closed prefix of the chain alone *)
Lemma stage_below : forall K d d1 hs J b, stage K d d1 hs -> J < nf d -> top (fl d1) J b = top (fl d) J b.
Proof. intros K d d1 hs J b S HJ. apply top_ext. intros i Hi. apply (st_other _ _ _ _ S). lia. Qed.

Lemma stage_fin : forall K d d1 hs ch, stage K d d1 hs ->
  let d2 := punched d1 hs ch in
  wf K d2 /\ same_meta d d2 /\
  (forall b, top (fl d2) (nf d) b = top (fl d1) (nf d) b) /\
  (forall J b, J <= snapix d -> J < nf d -> top (fl d2) J b = top (fl d) J b).
Proof.
  intros K d d1 hs ch S.
  split; [apply punched_wf; apply S|]. split; [eapply same_meta_trans; [apply S|apply punched_meta]|].
  split.
  - intros b. rewrite <- (sm_nf _ _ (st_meta _ _ _ _ S)). apply punched_live. apply S.
  - intros J b HJ HJn. rewrite punched_protected; [|apply S|rewrite (sm_snapix _ _ (st_meta _ _ _ _ S)); exact HJ].
    now apply (stage_below K d d1 hs).
Qed.

Theorem full_write_live : forall K d start blocks ch, wf K d ->
  start + length blocks <= nblk d -> (forall v, In v blocks -> length v = K) ->
  let '(d1, hs) := full_write true d start blocks in
  let d2 := punched d1 hs ch in
  wf K d2 /\ same_meta d d2 /\
  (forall b, img K (fl d2) (nf d) b =
             if in_range start (length blocks) b then nth (b - start) blocks [] else img K (fl d) (nf d) b) /\
  (forall J b, J <= snapix d -> J < nf d -> top (fl d2) J b = top (fl d) J b).
Proof.
  intros K d start blocks ch W Hr Hlen.
  pose proof (full_write_spec d start blocks (wf_loc _ _ W)) as P.
  destruct (full_write true d start blocks) as [d1 hs].
  destruct (stage_fin K d d1 hs ch (stage_fw K d start blocks d1 hs W Hr Hlen P)) as (W2 & M & Hlive & Hprot).
  split; [exact W2|]. split; [exact M|]. split; [|exact Hprot].
  intros b. unfold img. rewrite Hlive, (fw_top _ _ _ _ _ b (wf_nf _ _ W) P).
  destruct (in_range start (length blocks) b); reflexivity.
Qed.
