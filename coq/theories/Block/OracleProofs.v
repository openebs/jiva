(** * Block: the step-wise oracles -- C16 and C11 on every trace of the model inside the specification's
    domain; for C06 around a discard the step only. *)
From Coq Require Import List Arith Bool NArith Lia.
From Jiva Require Import Block.Model Block.Corr Block.Lemmas Block.ProofsWrite Block.ProofsUnit Block.ProofsRead
     Block.ProofsOps Block.Refine Block.Proofs.
Import ListNotations.

(** ** what an observation is, as a function of the state *)
Record Obs (K : nat) (d : dd) (ob : obs) : Prop := {
  ob_live : o_live ob = image K d (nf d);
  ob_chain : o_chain ob = map (nm d) (seq 1 (nf d));
  ob_attr : o_attr ob = map (fun i => (usr d i, rmd d i)) (seq 1 (nf d));
  ob_snaps : o_snaps ob = map (image K d) (seq 1 (nf d - 1));
  ob_nblk : o_nblk ob = nblk d
}.

Lemma observe_obs : forall K rv d x, 0 < K -> inv K d ->
  let '(d2, ob) := observe K rv d x in Obs K d ob /\ memo d d2 /\ o_res ob = ores x /\ o_data ob = odata x.
Proof.
  intros K rv d x HK I. pose proof (observe_spec K rv d x HK I) as OS.
  destruct (observe K rv d x) as [d2 ob]. destruct OS as (M & Hr & Hd & Hl & Hc & Ha & Hs & Hn & _).
  split; [constructor; assumption|auto].
Qed.

Lemma obs_memo : forall K d d' ob, memo d d' -> Obs K d ob -> Obs K d' ob.
Proof.
  intros K d d' ob M [A B C D E].
  constructor; rewrite ?(memo_nf _ _ M), ?(memo_nm _ _ M), ?(memo_usr _ _ M), ?(memo_rmd _ _ M), ?(memo_nblk _ _ M);
    try assumption.
  - rewrite A. symmetry. now apply memo_image.
  - rewrite D. apply map_ext. intros j. symmetry. now apply memo_image.
Qed.

Lemma obs0_obs : forall K nb p rv, 0 < K -> Obs K (init nb p) (obs0 (mkcfg K nb p rv)).
Proof.
  intros K nb p rv HK. unfold obs0. cbn [cK crev cnb cpunch].
  pose proof (observe_obs K rv (init nb p) (mkout ROk []) HK (inv_init K nb p)) as H.
  destruct (observe K rv (init nb p) (mkout ROk [])) as [d2 ob]. cbn [snd]. apply H.
Qed.

Lemma list_eqb_refl : forall A (e : A -> A -> bool) l, (forall x, e x x = true) -> list_eqb e l l = true.
Proof. intros A e l H. induction l as [|x l IH]; [reflexivity|]. cbn. now rewrite H, IH. Qed.

Lemma attr_eqb_refl : forall a, attr_eqb a a = true.
Proof. intros [[|] [|]]; reflexivity. Qed.

Lemma same_obs_of : forall K d a b, Obs K d a -> Obs K d b -> same_obs a b = true.
Proof.
  intros K d a b [A1 A2 A3 A4 A5] [B1 B2 B3 B4 B5]. unfold same_obs.
  rewrite A1, B1, A2, B2, A3, B3, A4, B4, A5, B5.
  rewrite !listN_eqb_refl, Nat.eqb_refl.
  rewrite (list_eqb_refl _ attr_eqb) by apply attr_eqb_refl.
  rewrite (list_eqb_refl _ listN_eqb) by apply listN_eqb_refl. reflexivity.
Qed.

Lemma refused_same : forall K d prev cur, Obs K d prev -> Obs K d cur -> o_res cur = RErr ->
  res_eqb (o_res cur) RErr && same_obs prev cur = true.
Proof. intros K d prev cur OP OC ->. exact (same_obs_of K d prev cur OP OC). Qed.

Lemma live_same : forall K d d' prev cur, Obs K d prev -> Obs K d' cur ->
  image K d' (nf d') = image K d (nf d) -> listN_eqb (o_live cur) (o_live prev) = true.
Proof. intros K d d' prev cur OP OC E. rewrite (ob_live _ _ _ OC), (ob_live _ _ _ OP), E. apply listN_eqb_refl. Qed.

Lemma chain_same : forall K d d' prev cur, Obs K d prev -> Obs K d' cur -> nf d' = nf d -> nm d' = nm d ->
  listN_eqb (o_chain cur) (o_chain prev) = true.
Proof.
  intros K d d' prev cur OP OC E1 E2. rewrite (ob_chain _ _ _ OC), (ob_chain _ _ _ OP), E1, E2. apply listN_eqb_refl.
Qed.

(** ** looking a retained user-created snapshot up by name in an observation *)
Lemma user_img_seq : forall K d name k n a m,
  (forall i j, a <= i < a + n -> a <= j < a + n -> nm d i = nm d j -> i = j) ->
  a <= k < a + m -> m <= n -> nm d k = name -> usr d k = true -> rmd d k = false ->
  user_img (map (nm d) (seq a n)) (map (fun i => (usr d i, rmd d i)) (seq a n)) (map (image K d) (seq a m)) name
  = Some (image K d k).
Proof.
  intros K d name k n. induction n as [|n IH]; intros a m Hinj Hk Hm Hn Hu Hr; [lia|].
  destruct m as [|m]; [lia|]. cbn [seq map user_img].
  destruct (N.eqb_spec (nm d a) name) as [E|N].
  - assert (a = k) by (apply Hinj; [lia|lia|congruence]). subst a.
    unfold retained_attr. cbn [fst snd]. now rewrite Hu, Hr.
  - assert (a <> k) by (intro; subst; contradiction).
    apply IH; try assumption; try lia. intros i j Hi Hj. apply Hinj; lia.
Qed.

Lemma user_img_obs : forall K d ob k, Obs K d ob -> names_ok d -> 1 <= k < nf d ->
  usr d k = true -> rmd d k = false ->
  user_img (o_chain ob) (o_attr ob) (o_snaps ob) (nm d k) = Some (image K d k).
Proof.
  intros K d ob k [A B C D E] (_ & _ & Ninj) Hk Hu Hr. rewrite B, C, D.
  apply user_img_seq; try assumption; try lia. intros i j Hi Hj. apply Ninj; lia.
Qed.

(** ** histories inside the specification's domain *)
(** the counterpart of [Proofs.spec_run] on observed traces: the hint is what was observed, not what the model
    computes; on the model's own trace both hints give the same answer ([Refine.trace_step]) *)
Fixpoint in_dom (K : nat) (s : spec) (ops : list op) (os : list obs) : bool :=
  match ops, os with
  | [], [] => true
  | o :: ops', cur :: os' =>
      match spec_step K s o (o_res cur, o_live cur) with
      | None => false
      | Some (s1, _, _) => in_dom K s1 ops' os'
      end
  | _, _ => false
  end.

Lemma step_oracle_model : forall (k : obs -> op -> obs -> bool) K rv,
  (forall d s o ch d1 x s1 r data prev cur,
      0 < K -> inv K d -> Rel K d s -> Obs K d prev ->
      step true K d o ch = (d1, x) ->
      spec_step K s o (ores x, image K d1 (nf d1)) = Some (s1, r, data) ->
      Obs K d1 cur -> o_res cur = ores x -> o_data cur = odata x -> k prev o cur = true) ->
  forall h d s prev, 0 < K -> inv K d -> Rel K d s -> Obs K d prev ->
  in_dom K s (map fst h) (trace true K rv d h) = true ->
  step_oracle k prev (map fst h) (trace true K rv d h) = true.
Proof.
  intros k K rv Hk h. induction h as [|[o ch] h IH]; intros d s prev HK I R OP Hd; [reflexivity|].
  cbn [map fst trace] in *.
  destruct (step true K d o ch) as [d1 x] eqn:Es.
  destruct (observe K rv d1 x) as [d2 ob] eqn:Eo.
  cbn [in_dom step_oracle] in *.
  destruct (spec_step K s o (o_res ob, o_live ob)) as [[[s1 r] data]|] eqn:Esp; [|discriminate].
  destruct (trace_step K rv d s o ch d1 x d2 ob s1 r data HK I R Es Eo Esp) as (I1 & R1 & _ & _ & Esp').
  pose proof (observe_obs K rv d1 x HK I1) as OO. rewrite Eo in OO. destruct OO as (OC & M & Hres & Hdata).
  apply andb_true_iff. split.
  - exact (Hk d s o ch d1 x s1 r data prev ob HK I R OP Es Esp' OC Hres Hdata).
  - apply (IH d2 s1 ob HK (inv_memo K d1 d2 M I1) (memo_rel K d1 d2 s1 M R1) (obs_memo K d1 d2 ob M OC) Hd).
Qed.

(** ** C16: a resize, on observations *)
Lemma grown_app : forall im0 m, grown im0 (im0 ++ repeat 0%N m) = true.
Proof.
  intros im0 m. unfold grown.
  rewrite firstn_app, Nat.sub_diag, firstn_O, app_nil_r, firstn_all, listN_eqb_refl.
  rewrite skipn_app, Nat.sub_diag, skipn_all. cbn [app skipn andb].
  unfold all_zero. apply forallb_forall. intros x Hx. apply repeat_spec in Hx. now subst.
Qed.

Lemma users_grown_seq : forall K d d' prev n a m,
  Obs K d prev -> names_ok d -> 1 <= a -> a + m <= nf d -> m <= n ->
  (forall i, nm d' i = nm d i /\ usr d' i = usr d i /\ rmd d' i = rmd d i) ->
  (forall j, exists z, image K d' j = image K d j ++ repeat 0%N z) ->
  users_grown prev (map (nm d') (seq a n)) (map (fun i => (usr d' i, rmd d' i)) (seq a n))
              (map (image K d') (seq a m)) = true.
Proof.
  intros K d d' prev n. induction n as [|n IH]; intros a m OP N Ha Ham Hm Hat Him; [reflexivity|].
  destruct m as [|m]; [reflexivity|]. cbn [seq map users_grown].
  destruct (Hat a) as (F1 & F2 & F3). rewrite F1, F2, F3.
  apply andb_true_iff. split.
  - unfold retained_attr. cbn [fst snd]. destruct (usr d a) eqn:Eu; [|reflexivity].
    destruct (rmd d a) eqn:Er; [reflexivity|]. cbn [negb andb].
    rewrite (user_img_obs K d prev a OP N ltac:(lia) Eu Er).
    destruct (Him a) as (z & ->). apply grown_app.
  - apply IH; try assumption; lia.
Qed.

Lemma spec_step_size : forall K s o hint s1 r x, spec_step K s o hint = Some (s1, r, x) ->
  match o with Resize _ => True | _ => size s1 = size s end.
Proof.
  intros K s o hint s1 r x H. destruct o; cbn [spec_step] in H; try exact I.
  - destruct (size s * K <? off + length data); inversion H; reflexivity.
  - destruct (size s * K <? off + len); inversion H; reflexivity.
  - destruct (N.eqb name 0 || negb (spos (snaps s) name 1 =? 0)); [discriminate|].
    destruct (max_chain <? length (snaps s) + 3); inversion H; reflexivity.
  - destruct (classify s name); inversion H; reflexivity.
  - discriminate.
  - destruct (classify s name); inversion H; reflexivity.
  - destruct (classify s name) as [| | | |p]; try (inversion H; reflexivity).
    destruct (nth_error (snaps s) (p - 2)) as [par|]; [|discriminate].
    destruct (retained par); inversion H; reflexivity.
  - destruct (classify s name); try (inversion H; reflexivity);
      destruct (nth_error (snaps s) (spos (snaps s) name 1 - 1)); inversion H; reflexivity.
  - inversion H; reflexivity.
  - inversion H; reflexivity.
  - inversion H; reflexivity.
  - inversion H; reflexivity.
  - destruct checkpoint as [c|]; [destruct (N.eqb c 0); [discriminate|]|]; inversion H; reflexivity.
  - destruct (size s * K <? off + len); [inversion H; reflexivity|].
    destruct (fst hint); inversion H; reflexivity.
  - destruct checkpoint as [c|]; [|inversion H; reflexivity].
    destruct (N.eqb c 0); [discriminate|].
    destruct (s_picked s c victim); [|inversion H; reflexivity].
    destruct fail; inversion H; reflexivity.
  - discriminate.
Qed.

Lemma c16_step_model : forall K d s o ch d1 x s1 r data prev cur,
  0 < K -> inv K d -> Rel K d s -> Obs K d prev ->
  step true K d o ch = (d1, x) ->
  spec_step K s o (ores x, image K d1 (nf d1)) = Some (s1, r, data) ->
  Obs K d1 cur -> o_res cur = ores x ->
  c16_step K prev o cur = true.
Proof.
  intros K d s o ch d1 x s1 r data prev cur HK I R OP Hstep Hspec OC Hres.
  destruct (step_sim K d s o ch d1 x s1 r data HK I R Hstep Hspec) as (I1 & R1 & Hr & _).
  pose proof (spec_step_size K s o _ s1 r data Hspec) as Hsz.
  (* every operation but Resize: the specification keeps the size *)
  destruct o; cbn [c16_step];
    try (rewrite (ob_nblk _ _ _ OC), (ob_nblk _ _ _ OP), <- (r_size _ _ _ R1), <- (r_size _ _ _ R), Hsz; apply Nat.eqb_refl).
  clear Hsz.
  cbn [step] in *. rewrite (ob_nblk _ _ _ OP).
  destruct (resize_cases d nb) as [(Hlt & E)|(Hge & E)]; rewrite E in Hstep;
    injection Hstep as <- <-.
  - destruct (Nat.ltb_spec nb (nblk d)); [|lia]. exact (refused_same K d prev cur OP OC Hres).
  - destruct (Nat.ltb_spec nb (nblk d)); [lia|].
    pose proof (inv_wf _ _ I) as W.
    rewrite Hres, (ob_nblk _ _ _ OC), (chain_same K d _ prev cur OP OC eq_refl eq_refl).
    rewrite (ob_live _ _ _ OC), (ob_live _ _ _ OP), image_length by (apply (inv_wf _ _ I1)).
    cbn [ores res_eqb grown_dd nblk nf]. rewrite !Nat.eqb_refl.
    rewrite (grown_image K d nb (nf d) W Hge), grown_app. cbn [andb].
    rewrite (ob_chain _ _ _ OC), (ob_attr _ _ _ OC), (ob_snaps _ _ _ OC).
    pose proof (wf_nf _ _ W) as Hnf.
    apply (users_grown_seq K d (grown_dd d nb) prev (nf d) 1 (nf d - 1) OP (inv_names _ _ I)); try lia.
    + intros i. repeat split.
    + intros j. eexists. now apply grown_image.
Qed.

Theorem c16_oracle_model : forall K nb p rv (h : list (op * list bool)), 0 < K ->
  in_dom K (spec0 (mkcfg K nb p rv)) (map fst h) (trace true K rv (init nb p) h) = true ->
  c16_oracle (mkcfg K nb p rv) (map fst h) (trace true K rv (init nb p) h) = true.
Proof.
  intros K nb p rv h HK Hd. unfold c16_oracle. cbn [cK].
  apply andb_true_iff. split.
  - apply (step_oracle_model (c16_step K) K rv) with (s := spec0 (mkcfg K nb p rv)); try assumption.
    + intros. eapply c16_step_model; eauto.
    + apply inv_init.
    + apply rel_init.
    + now apply obs0_obs.
  - exact (proj1 (block_refines_spec K nb p rv h HK)).
Qed.

(** ** C11: positions in an observed chain are the model's indices *)
Lemma protected_name_spec : forall K d prev name, Obs K d prev -> names_ok d ->
  protected_name prev name = true <->
  find_name d name (nf d) <> 0 /\
  (find_name d name (nf d) = nf d \/ S (find_name d name (nf d)) = nf d \/ find_name d name (nf d) = 1).
Proof.
  intros K d prev name OP N. unfold protected_name.
  rewrite (ob_chain _ _ _ OP), map_length, seq_length, (pos_of_find d name N).
  rewrite andb_true_iff, negb_true_iff, !orb_true_iff, Nat.eqb_neq, !Nat.eqb_eq. tauto.
Qed.

Lemma protected_name_false : forall K d prev name, Obs K d prev -> names_ok d ->
  find_name d name (nf d) = 0 \/ (2 <= find_name d name (nf d) /\ S (find_name d name (nf d)) < nf d) ->
  protected_name prev name = false.
Proof.
  intros K d prev name OP N H. destruct (protected_name prev name) eqn:E; [|reflexivity].
  apply (protected_name_spec K d prev name OP N) in E. lia.
Qed.

Lemma nth_attr_obs : forall K d prev k, Obs K d prev -> 1 <= k <= nf d ->
  nth (k - 1) (o_attr prev) (false, false) = (usr d k, rmd d k).
Proof.
  intros K d prev k OP Hk. rewrite (ob_attr _ _ _ OP).
  rewrite nth_map_seq by lia. replace (1 + (k - 1)) with k by lia. reflexivity.
Qed.

Lemma users_kept_seq : forall K d d' prev victim n a m,
  Obs K d prev -> names_ok d -> users_in K d' d -> 1 <= a -> a + m <= nf d' -> m <= n ->
  users_kept prev victim (map (nm d') (seq a n)) (map (fun i => (usr d' i, rmd d' i)) (seq a n))
             (map (image K d') (seq a m)) = true.
Proof.
  intros K d d' prev victim n. induction n as [|n IH]; intros a m OP N U Ha Ham Hm; [reflexivity|].
  destruct m as [|m]; [reflexivity|]. cbn [seq map users_kept].
  apply andb_true_iff. split; [|apply IH; try assumption; lia].
  unfold retained_attr. cbn [fst snd].
  destruct (usr d' a) eqn:Eu; [|reflexivity]. destruct (rmd d' a) eqn:Er; [reflexivity|].
  destruct (negb (nm d' a =? victim)%N); [|reflexivity]. cbn [negb andb].
  destruct (U a ltac:(lia) Eu Er) as (k & Hk & Hn & Hu & Hr & Him).
  rewrite <- Hn. rewrite (user_img_obs K d prev k OP N Hk Hu Hr). rewrite Him. apply listN_eqb_refl.
Qed.

Lemma users_kept_of : forall K d d' prev cur victim, Obs K d prev -> Obs K d' cur -> names_ok d ->
  users_in K d' d -> users_kept prev victim (o_chain cur) (o_attr cur) (o_snaps cur) = true.
Proof.
  intros K d d' prev cur victim OP OC N U. rewrite (ob_chain _ _ _ OC), (ob_attr _ _ _ OC), (ob_snaps _ _ _ OC).
  destruct (Nat.eq_dec (nf d') 0) as [E|E]; [rewrite E; reflexivity|].
  apply (users_kept_seq K d d' prev victim (nf d') 1 (nf d' - 1) OP N U); lia.
Qed.

Lemma remove_name_absent : forall l name, ~ In name l -> remove_name l name = l.
Proof.
  induction l as [|x l IH]; intros name H; [reflexivity|]. cbn [remove_name].
  destruct (N.eqb_spec x name) as [E|N]; [exfalso; apply H; left; assumption|].
  f_equal. apply IH. intro Hin. apply H. right. assumption.
Qed.

Lemma remove_name_seq : forall d name i n a, a <= i < a + n -> nm d i = name ->
  (forall j, a <= j < i -> nm d j <> name) ->
  remove_name (map (nm d) (seq a n)) name = map (fun k => nm d (old_ix i k)) (seq a (n - 1)).
Proof.
  intros d name i n. induction n as [|n IH]; intros a Hi Hn Hfirst; [lia|].
  cbn [seq map remove_name]. replace (S n - 1) with n by lia.
  destruct (N.eqb_spec (nm d a) name) as [E|N].
  - assert (a = i).
    { destruct (Nat.eq_dec a i); [assumption|]. exfalso. apply (Hfirst a); [lia|assumption]. }
    subst a. rewrite <- seq_shift, map_map. apply map_ext_in. intros k Hk. apply in_seq in Hk.
    now rewrite old_ix_ge by lia.
  - assert (a <> i) by (intro; subst; contradiction).
    destruct n as [|n']; [lia|]. cbn [seq map]. rewrite old_ix_lt by lia. f_equal.
    specialize (IH (S a) ltac:(lia) Hn ltac:(intros; apply Hfirst; lia)).
    replace (S n' - 1) with n' in IH by lia. exact IH.
Qed.

Lemma chain_deleted : forall K d name prev cur, Obs K d prev -> names_ok d ->
  1 <= find_name d name (nf d) < nf d ->
  Obs K (merged (mark d (find_name d name (nf d))) (find_name d name (nf d))) cur ->
  listN_eqb (o_chain cur) (remove_name (o_chain prev) name) = true.
Proof.
  intros K d name prev cur OP (_ & _ & Ninj) Hi OC. rewrite (ob_chain _ _ _ OC), (ob_chain _ _ _ OP).
  destruct (find_name_spec d name (nf d)) as (_ & Hnm & _). set (i := find_name d name (nf d)) in *.
  rewrite (remove_name_seq d name i (nf d) 1); [| lia | apply Hnm; lia |].
  - change (nf (merged (mark d i) i)) with (nf d - 1).
    rewrite (map_ext _ _ (merged_nm (mark d i) i)). apply listN_eqb_refl.
  - intros j Hj Hjn. assert (j = i) by (apply Ninj; [lia|lia|rewrite Hnm by lia; assumption]). lia.
Qed.

Lemma cand_ok_model : forall K d prev cp, Obs K d prev -> names_ok d ->
  (forall c, cp = Some c -> c <> 0%N) ->
  forallb (cand_ok prev cp) (candidates d cp) = true.
Proof.
  intros K d prev cp OP N Hcp. apply forallb_forall. intros name Hin.
  destruct (cleaner_filter d cp name Hin) as (c & k & -> & Hc0 & Hk & Hnm & R1 & R2 & Hlat).
  destruct (checkpoint_below_head d c N (Hcp c eq_refl)) as [|Hclt]; [contradiction|].
  unfold cand_ok. rewrite (ob_chain _ _ _ OP), map_length, seq_length.
  rewrite !(pos_of_find d _ N).
  assert (Hfk : find_name d name (nf d) = k) by (rewrite <- Hnm; apply find_name_at; [assumption|lia]).
  rewrite Hfk.
  rewrite (nth_attr_obs K d prev k OP ltac:(lia)).
  replace (k - 2) with (k - 1 - 1) by lia. rewrite (nth_attr_obs K d prev (k - 1) OP ltac:(lia)).
  unfold retained_user in R1, R2. unfold retained_attr. cbn [fst snd]. rewrite R1, R2.
  destruct (Nat.leb_spec 2 k); [|lia]. destruct (Nat.ltb_spec k (find_name d c (nf d))); [|lia].
  destruct (Nat.eqb_spec (find_name d c (nf d)) 0); [contradiction|].
  destruct (Nat.ltb_spec (S k) (nf d)); [reflexivity|]. specialize (Hlat Hclt). lia.
Qed.

Lemma c11_step_model : forall K d s o ch d1 x s1 r data prev cur,
  inv K d -> Rel K d s -> Obs K d prev ->
  step true K d o ch = (d1, x) ->
  spec_step K s o (ores x, image K d1 (nf d1)) = Some (s1, r, data) ->
  Obs K d1 cur -> o_res cur = ores x -> o_data cur = odata x ->
  c11_step prev o cur = true.
Proof.
  intros K d s o ch d1 x s1 r data prev cur I R OP Hstep Hspec OC Hres Hdata.
  pose proof (inv_wf _ _ I) as W. pose proof (wf_nf _ _ W) as Hnf.
  pose proof (inv_names _ _ I) as N.
  destruct o as [off wdata|off len|name user|name|src dst|name|name|name|pre|pre|pb|nb| |cp|off len fi|cp victim fail|off len];
    try reflexivity; cbn [c11_step step spec_step] in *.
  - (* PrepRemove *)
    pose proof (protected_name_spec K d prev name OP N) as PS.
    destruct (prep_remove_cases d name) as [(E & Hi)|[(E & Hi & Hc)|(H2 & Hn & E)]]; rewrite E in Hstep;
      injection Hstep as <- <-.
    + rewrite (protected_name_false K d prev name OP N) by lia.
      rewrite (live_same K d d prev cur OP OC eq_refl), (chain_same K d d prev cur OP OC eq_refl eq_refl).
      exact (users_kept_of K d d prev cur name OP OC N (users_in_refl K d)).
    + rewrite (proj2 PS (conj Hi Hc)). exact (refused_same K d prev cur OP OC Hres).
    + rewrite (protected_name_false K d prev name OP N) by lia.
      rewrite (live_same K d _ prev cur OP OC eq_refl), (chain_same K d _ prev cur OP OC eq_refl eq_refl).
      exact (users_kept_of K d _ prev cur name OP OC N (users_old_mark K d _)).
  - (* Remove: inside the domain only head, latest or an unknown name *)
    destruct (protected_name prev name) eqn:Ep; [|reflexivity].
    apply (protected_name_spec K d prev name OP N) in Ep. destruct Ep as (Hi & _).
    rewrite (classify_eq K d s name N R Hnf) in Hspec. unfold remove, remove_g in Hstep.
    destruct (Nat.eqb_spec (find_name d name (nf d)) 0); [contradiction|].
    destruct (find_name d name (nf d) =? nf d);
      [injection Hstep as <- <-; exact (refused_same K d prev cur OP OC Hres)|].
    destruct (S (find_name d name (nf d)) =? nf d);
      [injection Hstep as <- <-; exact (refused_same K d prev cur OP OC Hres)|].
    destruct (find_name d name (nf d) =? 1); discriminate.
  - (* Delete *)
    pose proof (protected_name_spec K d prev name OP N) as PS.
    destruct (delete_cases d name) as [(E & Hi)|[(E & Hi & Hc)|(H2 & Hn & E)]]; rewrite E in Hstep;
      injection Hstep as <- <-.
    + rewrite (protected_name_false K d prev name OP N) by lia.
      destruct (parent_retained prev name); [reflexivity|].
      rewrite (live_same K d d prev cur OP OC eq_refl), (users_kept_of K d d prev cur name OP OC N (users_in_refl K d)).
      rewrite remove_name_absent; [now rewrite (chain_same K d d prev cur OP OC eq_refl eq_refl)|].
      rewrite (ob_chain _ _ _ OP). intro Hin. apply in_map_iff in Hin. destruct Hin as (k & Hk & Hks).
      apply in_seq in Hks. apply (find_name_none d name Hi k); [lia|assumption].
    + rewrite (proj2 PS (conj Hi Hc)). exact (refused_same K d prev cur OP OC Hres).
    + rewrite (protected_name_false K d prev name OP N) by lia.
      destruct (parent_retained prev name); [reflexivity|].
      (* inside the domain the merge target is not a retained user-created snapshot *)
      destruct (parent_entry K d s name N R H2 Hn) as (Ec & par & Ep & Er). rewrite Ec, Ep, Er in Hspec.
      destruct (retained_user d (find_name d name (nf d) - 1)) eqn:Hpar; [discriminate|].
      rewrite (live_same K d _ prev cur OP OC (merged_live K (mark d _) _ H2 ltac:(cbn [mark nf]; lia))).
      rewrite (chain_deleted K d name prev cur OP N ltac:(lia) OC).
      exact (users_kept_of K d _ prev cur name OP OC N (users_old_deleted K d _ H2 Hpar)).
  - (* Candidates *)
    injection Hstep as <- <-. cbn [odata] in Hdata. rewrite Hdata.
    rewrite (cand_ok_model K d prev cp OP N); [exact (same_obs_of K d prev cur OP OC)|].
    intros c -> ->. discriminate.
  - (* Clean: one pass of the background cleaner *)
    assert (Hcp : forall c, cp = Some c -> c <> 0%N) by (intros c -> ->; discriminate).
    destruct (clean d cp victim fail) as [dc rc] eqn:Ec. injection Hstep as <- <-. cbn [odata] in Hdata.
    rewrite Hdata, (cand_ok_model K d prev cp OP N Hcp). cbn [andb].
    destruct (clean_cases d cp victim fail) as [(Ep & E)|(Ep & HC)]; rewrite Ep; cbn [negb].
    { (* nothing picked: the state did not change *)
      rewrite Ec in E. injection E as -> _. rewrite orb_true_r.
      rewrite (live_same K d d prev cur OP OC eq_refl), (users_kept_of K d d prev cur victim OP OC N (users_in_refl K d)),
        (users_kept_of K d d cur prev victim OC OP N (users_in_refl K d)).
      exact (chain_same K d d prev cur OP OC eq_refl eq_refl). }
    destruct cp as [c|]; [|discriminate]. pose proof (Hcp c eq_refl) as Nc.
    destruct (picked_index d c victim N Nc Ep) as (H2 & Hlt & Hn & Hnm & Hv & R1 & R2).
    destruct HC as [(E & Hc)|(_ & _ & E)]; [exfalso; lia|]. rewrite Ec in E. rewrite orb_false_r.
    destruct fail; injection E as -> _.
    + (* the merge failed: marked Removed, still a member *)
      rewrite (live_same K d _ prev cur OP OC eq_refl), (users_kept_of K d _ prev cur victim OP OC N (users_old_mark K d _)),
        (users_kept_of K _ d cur prev victim OC OP N (users_survive_mark K d _ R1)).
      exact (chain_same K d _ prev cur OP OC eq_refl eq_refl).
    + (* merged and removed: as a deletion *)
      rewrite (live_same K d _ prev cur OP OC (merged_live K (mark d _) _ H2 ltac:(cbn [mark nf]; lia))).
      rewrite (users_kept_of K d _ prev cur victim OP OC N (users_old_deleted K d _ H2 R2)).
      rewrite (users_kept_of K _ d cur prev victim OC OP (inv_names _ _ (deleted_inv K d _ I H2 Hn R2))
                 (users_survive_deleted K d _ H2 Hn R2 R1)).
      exact (chain_deleted K d victim prev cur OP N ltac:(lia) OC).
Qed.

Theorem c11_oracle_model : forall K nb p rv (h : list (op * list bool)), 0 < K ->
  in_dom K (spec0 (mkcfg K nb p rv)) (map fst h) (trace true K rv (init nb p) h) = true ->
  c11_oracle (mkcfg K nb p rv) (map fst h) (trace true K rv (init nb p) h) = true.
Proof.
  intros K nb p rv h HK Hd. unfold c11_oracle.
  apply (step_oracle_model c11_step K rv) with (s := spec0 (mkcfg K nb p rv)); try assumption.
  - intros. eapply c11_step_model; eauto.
  - apply inv_init.
  - apply rel_init.
  - now apply obs0_obs.
Qed.

(** non-vacuity: [Proofs.demo_history] is inside the domain, so all four oracles are checked at every step of it *)
Example demo_in_dom :
  in_dom 4 (spec0 (mkcfg 4 4 true true)) (map fst demo_history) (trace true 4 true (init 4 true) demo_history) = true.
Proof. vm_compute. reflexivity. Qed.

(** non-vacuity for the two fault events, inside the domain: reads while file 1 / 2 / a file outside the chain
    cannot be read, and passes of the cleaner with checkpoint 5 (candidates: only 4 -- 2 is a retained user-created
    snapshot, 3 would merge into it): the merge fails (4 stays, marked Removed), the implementation's pick 3 is not a
    candidate (nothing happens), the merge succeeds (4 leaves the chain), nothing left to clean *)
Definition fault_history : list (op * list bool) :=
  [(Write 0 (repeat 1%N 4), []); (Snap 1%N false, []); (Write 2 (repeat 2%N 1), []);
   (ReadFault 0 2 1, []); (ReadFault 2 1 1, []); (ReadFault 0 3 2, []); (ReadFault 0 2 2, []); (ReadFault 0 4 3, []);
   (Snap 2%N true, []); (Write 4 (repeat 3%N 1), []); (Snap 3%N false, []); (Write 5 (repeat 4%N 1), []);
   (Snap 4%N false, []); (Write 6 (repeat 5%N 1), []); (Snap 5%N false, []); (Write 7 (repeat 6%N 1), []);
   (Clean (Some 5%N) 4%N true, []); (Clean (Some 5%N) 3%N false, []); (Clean (Some 5%N) 4%N false, []);
   (Clean (Some 5%N) 2%N false, []); (Clean None 4%N false, []); (Read 0 8, [])].

Example fault_demo :
  let tr := trace true 1 false (init 8 false) fault_history in
  in_dom 1 (spec0 (mkcfg 1 8 false false)) (map fst fault_history) tr = true /\
  map (fun o => (o_res o, o_data o)) (firstn 5 (skipn 3 tr)) =
    [(RErr, []); (ROk, [2]); (RErr, []); (ROk, [1; 1]); (ROk, [1; 1; 2; 1])]%N /\
  map (fun o => (o_res o, o_chain o)) (firstn 4 (skipn 16 tr)) =
    [(RErr, [1; 2; 3; 4; 5; 0]); (ROk, [1; 2; 3; 4; 5; 0]); (ROk, [1; 2; 3; 5; 0]); (ROk, [1; 2; 3; 5; 0])]%N /\
  o_data (nth 21 tr (obs0 (mkcfg 1 8 false false))) = [1; 1; 2; 1; 3; 4; 5; 6]%N.
Proof. vm_compute. repeat split; reflexivity. Qed.

(** ** C06 around a discard (diffDisk.Unmap punches every chain file above SnapIndx; the files of retained
    user-created snapshots are at or below it, [prot]).  What the live volume reads afterwards is not promised
    ([spec_step] does not speak about [Unmap]: the location table may point into a punched file), so
    [block_refines_spec] claims nothing from an unmap onwards; the step-wise oracle [c06u_step] is what the
    correspondence run evaluates around every unmap. *)
Lemma unmap_top : forall K d off len i b, i <= snapix d -> top (fl (unmap K d off len)) i b = top (fl d) i b.
Proof.
  intros K d off len i b Hi. apply top_ext. intros j Hj. unfold unmap. cbn [fl set_fl].
  destruct (Nat.ltb_spec (snapix d) j); [lia|reflexivity].
Qed.

Lemma unmap_kept : forall K d off len, prot d -> kept d (unmap K d off len).
Proof. intros K d off len P. apply kept_below_snapix; [exact P|repeat split|]. intros J b HJ _. now apply unmap_top. Qed.

(** [Obs] asks [o_live cur] to be the image of the files; what [Corr.observe] reads after an unmap goes through the
    location table, which may point into a punched file, and need not be that image -- the clause itself does not
    look at [o_live] *)
Theorem c06u_step_model : forall K d off len prev cur, inv K d ->
  Obs K d prev -> Obs K (unmap K d off len) cur -> c06u_step prev (Unmap off len) cur = true.
Proof.
  intros K d off len prev cur I OP OC. pose proof (inv_names _ _ I) as N.
  destruct (kept_users K d _ (unmap_kept K d off len (inv_prot _ _ I))) as (U1 & U2). cbn [c06u_step].
  rewrite (users_kept_of K d _ prev cur 0%N OP OC N U2), (users_kept_of K _ d cur prev 0%N OC OP N U1).
  rewrite (ob_chain _ _ _ OC), (ob_chain _ _ _ OP), (ob_attr _ _ _ OC), (ob_attr _ _ _ OP).
  cbn [unmap nf nm usr rmd set_fl]. now rewrite listN_eqb_refl, (list_eqb_refl _ attr_eqb) by apply attr_eqb_refl.
Qed.
