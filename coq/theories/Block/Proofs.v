(** * Block: the theorems the property files quote, the histories of their refutations (F1, S7), examples. *)
From Coq Require Import List Arith Bool NArith Lia.
From Jiva Require Import Block.Model Block.Corr Block.Lemmas Block.ProofsWrite Block.ProofsRead
     Block.ProofsOps Block.ProofsPreload Block.Refine.
Import ListNotations.

(** ** running model and specification side by side *)
(** the hint for a revert to a snapshot whose content is not promised is what the model reads *)
Fixpoint spec_run (K : nat) (s : spec) (d : dd) (h : list (op * list bool)) : option (spec * dd) :=
  match h with
  | [] => Some (s, d)
  | (o, ch) :: h' =>
      let '(d1, x) := step true K d o ch in
      match spec_step K s o (ores x, image K d1 (nf d1)) with
      | None => None
      | Some (s1, _, _) => spec_run K s1 d1 h'
      end
  end.

Theorem run_refines : forall K h d s d' s', 0 < K -> inv K d -> Rel K d s ->
  spec_run K s d h = Some (s', d') -> inv K d' /\ Rel K d' s'.
Proof.
  intros K h. induction h as [|[o ch] h IH]; intros d s d' s' HK I R H.
  - inversion H; subst. auto.
  - cbn [spec_run] in H. destruct (step true K d o ch) as [d1 x] eqn:Es.
    destruct (spec_step K s o (ores x, image K d1 (nf d1))) as [[[s1 r] data]|] eqn:Esp; [|discriminate].
    destruct (step_sim K d s o ch d1 x s1 r data HK I R Es Esp) as (I1 & R1 & _).
    eapply IH; eauto.
Qed.

Theorem read_after_history : forall K nb p h s d off len, 0 < K ->
  spec_run K (mkspec (repeat 0%N (nb * K)) [] nb) (init nb p) h = Some (s, d) ->
  off + len <= size s * K ->
  fst (read_at K d off len) = firstn len (skipn off (live s)).
Proof.
  intros K nb p h s d off len HK H Hr.
  destruct (run_refines K h _ _ _ _ HK (inv_init K nb p) (rel_init K nb p) H) as (I & R).
  rewrite (r_size _ _ _ R) in Hr.
  pose proof (read_sim K d s off len HK I R Hr) as RS.
  destruct (read_at K d off len) as [x d1]. destruct RS as (-> & _). reflexivity.
Qed.

Theorem write_exact : forall K d data off ch, 0 < K -> inv K d -> off + length data <= nblk d * K ->
  let '(dw, hs) := write_at true K d data off in
  let d1 := punched dw hs ch in
  inv K d1 /\
  image K d1 (nf d1) = lsplice (image K d (nf d)) off data /\
  forall i, 1 <= i < nf d -> usr d i = true -> rmd d i = false -> image K d1 i = image K d i.
Proof.
  intros K d data off ch HK I Hr. pose proof (write_fin K d data off ch HK I Hr) as WF.
  destruct (write_at true K d data off) as [dw hs]. destruct WF as (I1 & Q & Hlive).
  split; [assumption|]. split; [now rewrite (kp_nf _ _ Q)|]. intros i. now apply kept_images.
Qed.

Theorem read_fault_sound : forall K d s off len i ch, 0 < K -> inv K d -> Rel K d s ->
  off + len <= nblk d * K ->
  let '(d1, x) := step true K d (ReadFault off len i) ch in
  memo d d1 /\ inv K d1 /\ Rel K d1 s /\
  ((ores x = RErr /\ odata x = []) \/ (ores x = ROk /\ odata x = firstn len (skipn off (live s)))).
Proof.
  intros K d s off len i ch HK I R Hin. cbn [step].
  destruct (Nat.ltb_spec (nblk d * K) (off + len)); [lia|].
  pose proof (readfault_sim K d s off len i HK I R Hin) as RF.
  destruct (read_at_fault K d off len i) as [failed d']. destruct RF as (M & I' & R' & Hx).
  destruct failed; auto 6.
Qed.

(** [s_img] is only ever written by [Snap], as a copy of the live image, and extended by zeros by [Resize] *)
Theorem user_snapshot_immutable : forall K nb p h s d i e, 0 < K ->
  spec_run K (mkspec (repeat 0%N (nb * K)) [] nb) (init nb p) h = Some (s, d) ->
  nth_error (snaps s) (i - 1) = Some e -> 1 <= i < nf d -> retained e = true ->
  image K d i = s_img e /\ nm d i = s_name e.
Proof.
  intros K nb p h s d i e HK H Hn Hi Hr.
  destruct (run_refines K h _ _ _ _ HK (inv_init K nb p) (rel_init K nb p) H) as (I & R).
  destruct (r_snaps _ _ _ R i e Hi Hn) as (A & _ & _ & D). split; [symmetry; now apply D|congruence].
Qed.

Theorem revert_exact : forall K d s name ch e p, 0 < K -> inv K d -> Rel K d s ->
  spos (snaps s) name 1 = p -> p <> 0 -> nth_error (snaps s) (p - 1) = Some e -> retained e = true ->
  name <> 0%N ->
  let '(d1, x) := step true K d (Revert name) ch in
  ores x = ROk /\ inv K d1 /\ fst (read_all K d1) = s_img e.
Proof.
  intros K d s name ch e p HK I R Hp Hp0 He Hret Hn0.
  destruct (step true K d (Revert name) ch) as [d1 x] eqn:Es.
  assert (Hsp : spec_step K s (Revert name) (ores x, image K d1 (nf d1)) =
                Some (mkspec (s_img e) (firstn p (snaps s)) (size s), ROk, [])).
  { cbn [spec_step]. unfold classify. destruct (N.eqb_spec name 0); [contradiction|]. rewrite Hp.
    assert (Hpl : p - 1 < length (snaps s)) by (apply nth_error_Some; congruence).
    destruct (Nat.eqb_spec p 0); [lia|].
    rewrite He, Hret.
    destruct (p =? length (snaps s)); [reflexivity|]. destruct (p =? 1); reflexivity. }
  destruct (step_sim K d s (Revert name) ch d1 x _ _ _ HK I R Es Hsp) as (I1 & R1 & Hr & _).
  split; [assumption|]. split; [assumption|].
  rewrite (read_all_image K d1 HK (inv_wf _ _ I1)). symmetry. exact (r_live _ _ _ R1).
Qed.

(** F1: on this history the variant fx = false of fullWriteAt (hole sent to the file of the current block) violates
    C06 ([C06_refuted] of Properties/C06.v) *)
Definition f1_history : list (op * list bool) :=
  [(Write 0 (repeat 1%N 2), []); (Snap 1%N true, []); (Write 0 (repeat 2%N 1), []); (Snap 2%N false, []);
   (Write 0 (repeat 3%N 2), [])].

(** the same history is fine for fx = true, and reclamation does thin the automatic snapshot *)
Example f1_history_repaired :
  c06_oracle (mkcfg 1 8 true true) (map fst f1_history) (trace true 1 true (init 8 true) f1_history) = true /\
  (let d := fst (run true 1 (init 8 true) f1_history) in
   image 1 d 1 = [1; 1; 0; 0; 0; 0; 0; 0]%N /\ image 1 d 2 = [1; 1; 0; 0; 0; 0; 0; 0]%N /\ snapix d = 1).
Proof. vm_compute. auto. Qed.

Theorem delete_preserves : forall K d name, inv K d ->
  let i := find_name d name (nf d) in
  2 <= i -> S i < nf d -> (usr d (i - 1) = true -> rmd d (i - 1) = true) ->
  exists d1, delete d name = (d1, ROk) /\ inv K d1 /\ nf d1 = nf d - 1 /\ nblk d1 = nblk d /\
    image K d1 (nf d1) = image K d (nf d) /\
    (forall k, 1 <= k < i - 1 -> image K d1 k = image K d k /\ nm d1 k = nm d k) /\
    (forall k, i <= k -> image K d1 k = image K d (S k) /\ nm d1 k = nm d (S k)) /\
    nm d1 (i - 1) = nm d (i - 1).
Proof.
  intros K d name I i Hi Hin Hpar. apply retained_user_false in Hpar.
  destruct (delete_cases d name) as [(_ & E)|[(_ & E & Hc)|(_ & _ & E)]]; fold i in E; try lia.
  exists (merged (mark d i) i). split; [assumption|].
  split; [now apply deleted_inv|]. split; [reflexivity|]. split; [reflexivity|].
  split; [apply (merged_live K (mark d i)); cbn [mark nf]; lia|]. split; [|split].
  - intros k Hk. rewrite merged_nm, merged_image, old_ix_lt by lia. split; reflexivity.
  - intros k Hk. rewrite merged_nm, merged_image, old_ix_ge by lia. split; reflexivity.
  - rewrite merged_nm, old_ix_lt by lia. reflexivity.
Qed.

Theorem delete_refines : forall K d s name ch d1 x s1 r data,
  0 < K -> inv K d -> Rel K d s ->
  step true K d (Delete name) ch = (d1, x) ->
  spec_step K s (Delete name) (ores x, image K d1 (nf d1)) = Some (s1, r, data) ->
  inv K d1 /\ Rel K d1 s1 /\ ores x = r /\ live s1 = live s.
Proof.
  intros K d s name ch d1 x s1 r data HK I R Hs Hp.
  destruct (step_sim K d s (Delete name) ch d1 x s1 r data HK I R Hs Hp) as (A & B & C & _).
  split; [assumption|]. split; [assumption|]. split; [assumption|].
  cbn [spec_step] in Hp. destruct (classify s name) as [| | | |p]; try (inversion Hp; reflexivity).
  destruct (nth_error (snaps s) (p - 2)) as [par|]; [|discriminate]. destruct (retained par); [discriminate|].
  inversion Hp; reflexivity.
Qed.

Theorem clean_preserves : forall K d c victim fail, inv K d -> c <> 0%N ->
  let '(d1, r) := clean d (Some c) victim fail in
  inv K d1 /\ nblk d1 = nblk d /\ image K d1 (nf d1) = image K d (nf d) /\
  (forall k, 1 <= k < nf d -> usr d k = true -> rmd d k = false ->
     exists k', 1 <= k' < nf d1 /\ nm d1 k' = nm d k /\ usr d1 k' = true /\ rmd d1 k' = false /\
                image K d1 k' = image K d k) /\
  (fail = true -> nf d1 = nf d /\ nm d1 = nm d /\ fl d1 = fl d) /\
  (r = RErr -> fail = true /\ In victim (candidates d (Some c))).
Proof.
  intros K d c victim fail I Nc. pose proof (inv_names _ _ I) as N.
  destruct (clean_cases d (Some c) victim fail) as [(Ep & E)|(Ep & HC)].
  { rewrite E. split; [assumption|]. split; [reflexivity|]. split; [reflexivity|].
    split; [exact (users_in_refl K d)|]. split; [auto|discriminate]. }
  destruct (picked_index d c victim N Nc Ep) as (H2 & Hlt & Hn & Hnm & Hv & R1 & R2).
  assert (Hin : In victim (candidates d (Some c))).
  { apply existsb_exists in Ep. destruct Ep as (x & Hx & E). apply N.eqb_eq in E. now subst x. }
  destruct HC as [(E & Hc)|(_ & _ & E)]; [exfalso; lia|]. rewrite E.
  set (i := find_name d victim (nf d)) in *.
  destruct fail.
  - split; [now apply mark_inv|]. split; [reflexivity|]. split; [reflexivity|].
    split; [exact (users_survive_mark K d i R1)|]. split; auto.
  - split; [now apply deleted_inv|]. split; [reflexivity|].
    split; [apply (merged_live K (mark d i)); cbn [mark nf]; lia|].
    split; [exact (users_survive_deleted K d i H2 Hn R2 R1)|]. split; discriminate.
Qed.

Theorem protected_refused : forall d name,
  let i := find_name d name (nf d) in
  i <> 0 -> (i = nf d \/ S i = nf d \/ i = 1) ->
  prep_remove d name = (d, RErr) /\ delete d name = (d, RErr).
Proof.
  intros d name i H0 Hc.
  destruct (prep_remove_cases d name) as [(_ & E)|[(E & _)|(H2 & Hn & _)]];
    [fold i in E; lia | | fold i in H2, Hn; lia].
  split; [assumption|].
  destruct (delete_cases d name) as [(_ & E')|[(E' & _)|(H2 & Hn & _)]];
    [fold i in E'; lia | assumption | fold i in H2, Hn; lia].
Qed.

Theorem raw_remove_refuses_head_and_latest : forall d name,
  let i := find_name d name (nf d) in
  i <> 0 -> (i = nf d \/ S i = nf d) -> remove d name = (d, RErr).
Proof.
  intros d name i H0 Hc. unfold remove, remove_g. fold i.
  destruct (Nat.eqb_spec i 0); [contradiction|].
  destruct (Nat.eqb_spec i (nf d)); [reflexivity|].
  destruct (Nat.eqb_spec (S i) (nf d)); [reflexivity|lia].
Qed.

(** S7: without the guard ([remove_g false]) the raw RemoveDiffDisk accepts the base snapshot, and the live
    volume changes ([C11_raw_remove_accepts_base_refuted] of Properties/C11.v) *)
Definition s7_history : list (op * list bool) :=
  [(Write 0 (repeat 1%N 2), []); (Snap 1%N false, []); (Write 1 (repeat 2%N 1), []); (Snap 2%N false, []);
   (Write 2 (repeat 3%N 1), [])].

Theorem cleaner_filter : forall d cp name, In name (candidates d cp) ->
  exists c k, cp = Some c /\ find_name d c (nf d) <> 0 /\
    2 <= k < find_name d c (nf d) /\
    nm d k = name /\
    retained_user d k = false /\ retained_user d (k - 1) = false /\
    (find_name d c (nf d) < nf d -> S k < nf d).
Proof.
  intros d cp name Hin. destruct cp as [c|]; [|destruct Hin].
  apply candidates_in in Hin. destruct Hin as (H3 & k & Hk & Hn & R1 & R2).
  exists c, k. repeat split; try assumption; lia.
Qed.

Theorem grow : forall K d nb, inv K d -> nblk d <= nb ->
  resize d nb = (grown_dd d nb, ROk) /\ inv K (grown_dd d nb) /\ nblk (grown_dd d nb) = nb /\
  nf (grown_dd d nb) = nf d /\
  forall j, image K (grown_dd d nb) j = image K d j ++ repeat 0%N ((nb - nblk d) * K).
Proof.
  intros K d nb I Hnb. destruct (resize_cases d nb) as [(Hlt & _)|(_ & E)]; [lia|].
  split; [exact E|]. split; [now apply grown_inv|]. split; [reflexivity|]. split; [reflexivity|].
  intros j. apply grown_image; [apply I|assumption].
Qed.

Theorem shrink_refused : forall d nb, nb < nblk d -> resize d nb = (d, RErr).
Proof. intros d nb H. destruct (resize_cases d nb) as [(_ & E)|(Hge & _)]; [assumption|lia]. Qed.

(** ** non-vacuity: a history with unaligned writes across files, both kinds of snapshot, reclamation,
    a deletion, a revert, reopen and resize is inside the specification's domain *)
Definition demo_history : list (op * list bool) :=
  [(Write 3 (repeat 1%N 10), []); (Snap 1%N true, []); (Write 5 (repeat 2%N 9), [true]); (Snap 2%N false, []);
   (Write 0 (repeat 3%N 16), [true; false]); (Snap 3%N false, []); (Write 7 (repeat 4%N 2), []);
   (Snap 4%N true, []); (Delete 3%N, []); (Reload true, [true]); (Resize 6, []); (Write 17 (repeat 5%N 6), []);
   (Reopen false, []); (Read 2 20, []); (Revert 1%N, []); (Read 0 24, [])].

Example demo_in_domain :
  match spec_run 4 (mkspec (repeat 0%N (4 * 4)) [] 4) (init 4 true) demo_history with
  | Some (s, d) => nf d = 2 /\ size s = 6 /\
                   firstn 16 (live s) = [0; 0; 0; 1; 1; 1; 1; 1; 1; 1; 1; 1; 1; 0; 0; 0]%N
  | None => False
  end.
Proof. vm_compute. auto. Qed.
