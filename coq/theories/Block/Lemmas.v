(** * Block: basic lemmas -- function update and counted loops, the topmost extent of a chain prefix and the frames
    [kept] / [quiet] stated with it, applying holes, the block map and its memoisation by reads. *)
From Coq Require Import List Arith Bool NArith Lia.
From Jiva Require Import Block.Model.
Import ListNotations.

Lemma fupd_eq : forall A (f : nat -> A) k v, fupd f k v k = v.
Proof. intros. unfold fupd. now rewrite Nat.eqb_refl. Qed.

Lemma fupd_neq : forall A (f : nat -> A) k v x, x <> k -> fupd f k v x = f x.
Proof. intros. unfold fupd. destruct (Nat.eqb_spec x k); [contradiction | reflexivity]. Qed.

Lemma fupd_cases : forall A (f : nat -> A) k v x, (x = k /\ fupd f k v x = v) \/ (x <> k /\ fupd f k v x = f x).
Proof. intros. destruct (Nat.eq_dec x k) as [->|H]; [left; split; auto using fupd_eq | right; split; auto using fupd_neq]. Qed.

(** the step of every loop that fills a table block by block *)
Lemma ltb_S_cases : forall A (f g : nat -> A) b x,
  (if x <? S b then f x else g x) = if x =? b then f b else if x <? b then f x else g x.
Proof.
  intros A f g b x.
  destruct (Nat.ltb_spec x (S b)); destruct (Nat.ltb_spec x b); destruct (Nat.eqb_spec x b); subst;
    try reflexivity; lia.
Qed.

(** the counted loops of the model ([fw_loop], [pre_blocks], [pre_files], [lun_loop]) have this shape, both
    equations by [eq_refl] *)
Lemma loop_inv : forall St (step : St -> nat -> St) (loop : nat -> nat -> St -> St) (I : nat -> St -> Prop) lo hi,
  (forall c b s, loop (S c) b s = loop c (S b) (step s b)) -> (forall b s, loop 0 b s = s) ->
  (forall b s, lo <= b < hi -> I b s -> I (S b) (step s b)) ->
  forall cnt b s, lo <= b -> b + cnt <= hi -> I b s -> I (b + cnt) (loop cnt b s).
Proof.
  intros St step loop I lo hi HS H0 Hstep. induction cnt as [|cnt IH]; intros b s Hlo Hhi Hi.
  - now rewrite H0, Nat.add_0_r.
  - rewrite HS. replace (b + S cnt) with (S b + cnt) by lia. apply IH; [lia|lia|]. apply Hstep; [lia|exact Hi].
Qed.

(** ** the topmost extent of a chain prefix *)
Lemma top_0 : forall fls b, top fls 0 b = None. Proof. reflexivity. Qed.
Lemma top_S : forall fls j b,
  top fls (S j) b = match fls (S j) b with Some v => Some v | None => top fls j b end.
Proof. reflexivity. Qed.

Lemma top_split : forall f g c J b, c <= J -> (forall i, c < i <= J -> f i b = g i b) ->
  top f c b = top g c b -> top f J b = top g J b.
Proof.
  intros f g c J b Hc. induction J as [|J IH]; intros Heq Hlow.
  - assert (c = 0) by lia. subst. exact Hlow.
  - destruct (Nat.eq_dec c (S J)) as [->|Hne]; [exact Hlow|].
    rewrite !top_S. rewrite <- (Heq (S J)) by lia.
    destruct (f (S J) b); [reflexivity|]. apply IH; [lia| |assumption]. intros i Hi. apply Heq. lia.
Qed.

Lemma top_ext : forall f g j b, (forall i, 1 <= i <= j -> f i b = g i b) -> top f j b = top g j b.
Proof. intros f g j b H. exact (top_split f g 0 j b (Nat.le_0_l j) H eq_refl). Qed.

Lemma top_below_new : forall fls n (g : file) J b, J <= n -> top (fupd fls (S n) g) J b = top fls J b.
Proof. intros fls n g J b HJ. apply top_ext. intros k Hk. now rewrite fupd_neq by lia. Qed.

Lemma top_empty_head : forall fls n b, top (fupd fls (S n) fempty) (S n) b = top fls n b.
Proof. intros fls n b. rewrite top_S, fupd_eq. cbn [fempty]. now apply top_below_new. Qed.

Lemma top_none_above : forall fls j k b, j <= k -> (forall i, j < i <= k -> fls i b = None) ->
  top fls k b = top fls j b.
Proof.
  induction k as [|k IH]; intros b Hjk H.
  - assert (j = 0) by lia. now subst.
  - destruct (Nat.eq_dec j (S k)) as [->|Hne]; [reflexivity|].
    rewrite top_S. rewrite (H (S k)) by lia. apply IH; [lia|]. intros i Hi. apply H. lia.
Qed.

Lemma top_some : forall fls j b v, 1 <= j -> fls j b = Some v -> top fls j b = Some v.
Proof. intros fls j b v Hj H. destruct j; [lia|]. rewrite top_S, H. reflexivity. Qed.

Lemma top_all_none : forall fls j b, (forall i, 1 <= i <= j -> fls i b = None) -> top fls j b = None.
Proof. intros fls j b H. exact (top_none_above fls 0 j b (Nat.le_0_l j) H). Qed.

Lemma top_some_inv : forall fls j b v, top fls j b = Some v ->
  exists i, 1 <= i <= j /\ fls i b = Some v /\ forall k, i < k <= j -> fls k b = None.
Proof.
  induction j as [|j IH]; intros b v H; [discriminate|].
  rewrite top_S in H. destruct (fls (S j) b) as [w|] eqn:E.
  - inversion H; subst. exists (S j). split; [lia|]. split; [assumption|]. intros; lia.
  - destruct (IH _ _ H) as (i & Hi & Hv & Hn). exists i. split; [lia|]. split; [assumption|].
    intros k Hk. destruct (Nat.eq_dec k (S j)) as [->|Hne]; [assumption|]. apply Hn. lia.
Qed.

Lemma top_none_inv : forall fls j b, top fls j b = None -> forall i, 1 <= i <= j -> fls i b = None.
Proof.
  induction j as [|j IH]; intros b H i Hi; [lia|].
  rewrite top_S in H. destruct (fls (S j) b) eqn:E; [discriminate|].
  destruct (Nat.eq_dec i (S j)) as [->|Hne]; [assumption|]. apply IH; [assumption|lia].
Qed.

Lemma img_ext : forall K f g j b, (forall i, 1 <= i <= j -> f i b = g i b) -> img K f j b = img K g j b.
Proof. intros. unfold img. now rewrite (top_ext f g j b). Qed.

Lemma image_ext : forall K d d' j j', nblk d' = nblk d ->
  (forall b, top (fl d') j' b = top (fl d) j b) -> image K d' j' = image K d j.
Proof.
  intros K d d' j j' En H. unfold image. rewrite En. f_equal. apply map_ext. intros b. unfold img. now rewrite H.
Qed.

(** [d'] has the chain, the names, the attributes and the size of [d], and every retained user-created
    snapshot of [d] reads in [d'] what it read in [d] *)
Record kept (d d' : dd) : Prop := {
  kp_nf : nf d' = nf d;
  kp_nblk : nblk d' = nblk d;
  kp_nm : nm d' = nm d;
  kp_usr : usr d' = usr d;
  kp_rmd : rmd d' = rmd d;
  kp_top : forall i b, 1 <= i < nf d -> usr d i = true -> rmd d i = false -> top (fl d') i b = top (fl d) i b
}.

Definition quiet (d d' : dd) : Prop := kept d d' /\ forall b, top (fl d') (nf d) b = top (fl d) (nf d) b.

Lemma kept_images : forall K d d' i, kept d d' -> 1 <= i < nf d -> usr d i = true -> rmd d i = false ->
  image K d' i = image K d i.
Proof. intros K d d' i Q Hi Hu Hr. apply image_ext; [apply Q|]. intros b. now apply Q. Qed.

(** ** applying holes *)
(** stated on any [fls'], so it holds whatever the order of the holes and whichever of them were dropped *)
Lemma punch_safe : forall fls fls' J b,
  (forall f, fls' f b = fls f b \/ fls' f b = None) ->
  (forall f, 1 <= f <= J -> fls' f b <> fls f b -> exists i, f < i <= J /\ fls i b <> None) ->
  top fls' J b = top fls J b.
Proof.
  induction J as [|J IH]; intros b Hp Hj; [reflexivity|].
  rewrite !top_S.
  destruct (fls (S J) b) as [v|] eqn:E.
  - destruct (Hp (S J)) as [H|H]; [rewrite H, E; reflexivity|].
    exfalso. destruct (Hj (S J)) as (i & Hi & _); [lia| congruence |lia].
  - replace (fls' (S J) b) with (@None (list N)) by (destruct (Hp (S J)) as [H|H]; congruence).
    apply IH; [assumption|]. intros f Hf Hne. destruct (Hj f) as (i & Hi & Hx); [lia|assumption|].
    exists i. split; [|assumption]. destruct (Nat.eq_dec i (S J)) as [->|]; [congruence|lia].
Qed.

Definition covers (h : hole) (f b : nat) : Prop :=
  let '(i, s, l) := h in i = f /\ s <= b < s + l.

Lemma punch_file_in : forall f s l b, s <= b < s + l -> punch_file f s l b = None.
Proof.
  intros. unfold punch_file.
  destruct (Nat.leb_spec s b); destruct (Nat.ltb_spec b (s + l)); simpl; try reflexivity; lia.
Qed.
Lemma punch_file_out : forall f s l b, ~ (s <= b < s + l) -> punch_file f s l b = f b.
Proof.
  intros. unfold punch_file.
  destruct (Nat.leb_spec s b); destruct (Nat.ltb_spec b (s + l)); simpl; try reflexivity; lia.
Qed.

Lemma apply_hole_cases : forall fls h f b,
  (apply_hole fls h f b = fls f b) \/ (apply_hole fls h f b = None /\ covers h f b).
Proof.
  intros fls [[i s] l] f b. unfold apply_hole, covers.
  destruct (fupd_cases _ fls i (punch_file (fls i) s l) f) as [[-> H]|[Hn H]]; rewrite H.
  - assert (Hb : s <= b < s + l \/ ~ (s <= b < s + l)) by lia. destruct Hb as [Hb|Hb].
    + right. split; [now apply punch_file_in|now split].
    + left. now apply punch_file_out.
  - left. reflexivity.
Qed.

Lemma apply_holes_cases : forall hs ch fls f b,
  (apply_holes fls hs ch f b = fls f b) \/
  (apply_holes fls hs ch f b = None /\ exists h, In h hs /\ covers h f b).
Proof.
  induction hs as [|h hs IH]; intros ch fls f b; [left; reflexivity|].
  cbn [apply_holes].
  assert (Hgen : forall fls1, (fls1 f b = fls f b \/ (fls1 f b = None /\ covers h f b)) -> forall ch',
     (apply_holes fls1 hs ch' f b = fls f b) \/
     (apply_holes fls1 hs ch' f b = None /\ exists h0, In h0 (h :: hs) /\ covers h0 f b)).
  { intros fls1 H1 ch'. destruct (IH ch' fls1 f b) as [H|[H (h0 & Hin & Hc)]].
    - rewrite H. destruct H1 as [H1|[H1 Hc]]; [left; assumption|].
      right. split; [assumption|]. exists h. split; [left; reflexivity|assumption].
    - right. split; [assumption|]. exists h0. split; [right; assumption|assumption]. }
  destruct ch as [|c ch'].
  - apply Hgen. apply apply_hole_cases.
  - destruct c; apply Hgen; [apply apply_hole_cases | left; reflexivity].
Qed.

(** ** well-formedness of the in-memory map w.r.t. the files *)
Definition loc_ok (d : dd) : Prop :=
  forall b, loc d b = 0 \/
            (1 <= loc d b <= nf d /\ (forall j, loc d b < j <= nf d -> fl d j b = None)
             /\ (2 <= loc d b -> fl d (loc d b) b <> None)).

Lemma probe_0 : forall fls b, probe fls 0 b = 0. Proof. reflexivity. Qed.
Lemma probe_1 : forall fls b, probe fls 1 b = 1. Proof. reflexivity. Qed.
Lemma probe_SS : forall fls j b,
  probe fls (S (S j)) b = match fls (S (S j)) b with Some _ => S (S j) | None => probe fls (S j) b end.
Proof. reflexivity. Qed.

Lemma probe_spec : forall fls j b, 1 <= j ->
  1 <= probe fls j b <= j /\ (forall k, probe fls j b < k <= j -> fls k b = None)
  /\ (2 <= probe fls j b -> fls (probe fls j b) b <> None).
Proof.
  induction j as [|j IH]; intros b Hj; [lia|].
  destruct j as [|j].
  - rewrite probe_1. split; [lia|]. split; intros; lia.
  - rewrite probe_SS. destruct (fls (S (S j)) b) eqn:E.
    + split; [lia|]. split; [intros; lia|]. intros _. congruence.
    + destruct (IH b) as (H1 & H2 & H3); [lia|]. split; [lia|]. split; [|assumption].
      intros k Hk. destruct (Nat.eq_dec k (S (S j))) as [->|]; [assumption|]. apply H2. lia.
Qed.

Lemma loc_ok_probe : forall d b, 1 <= nf d -> loc_ok d -> loc d b <> 0 -> loc d b = probe (fl d) (nf d) b.
Proof.
  intros d b Hnf Hok Hne. destruct (Hok b) as [H0|(H1 & H2 & H3)]; [contradiction|].
  destruct (probe_spec (fl d) (nf d) b Hnf) as (P1 & P2 & P3).
  destruct (Nat.lt_trichotomy (loc d b) (probe (fl d) (nf d) b)) as [Hlt|[Heq|Hgt]]; [|assumption|].
  - exfalso. apply P3; [lia|]. apply H2. lia.
  - exfalso. apply H3; [lia|]. apply P2. lia.
Qed.

Lemma read_target_img : forall K d t b, 1 <= t <= nf d ->
  (forall j, t < j <= nf d -> fl d j b = None) -> (2 <= t -> fl d t b <> None) ->
  read_block K d t b = img K (fl d) (nf d) b.
Proof.
  intros K d t b Ht Habove Hext. unfold read_block, img.
  rewrite (top_none_above (fl d) t (nf d) b) by (try lia; assumption).
  destruct t as [|t]; [lia|]. rewrite top_S.
  destruct (fl d (S t) b) as [v|] eqn:E; [reflexivity|].
  destruct t as [|t]; [reflexivity|]. exfalso. apply Hext; [lia|reflexivity].
Qed.

Lemma lookup_read : forall K d b, 1 <= nf d -> loc_ok d -> b < nblk d ->
  read_block K d (fst (lookup d b)) b = img K (fl d) (nf d) b.
Proof.
  intros K d b Hnf Hok Hb. unfold lookup.
  destruct (Nat.leb_spec (nblk d) b); [lia|].
  destruct (Nat.eqb_spec (nf d) 1) as [E1|N1].
  - cbn [fst]. apply read_target_img; rewrite ?E1; try lia; intros; lia.
  - destruct (loc d b) as [|t] eqn:El; cbn [fst].
    + destruct (probe_spec (fl d) (nf d) b Hnf) as (P1 & P2 & P3). now apply read_target_img.
    + destruct (Hok b) as [H0|(H1 & H2 & H3)]; [congruence|]. rewrite El in *. now apply read_target_img.
Qed.

Lemma set_loc_fl : forall d l, fl (set_loc d l) = fl d. Proof. reflexivity. Qed.
Lemma set_loc_nf : forall d l, nf (set_loc d l) = nf d. Proof. reflexivity. Qed.
Lemma set_loc_nblk : forall d l, nblk (set_loc d l) = nblk d. Proof. reflexivity. Qed.
Lemma set_loc_loc : forall d l, loc (set_loc d l) = l. Proof. reflexivity. Qed.

Definition memo (d d' : dd) : Prop :=
  nf d' = nf d /\ fl d' = fl d /\ nm d' = nm d /\ usr d' = usr d /\ rmd d' = rmd d /\ ucs d' = ucs d
  /\ snapix d' = snapix d /\ nblk d' = nblk d /\ punch d' = punch d
  /\ (forall b, loc d' b = loc d b \/ loc d b = 0) /\ loc_ok d'.

Lemma memo_refl : forall d, loc_ok d -> memo d d.
Proof. intros d H. repeat split; auto. Qed.

Lemma memo_nf : forall d d', memo d d' -> nf d' = nf d.
Proof. intros d d' M. apply M. Qed.
Lemma memo_fl : forall d d', memo d d' -> fl d' = fl d.
Proof. intros d d' M. apply M. Qed.
Lemma memo_nm : forall d d', memo d d' -> nm d' = nm d.
Proof. intros d d' M. apply M. Qed.
Lemma memo_usr : forall d d', memo d d' -> usr d' = usr d.
Proof. intros d d' M. apply M. Qed.
Lemma memo_rmd : forall d d', memo d d' -> rmd d' = rmd d.
Proof. intros d d' M. apply M. Qed.
Lemma memo_nblk : forall d d', memo d d' -> nblk d' = nblk d.
Proof. intros d d' M. apply M. Qed.
Lemma memo_loc : forall d d' b, memo d d' -> loc d' b = loc d b \/ loc d b = 0.
Proof. intros d d' b M. apply M. Qed.
Lemma memo_loc_ok : forall d d', memo d d' -> loc_ok d'.
Proof. intros d d' M. apply M. Qed.

Lemma memo_trans : forall a b c, memo a b -> memo b c -> memo a c.
Proof.
  intros a b c (A1&A2&A3&A4&A5&A6&A7&A8&A9&A10&A11) (B1&B2&B3&B4&B5&B6&B7&B8&B9&B10&B11).
  repeat split; try congruence; [|assumption].
  intros x. destruct (B10 x) as [H|H]; destruct (A10 x) as [H'|H']; try (right; congruence); try (left; congruence).
Qed.

Lemma memo_quiet : forall d d', memo d d' -> quiet d d'.
Proof. intros d d' M. split; [constructor|]; intros; rewrite ?(memo_fl _ _ M); try reflexivity; apply M. Qed.

Lemma lookup_memo : forall d b, 1 <= nf d -> loc_ok d ->
  let '(t, l) := lookup d b in memo d (set_loc d l).
Proof.
  intros d b Hnf Hok.
  assert (Hsame : memo d (set_loc d (loc d))) by (destruct d; now apply memo_refl).
  unfold lookup. destruct (nblk d <=? b); [exact Hsame|]. destruct (nf d =? 1); [exact Hsame|].
  destruct (loc d b) eqn:El; [|exact Hsame].
  repeat split; intros x; cbn [loc set_loc nf fl];
    destruct (fupd_cases _ (loc d) b (probe (fl d) (nf d) b) x) as [[-> H]|[Hn H]]; rewrite H; auto.
  right. now apply probe_spec.
Qed.

Lemma full_read_spec : forall K cnt d b, 1 <= nf d -> loc_ok d -> b + cnt <= nblk d ->
  let '(blks, d') := full_read K d cnt b in
  blks = map (img K (fl d) (nf d)) (seq b cnt) /\ memo d d'.
Proof.
  induction cnt as [|cnt IH]; intros d b Hnf Hok Hb.
  - cbn. split; [reflexivity| now apply memo_refl].
  - cbn [full_read].
    pose proof (lookup_read K d b Hnf Hok ltac:(lia)) as Hr. pose proof (lookup_memo d b Hnf Hok) as M.
    destruct (lookup d b) as [t l]. cbn [fst] in Hr.
    specialize (IH (set_loc d l) (S b) Hnf (memo_loc_ok _ _ M) ltac:(rewrite set_loc_nblk; lia)).
    destruct (full_read K (set_loc d l) cnt (S b)) as [rest d2]. destruct IH as (Hrest & Hm).
    split; [|exact (memo_trans _ _ _ M Hm)].
    cbn [seq map]. rewrite Hr. f_equal. exact Hrest.
Qed.
