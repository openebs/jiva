(** * Srv: proofs about the model: the revision counter (C10), the mode and state gates (C17) *)
From Coq Require Import List ZArith NArith Bool Arith.
From Jiva Require Import Srv.Model Srv.Corr.
Import ListNotations.
Open Scope Z_scope.

Definition inv (s : st) : Prop :=
  match r s with Some x => cache x = dcount s | None => True end.

Lemma inv_init : inv init.
Proof. exact I. Qed.

(** ** Server.Status read backwards *)
Lemma state_closed_iff : forall s,
  rstate_eqb (state s) SClosed = true <-> r s = None /\ present s = true.
Proof.
  intros s. unfold state. split.
  - destruct (r s) as [x|]; [destruct (irebuild x); [|destruct (idirty x)]; discriminate|].
    destruct (present s); [split; reflexivity|discriminate].
  - intros [-> ->]. reflexivity.
Qed.

Lemma state_rebuilding : forall s,
  rstate_eqb (state s) SRebuilding = true -> exists x, r s = Some x /\ irebuild x = true.
Proof.
  intros s. unfold state. destruct (r s) as [x|]; [|destruct (present s); discriminate].
  destruct (irebuild x) eqn:Hi; [|destruct (idirty x); discriminate].
  intros _. exists x. split; [reflexivity|exact Hi].
Qed.

Definition next_count (s : st) (o : op) : Z :=
  match o with
  | OWrite _ => if is_rw s then dcount s + 1 else dcount s
  | OSetRev v => if is_rw s then v else dcount s
  | OCreate => if rstate_eqb (state s) SInitial then 1 else dcount s
  | _ => dcount s
  end.

Lemma step_inv_count : forall s o, inv s ->
  inv (fst (step s o)) /\ dcount (fst (step s o)) = next_count s o.
Proof.
  intros s o. unfold inv, next_count, is_rw.
  destruct o; cbn [step]; unfold with_rep;
    [destruct (state s); cbn; auto | destruct (r s) as [x|] eqn:Hr ..].
  (* the new state is computed, or is [s] itself ([Hr]); without an open replica that settles all but OOpen *)
  all: try solve [cbn; rewrite ?Hr; auto].
  - (* OOpen, none open *) destruct (present s); cbn; rewrite ?Hr; auto.
  - (* OWrite: the counter comes from the cache *)
    destruct (rmode x); cbn; rewrite ?Hr; auto. intros ->. auto.
  - (* OWriteCrash *) destruct (rmode x); cbn; auto.
  - (* OWriteFail *) destruct (rmode x); cbn; rewrite ?Hr; auto.
  - (* OSetMode *) destruct m; cbn; rewrite ?Hr; auto.
  - (* OSetRev *) destruct (rmode x); cbn; rewrite ?Hr; auto.
  - (* ORemove *)
    destruct (rmode x); [|destruct (snaps s) as [|a [|b [|c l]]]|..]; cbn; rewrite ?Hr; auto.
  - (* OPrepRemove *)
    destruct (rmode x); [|destruct (snaps s) as [|a [|b [|c l]]]|..]; cbn; rewrite ?Hr; auto.
  - (* OSetRebuilding *) destruct (_ || _); cbn; rewrite ?Hr; auto.
  - (* ORevert *) destruct (snaps s); cbn; rewrite ?Hr; auto.
Qed.

Lemma step_inv : forall s o, inv s -> inv (fst (step s o)).
Proof. intros s o H. exact (proj1 (step_inv_count s o H)). Qed.

Lemma step_count : forall s o, inv s -> dcount (fst (step s o)) = next_count s o.
Proof. intros s o H. exact (proj2 (step_inv_count s o H)). Qed.

Lemma tstep_inv : forall s t, inv s -> inv (fst (tstep s t)).
Proof.
  intros s t H. destruct t as [o|a m v b|]; cbn [tstep].
  - apply step_inv; exact H.
  - destruct (allowed (state s) a); [|exact H].
    destruct (engine_of a m v b); [apply step_inv; exact H|exact H].
  - destruct (rstate_eqb (state s) SClosed); [apply step_inv; exact H|exact H].
Qed.

(** ** the mode gate: Replica.WriteAt asks for mode RW or WO; SetRevisionCounter, RemoveDiffDisk and
    PrepareRemoveDisk ask for RW *)
Definition serving_st (s : st) : bool :=
  match r s with Some x => mode_eqb (rmode x) RW || mode_eqb (rmode x) WO | None => false end.

Lemma mode_gate : forall s o,
  match o with
  | OWrite _ => serving_st s = false
  | OSetRev _ | ORemove | OPrepRemove => is_rw s = false
  | _ => False
  end -> step s o = (s, RErr).
Proof.
  intros s o H. unfold serving_st, is_rw in H.
  destruct o; try contradiction; cbn [step]; unfold with_rep.
  all: destruct (r s) as [x|]; [|reflexivity].
  all: destruct (rmode x); try discriminate H; reflexivity.
Qed.

Theorem write_gate : forall s id,
  serving_st s = false -> step s (OWrite id) = (s, RErr).
Proof. intros s id H. exact (mode_gate s (OWrite id) H). Qed.

Theorem setrev_needs_rw : forall s v, is_rw s = false ->
  step s (OSetRev v) = (s, RErr).
Proof. intros s v H. exact (mode_gate s (OSetRev v) H). Qed.

Lemma mode_pass : forall s o,
  match o with
  | OWrite _ => serving_st s = true
  | OSetRev _ => is_rw s = true
  | _ => False
  end -> snd (step s o) = ROk.
Proof.
  intros s o H. unfold serving_st, is_rw in H.
  destruct o; try contradiction; cbn [step]; unfold with_rep.
  all: destruct (r s) as [x|]; [|discriminate H].
  all: destruct (rmode x); try discriminate H; reflexivity.
Qed.

Lemma is_rw_serving : forall s, is_rw s = true -> serving_st s = true.
Proof.
  intros s H. unfold is_rw in H. unfold serving_st.
  destruct (r s) as [x|]; [rewrite H; reflexivity|discriminate H].
Qed.

(** ** C10: the counter over a run in which nothing sets it (no SetRevisionCounter, no create) *)
Fixpoint no_setrev (ts : list top) : bool :=
  match ts with [] => true | t :: ts' => negb (sets_rev t) && no_setrev ts' end.

Lemma tstep_count_nosr : forall s t, inv s -> sets_rev t = false ->
  dcount (fst (tstep s t)) = dcount s + counted s t.
Proof.
  intros s t H Hs. destruct t as [o|a m v b|]; cbn [tstep counted].
  - rewrite step_count by exact H. unfold next_count.
    destruct o; try discriminate Hs; try (symmetry; apply Z.add_0_r).
    destruct (is_rw s); [reflexivity|symmetry; apply Z.add_0_r].
  - rewrite Z.add_0_r. destruct (allowed (state s) a); [|reflexivity].
    destruct a; try discriminate Hs; cbn [engine_of fst]; try reflexivity; apply step_count; exact H.
  - rewrite Z.add_0_r. destruct (rstate_eqb (state s) SClosed); [|reflexivity].
    apply (step_count s OOpen H).
Qed.

Theorem counts_exact : forall ts s, inv s -> no_setrev ts = true ->
  dcount (fst (run s ts)) = dcount s + rw_acks s ts.
Proof.
  induction ts as [|t ts IH]; intros s H Hn.
  - symmetry. apply Z.add_0_r.
  - cbn [no_setrev] in Hn. apply andb_prop in Hn. destruct Hn as [Ht Hn]. apply negb_true_iff in Ht.
    pose proof (tstep_inv s t H) as H1. pose proof (tstep_count_nosr s t H Ht) as Hc.
    cbn [run rw_acks]. destruct (tstep s t) as [s1 x]. cbn [fst] in *.
    specialize (IH s1 H1 Hn). destruct (run s1 ts). cbn [fst] in *. rewrite IH, Hc. symmetry. apply Z.add_assoc.
Qed.

Lemma counted_nonneg : forall s t, 0 <= counted s t.
Proof.
  intros s t. unfold counted.
  destruct t as [o|a m v b|]; [destruct o|..]; try apply Z.le_refl.
  destruct (is_rw s); [apply Z.le_0_1|apply Z.le_refl].
Qed.

Lemma rw_acks_nonneg : forall ts s, 0 <= rw_acks s ts.
Proof.
  induction ts as [|t ts IH]; intros s; cbn [rw_acks]; [apply Z.le_refl|].
  apply Z.add_nonneg_nonneg; [apply counted_nonneg|apply IH].
Qed.

(** ** the C10 oracle holds on every trace of the model *)
Lemma observe_fields : forall s x,
  ostate (observe s x) = state s /\ ocount (observe s x) = dcount s /\ ores (observe s x) = x
  /\ omode (observe s x) = match r s with Some y => Some (rmode y) | None => None end.
Proof. intros; repeat split. Qed.

Lemma mode_is_rw : forall s x, mode_is (observe s x) RW = is_rw s.
Proof. intros s x. unfold mode_is, is_rw, observe; cbn. destruct (r s) as [y|]; reflexivity. Qed.

Lemma c10_eng_model : forall s x0 o, inv s ->
  c10_step (observe s x0) (Eng o) (observe (fst (step s o)) (snd (step s o))) = true.
Proof.
  intros s x0 o H.
  destruct o; cbn [c10_step]; rewrite ?mode_is_rw; cbn [ocount ores ostate observe];
    rewrite step_count by exact H; unfold next_count; try apply Z.eqb_refl.
  - (* OCreate *) destruct (rstate_eqb (state s) SInitial); [reflexivity|apply Z.eqb_refl].
  - (* OWrite *) destruct (is_rw s) eqn:E.
    + rewrite (mode_pass s (OWrite id) (is_rw_serving s E)). apply Z.eqb_refl.
    + apply Z.eqb_refl.
  - (* OSetRev *) destruct (is_rw s) eqn:E.
    + rewrite (mode_pass s (OSetRev v) E). apply Z.eqb_refl.
    + rewrite (setrev_needs_rw s v E). apply Z.eqb_refl.
Qed.

Lemma c10_step_rest : forall p a m v b c,
  c10_step p (Rest a m v b) c =
  match engine_of a m v b with
  | Some o => c10_step p (Eng o) c
  | None => Z.eqb (ocount c) (ocount p)
  end.
Proof. intros p a m v b c. destruct a; reflexivity. Qed.

Lemma c10_step_model : forall s x0 t, inv s ->
  c10_step (observe s x0) t (observe (fst (tstep s t)) (snd (tstep s t))) = true.
Proof.
  intros s x0 t H.
  destruct t as [o|a m v b|]; cbn [tstep].
  - apply c10_eng_model; exact H.
  - destruct (allowed (state s) a).
    + rewrite c10_step_rest.
      destruct (engine_of a m v b) as [o|]; [apply c10_eng_model; exact H|apply Z.eqb_refl].
    + (* answered 404, nothing done *)
      destruct a; cbn [c10_step ocount ores ostate observe fst snd is_ok res_eqb]; try apply Z.eqb_refl.
      destruct (rstate_eqb (state s) SInitial); [reflexivity|apply Z.eqb_refl].
  - (* an attach is an open or nothing *)
    destruct (rstate_eqb (state s) SClosed); [exact (c10_eng_model s x0 OOpen H)|apply Z.eqb_refl].
Qed.

Theorem c10_oracle_model : forall ts s x0, inv s ->
  c10_oracle (observe s x0) ts (trace s ts) = true.
Proof.
  induction ts as [|t ts IH]; intros s x0 H; cbn [trace c10_oracle]; [reflexivity|].
  pose proof (c10_step_model s x0 t H) as Hs. pose proof (tstep_inv s t H) as H1.
  destruct (tstep s t) as [s1 x]. cbn [fst snd] in Hs, H1. cbn [c10_oracle].
  rewrite Hs. apply IH. exact H1.
Qed.

(** ** C17: refusals and attach *)
Theorem closed_no_io : forall s o, r s = None ->
  match o with OWrite _ | ORead | OSnapshot | ORemove | OPrepRemove | OSetMode _ | OSetRev _
             | OSetRebuilding _ | OReload | ORevert | OSetCheckpoint => True | _ => False end ->
  step s o = (s, RErr).
Proof.
  intros s o H Ho. destruct o; try contradiction; cbn [step]; unfold with_rep; rewrite H; reflexivity.
Qed.

Theorem rest_gate : forall s a m v b, allowed (state s) a = false ->
  tstep s (Rest a m v b) = (s, R404).
Proof. intros s a m v b H. cbn [tstep]. rewrite H. reflexivity. Qed.

Theorem attach_only_closed : forall s,
  snd (tstep s Attach) = ROk -> state s = SClosed /\ r (fst (tstep s Attach)) <> None.
Proof.
  intros s H. cbn [tstep] in *. destruct (rstate_eqb (state s) SClosed) eqn:E; [|discriminate H].
  apply state_closed_iff in E. destruct E as [Hr Hp].
  unfold state. cbn [step]. rewrite Hr, Hp. split; [reflexivity|discriminate].
Qed.

(** by [attach_only_closed] any later attach needs [r s = None] again, that is a close or a crash in between *)
Theorem attach_once : forall s, snd (tstep s Attach) = ROk ->
  snd (tstep (fst (tstep s Attach)) Attach) = RErr.
Proof.
  intros s H. destruct (attach_only_closed s H) as [_ Hn].
  set (s1 := fst (tstep s Attach)) in *. cbn [tstep].
  destruct (rstate_eqb (state s1) SClosed) eqn:E; [|reflexivity].
  apply state_closed_iff in E. destruct E as [Hr _]. contradiction.
Qed.

(** ** the C17 oracle holds on every trace of the model *)
Lemma listN_eqb_refl : forall l, listN_eqb l l = true.
Proof. induction l; cbn; [reflexivity|rewrite N.eqb_refl; assumption]. Qed.

Lemma oimg_refl : forall o, oimg_eqb o o = true.
Proof. intros [l|]; cbn; [apply listN_eqb_refl|reflexivity]. Qed.

Lemma unchanged_refl : forall s x y, unchanged (observe s x) (observe s y) = true.
Proof.
  intros. unfold unchanged, observe; cbn.
  assert (forall t, rstate_eqb t t = true) as E1 by (destruct t; reflexivity).
  assert (forall m, omode_eqb m m = true) as E2 by (destruct m as [[]|]; reflexivity).
  rewrite E1, E2, Z.eqb_refl. cbn. apply oimg_refl.
Qed.

(** a call that is refused and leaves the state alone unless [b], in the form the oracle asks for it *)
Lemma gated_model : forall s x0 p (b : bool), (b = false -> p = (s, RErr)) ->
  (if b then true
   else negb (is_ok (ores (observe (fst p) (snd p)))) && unchanged (observe s x0) (observe (fst p) (snd p))) = true.
Proof. intros s x0 p [] H; [reflexivity|]. rewrite H by reflexivity. apply unchanged_refl. Qed.

Lemma same_img_eq : forall a b, oimg a = oimg b -> same_img a b = true.
Proof.
  intros a b H. unfold same_img. rewrite H.
  destruct (oimg b); [apply listN_eqb_refl|reflexivity].
Qed.

Lemma serving_obs : forall s x, serving (observe s x) = serving_st s.
Proof. intros. unfold serving, serving_st, mode_is, observe; cbn. destruct (r s) as [y|]; reflexivity. Qed.

Lemma is_open_obs : forall s x, is_open (observe s x) = match r s with Some _ => true | None => false end.
Proof. intros. unfold is_open, observe; cbn. destruct (r s); reflexivity. Qed.

Lemma c17_eng0_model : forall s x0 o,
  c17_eng0 (observe s x0) o (observe (fst (step s o)) (snd (step s o))) = true.
Proof.
  intros s x0 o. destruct o; cbn [c17_eng0]; try reflexivity.
  (* the calls that fail before they touch anything *)
  all: try (apply (gated_model s x0 _ false); reflexivity).
  - (* open of an open replica *)
    rewrite is_open_obs. destruct (r s) eqn:Hr; [|reflexivity].
    apply (gated_model s x0 _ false). cbn [step]. rewrite Hr. reflexivity.
  - (* write *)
    rewrite serving_obs, is_open_obs. destruct (serving_st s) eqn:E.
    + unfold serving_st in E. destruct (r s); [reflexivity|discriminate].
    + rewrite write_gate by exact E. cbn [fst snd ores observe is_ok res_eqb negb andb].
      rewrite same_img_eq by reflexivity. destruct (r s); [reflexivity|apply unchanged_refl].
  - (* write whose data write fails *)
    cbn [step]. unfold with_rep.
    destruct (r s) as [x|] eqn:Hr; [destruct (rmode x) eqn:Hm|];
      cbn [fst snd set_r ores ocount observe dcount is_ok res_eqb negb andb];
      rewrite Z.eqb_refl, andb_true_r; apply same_img_eq; try reflexivity.
    all: unfold observe; cbn [oimg set_r r applied rmode]; rewrite Hr, Hm; reflexivity.
  - (* read *)
    rewrite is_open_obs. apply gated_model. intro E.
    apply closed_no_io; [destruct (r s); [discriminate E|reflexivity]|exact I].
  - (* set counter *) rewrite mode_is_rw. apply gated_model. exact (mode_gate s (OSetRev v)).
  - (* remove *) rewrite mode_is_rw. apply gated_model. exact (mode_gate s ORemove).
  - (* prepare remove *) rewrite mode_is_rw. apply gated_model. exact (mode_gate s OPrepRemove).
  - (* failed close *)
    cbn [step]. destruct (r s) as [z|] eqn:Hr; cbn [fst snd set_r];
      unfold serving, mode_is, observe; cbn; rewrite ?Hr; reflexivity.
Qed.

Lemma keeps_rebuild_flag : forall s o x, keeps_rebuild o = true -> r s = Some x ->
  exists y, r (fst (step s o)) = Some y /\ irebuild y = irebuild x.
Proof.
  intros s o x Hk Hr.
  (* where the state stays as it is, [Hr] is the answer; the others split on a mode first *)
  destruct o; try discriminate Hk; cbn [step]; unfold with_rep; rewrite ?Hr; eauto.
  - (* OWrite *) destruct (rmode x); cbn; eauto.
  - (* OWriteFail *) destruct (rmode x); cbn; eauto.
  - (* OSetMode *) destruct m; cbn; eauto.
  - (* OSetRev *) destruct (rmode x); cbn; eauto.
Qed.

Lemma c17_status_model : forall s x0 o,
  c17_status (observe s x0) o (observe (fst (step s o)) (snd (step s o))) = true.
Proof.
  intros s x0 o. unfold c17_status.
  destruct (keeps_rebuild o) eqn:Hk; [|reflexivity].
  cbn [andb]. unfold observe at 1; cbn [ostate].
  destruct (rstate_eqb (state s) SRebuilding) eqn:Hst; [|reflexivity].
  cbn [andb].
  destruct (state_rebuilding s Hst) as [x [Hr Hreb]].
  destruct (keeps_rebuild_flag s o x Hk Hr) as [y [Hy Hyreb]].
  unfold is_open, observe, state; cbn [omode ostate]. rewrite Hy, Hyreb, Hreb. reflexivity.
Qed.

Lemma c17_eng_model : forall s x0 o,
  c17_eng (observe s x0) o (observe (fst (step s o)) (snd (step s o))) = true.
Proof.
  intros s x0 o. unfold c17_eng. rewrite c17_eng0_model, c17_status_model. reflexivity.
Qed.

Lemma c17_step_model : forall s x0 t,
  c17_step (observe s x0) t (observe (fst (tstep s t)) (snd (tstep s t))) = true.
Proof.
  intros s x0 t. destruct t as [o|a m v b|]; cbn [c17_step tstep].
  - apply c17_eng_model.
  - cbn [ostate observe]. destruct (allowed (state s) a) eqn:Ea.
    + destruct (engine_of a m v b); [apply c17_eng_model|reflexivity].
    + cbn. apply unchanged_refl.
  - destruct (rstate_eqb (state s) SClosed) eqn:E.
    + apply state_closed_iff in E. destruct E as [Hr Hp].
      cbn [step]. rewrite Hr, Hp. cbn.
      unfold state. rewrite Hr, Hp. cbn.
      destruct (drebuild s); [reflexivity|]. destruct (ddirty s); reflexivity.
    + cbn. apply unchanged_refl.
Qed.

Theorem c17_oracle_model : forall ts s x0,
  c17_oracle (observe s x0) ts (trace s ts) = true.
Proof.
  induction ts as [|t ts IH]; intros s x0; cbn [trace c17_oracle]; [reflexivity|].
  pose proof (c17_step_model s x0 t) as Hs.
  destruct (tstep s t) as [s1 x]. cbn [fst snd] in Hs. cbn [c17_oracle].
  rewrite Hs. apply IH.
Qed.

(** non-vacuity: a concrete run that exercises RW writes, WO writes, refusal, crash and reopen *)
Example ex_hist : list top :=
  [Eng OCreate; Eng OOpen; Eng (OWrite 1); Eng (OSetMode RW); Eng (OWrite 2); Eng (OWrite 3);
   Eng (OSetMode WO); Eng (OWrite 4); Eng (OWriteCrash 5); Eng OOpen; Eng (OSetMode RW); Eng (OWrite 6);
   Rest AClose RW 0 false; Attach; Attach].
Example ex_counts : dcount (fst (run init ex_hist)) = 4 /\ rw_acks init ex_hist = 3 /\ no_setrev (tl ex_hist) = true.
Proof. vm_compute. repeat split. Qed.
