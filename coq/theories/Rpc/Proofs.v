(** * Rpc: the oracles of Corr.v hold on the model: the trace oracle of the client loop on every run, the read oracle of
    the codec on the model's decoder (the write oracle is a few lines from [roundtrip], in Properties/C15.v); examples,
    and the trace that refutes matching without the guard.  The read oracle needs the converse of the round trip (what
    [decode_r] accepts re-encodes to what it consumed), which holds of [bytes], lists of numbers below 256. *)
From Coq Require Import List ZArith NArith Bool Arith Lia.
From Jiva Require Import Rpc.Model Rpc.CodecProofs Rpc.LoopProofs Rpc.Corr.
Import ListNotations.
Open Scope N_scope.

(** ** the tests and the trace functions of Corr.v *)
Lemma listN_eqb_refl : forall l, listN_eqb l l = true.
Proof. induction l as [|x l IH]; cbn [listN_eqb]; [reflexivity|]. now rewrite N.eqb_refl, IH. Qed.

Lemma listN_eqb_eq : forall a b, listN_eqb a b = true -> a = b.
Proof.
  induction a as [|x a IH]; intros [|y b] H; cbn [listN_eqb] in H; try discriminate; [reflexivity|].
  apply andb_true_iff in H. destruct H as [H1 H2]. apply N.eqb_eq in H1. apply IH in H2. congruence.
Qed.

Lemma rerr_eqb_refl : forall e, rerr_eqb e e = true.
Proof. intros [| |t|[]]; cbn [rerr_eqb]; auto using listN_eqb_refl. Qed.

Lemma result_eqb_refl : forall r, result_eqb r r = true.
Proof. intros [n e b]. unfold result_eqb. cbn [r_n r_err r_buf]. now rewrite Z.eqb_refl, rerr_eqb_refl, listN_eqb_refl. Qed.

Lemma msg_eqb_refl : forall m, msg_eqb m m = true.
Proof. intros [a b c d e f]. unfold msg_eqb. cbn. now rewrite !N.eqb_refl, !Z.eqb_refl, listN_eqb_refl. Qed.

Lemma msgs_eqb_refl : forall l, msgs_eqb l l = true.
Proof. induction l as [|x l IH]; cbn [msgs_eqb]; [reflexivity | now rewrite msg_eqb_refl, IH]. Qed.

Lemma frames_eqb_refl : forall l, frames_eqb l l = true.
Proof. induction l as [|x l IH]; cbn [frames_eqb]; [reflexivity|]. now rewrite listN_eqb_refl, IH. Qed.

Lemma memb_in : forall x l, memb x l = true <-> In x l.
Proof.
  intros x l. unfold memb. rewrite existsb_exists. split.
  - intros [y [Hy He]]. apply N.eqb_eq in He. now subst.
  - intro H. exists x. split; [exact H | apply N.eqb_refl].
Qed.

Lemma nodupb_NoDup : forall l, nodupb l = true <-> NoDup l.
Proof.
  induction l as [|x l IH]; cbn [nodupb]; [split; [constructor | reflexivity]|].
  rewrite andb_true_iff, negb_true_iff, IH. split.
  - intros [H1 H2]. constructor; [|exact H2]. intro Hin. apply memb_in in Hin. congruence.
  - intro H. inversion H as [|? ? Hx Hl]; subst. split; [|exact Hl].
    destruct (memb x l) eqn:E; [|reflexivity]. apply memb_in in E. contradiction.
Qed.

Lemma lookupc_unique : forall l id r, NoDup (map fst l) -> In (id, r) l -> lookupc id l = Some r.
Proof. intros l id r. apply (assoc_unique _ _ fst snd lookupc). intros k0 [k' v'] l0. reflexivity. Qed.

Lemma find_req_skip : forall id e es, ~ In id (new_ids e) -> find_req id (e :: es) = find_req id es.
Proof.
  intros id e es H. unfold new_ids in H. cbn [find_req]. destruct (is_req e) as [r|]; [|reflexivity].
  destruct (rid r =? id) eqn:E; [|reflexivity]. apply N.eqb_eq in E. exfalso. apply H. now left.
Qed.

Lemma find_req_none : forall id pre, ~ In id (req_ids pre) -> find_req id pre = None.
Proof.
  induction pre as [|e pre IH]; intro H; [reflexivity|].
  rewrite new_ids_req_ids, in_app_iff in H. rewrite find_req_skip by tauto. apply IH. tauto.
Qed.

Definition is_terr (e : event) : bool := match e with TransportErr _ => true | _ => false end.
Definition no_terr (es : list event) : Prop := Forall (fun e => is_terr e = false) es.

Lemma split_fail_spec : forall es pre c post, split_fail es = Some (pre, c, post) ->
  es = pre ++ TransportErr c :: post /\ no_terr pre.
Proof.
  induction es as [|e es IH]; intros pre c post H; [discriminate|].
  destruct e as [r|r|a b c0 d|c0|i]; cbn [split_fail] in H;
    try (destruct (split_fail es) as [[[p c'] q]|] eqn:E; [|discriminate]; inversion H; subst;
         destruct (IH _ _ _ eq_refl) as [-> Hn]; split; [reflexivity | constructor; [reflexivity | exact Hn]]).
  inversion H; subst. split; [reflexivity | constructor].
Qed.

(** ** the invariant that ties the state to the trace [es], of which [post] is still to come.
    [justified] judges a result against the whole trace, and the oracle's functions recurse from its head.  So a call in
    flight is described by what they say on [es] itself, which stays true for the rest of the run, and a call still to be
    issued by the fact that they say on [es] what they say on [post] started from the state's counter: one unfolding per
    event keeps that (the ids of [post] are distinct, so the event that goes is not the call in question), and nothing
    has to be carried from a prefix to its extensions.
    The conjuncts in order: a pending entry (sq, rq) is the call [es] shows under rq's id, and [es] numbers it sq; a blocked
    caller is the call [es] shows under its id; an id still to be issued is found in [es] as in [post]; by the state of
    the connection, either it has not failed, and then such an id is numbered in [es] as in [post] counted from the
    state's counter and the events of [post] before the failure are events of [es] before the failure ([assigned_from]
    and [live] stop at the failure, hence the case), or it has failed, and then [es] shows a failure; [post] is part of
    [es]. *)

Definition jinv (M : N) (es post : list event) (s : st) : Prop :=
  (forall sq rq, In (sq, rq) (pending s) ->
     find_req (rid rq) es = Some rq /\ assigned_from M 0 es (rid rq) = Some sq) /\
  (forall rq, In rq (waiting s) -> find_req (rid rq) es = Some rq) /\
  (forall id, In id (req_ids post) -> find_req id es = find_req id post) /\
  match failed s with
  | None => (forall id, In id (req_ids post) -> assigned_from M 0 es id = assigned_from M (seq s) post id) /\
            (forall x, In x (live post) -> In x (live es))
  | Some _ => existsb is_fail es = true
  end /\
  incl post es.

Lemma justified_local : forall M es id rq c, find_req id es = Some rq -> existsb is_fail es = true ->
  justified M es id (local_result rq c) = true.
Proof.
  intros M es id rq c F E. unfold justified. rewrite F, local_result_err, E. cbn [andb]. apply result_eqb_refl.
Qed.

Lemma justified_resp : forall M es id rq sq ty sz d, find_req id es = Some rq -> assigned_from M 0 es id = Some sq ->
  In (Resp sq ty sz d) (live es) -> justified M es id (op_result rq ty sz d) = true.
Proof.
  intros M es id rq sq ty sz d F A L. unfold justified. rewrite F, A.
  assert (E : existsb (fun e => match e with
                | Resp sq' ty0 sz0 d0 => (sq' =? sq) && result_eqb (op_result rq ty sz d) (op_result rq ty0 sz0 d0)
                | _ => false end) (live es) = true).
  { apply existsb_exists. exists (Resp sq ty sz d). split; [exact L|]. now rewrite N.eqb_refl, result_eqb_refl. }
  rewrite op_result_err. destruct (ty =? TypeError); [exact E|]. destruct (ty =? TypeEOF); exact E.
Qed.

Lemma jinv_step : forall M es e post s s1 o, jinv M es (e :: post) s ->
  (forall id, In id (req_ids post) -> ~ In id (new_ids e)) ->
  step M s e = (s1, o) ->
  (forall id r, In (Done id r) o -> justified M es id r = true) /\ jinv M es post s1.
Proof.
  intros M es e post s s1 o (J1 & J2 & J3 & J4 & J5) Hnew Hs.
  pose proof (step_failed _ _ _ _ _ Hs) as Hf. pose proof (step_shape _ _ _ _ _ Hs) as Hsh.
  pose proof (step_waiting _ _ _ _ _ Hs) as Hwt. apply step_spec in Hs.
  (* the request of this very event is the first the rest of the trace shows for its call *)
  assert (Knew : forall rq, is_req e = Some rq -> find_req (rid rq) es = Some rq).
  { intros rq R. rewrite J3; cbn [find_req req_ids flat_map]; rewrite R; [now rewrite N.eqb_refl | now left]. }
  assert (Kfail : is_fail e = true -> existsb is_fail es = true).
  { intro H. apply existsb_exists. exists e. split; [apply J5; now left | exact H]. }
  split.
  - intros id r Hin. destruct Hs.
    + (* refused *) destruct Hin as [Hin|[]]. inversion Hin; subst. apply justified_local; [now apply Knew | now rewrite F in J4].
    + (* raced *) destruct Hin.
    + (* accepted *) destruct Hin as [Hin|[]]. discriminate.
    + (* resp, failed *) destruct Hin.
    + (* resp unknown *) destruct Hin as [Hin|[]]. discriminate.
    + (* resp found *) destruct Hin as [Hin|[]]. apply answer_done in Hin. destruct Hin as [-> ->].
      destruct (J1 sq rq (lookup_in _ _ _ L)) as [B C]. rewrite F in J4. apply (justified_resp M es _ rq sq); auto. apply J4. now left.
    + (* terr, failed *) destruct Hin.
    + (* terr *) destruct Hin as [Hin|Hin]; [discriminate|].
      destruct (replies_dones _ _ _ _ _ Hr id r Hin) as (sq & rq & Hp & -> & ->).
      apply justified_local; [now apply (J1 sq rq) | now apply Kfail].
    + (* timeout *) destruct Hin as [Hin|[]]. inversion Hin; subst. destruct (find_wait_some _ _ _ E) as [Hw <-].
      apply justified_local; [now apply J2 | now apply Kfail].
    + (* timeout, nobody waits *) destruct Hin.
  - split; [|split; [|split; [|split]]].
    + intros sq rq Hin. destruct (is_req e) as [rq'|] eqn:R; [destruct (failed s) eqn:F|]; try (apply J1, Hsh, Hin).
      destruct Hsh as [-> _]. destruct Hin as [Hin|Hin].
      * inversion Hin; subst sq rq'. split; [now apply Knew|]. rewrite (proj1 J4) by (cbn [req_ids flat_map]; rewrite R; now left).
        destruct e; try discriminate R; inversion R; subst; cbn [assigned_from is_req]; now rewrite N.eqb_refl.
      * apply in_remove_key in Hin. apply J1. tauto.
    + intros rq Hin. destruct (Hwt rq Hin) as [Hw|R]; [now apply J2 | now apply Knew].
    + intros id Hid. rewrite J3 by (apply in_or_app; now right). exact (find_req_skip id e post (Hnew id Hid)).
    + (* [step_failed]: failed before, failing now, or still up and [assigned_from], [live] unfold by one event *)
      rewrite Hf. destruct (failed s) eqn:F; [exact J4|]. destruct J4 as [A B].
      destruct e as [r|r|a b c d|c|i]; [| | |now apply Kfail|]; (split; [|intros x Hx; apply B; now right]).
      all: intros id Hid; rewrite A by (apply in_or_app; now right); specialize (Hnew id Hid).
      all: cbn [assigned_from is_req new_ids] in *; destruct Hsh as [-> _]; try reflexivity.
      all: destruct (rid r =? id) eqn:E; [apply N.eqb_eq in E; destruct Hnew; now left | reflexivity].
    + intros x Hx. apply J5. now right.
Qed.

Lemma jinv_init : forall M es, jinv M es es init.
Proof.
  intros M es. unfold jinv. cbn. repeat split; try (intros; contradiction); try discriminate; auto. apply incl_refl.
Qed.

Lemma justified_gen : forall M es post s, jinv M es post s -> NoDup (req_ids post) ->
  forall id r, In (Done id r) (outs (exec M s post)) -> justified M es id r = true.
Proof.
  induction post as [|e post IH]; intros s J Hnd id r Hin; [destruct Hin|].
  cbn [exec] in Hin. destruct (step M s e) as [s1 o] eqn:E. rewrite outs_cons in Hin.
  rewrite new_ids_req_ids in Hnd. apply NoDup_app_iff in Hnd. destruct Hnd as (_ & Hnd & Hd).
  destruct (jinv_step _ _ _ _ _ _ _ J (fun x H1 H2 => Hd x H2 H1) E) as [S1 S2].
  apply in_app_iff in Hin. destruct Hin as [Hin|Hin]; [now apply S1 | now apply (IH s1)].
Qed.

(** ** the C15 oracle holds on every trace of the model: [justified] by [justified_gen]; for [fail_rule], what a run does
    before, at and after its first transport error *)
Lemma nofail_run : forall M pre s, failed s = None -> no_terr pre -> failed (run M s pre) = None.
Proof.
  intros M pre s F H. revert s F. induction H as [|e pre He _ IH]; intros s F; [exact F|].
  cbn [run]. destruct (step M s e) as [s1 o] eqn:E. apply IH. cbn [fst]. rewrite (step_failed _ _ _ _ _ E), F.
  destruct e; try discriminate He; reflexivity.
Qed.

Lemma closed_run : forall M es s, count_closed (outs (exec M s es)) =
  match failed s, split_fail es with None, Some _ => 1 | _, _ => 0 end.
Proof.
  induction es as [|e es IH]; intro s; [destruct (failed s); reflexivity|].
  cbn [exec]. destruct (step M s e) as [s1 o] eqn:E.
  rewrite outs_cons, count_closed_app, (step_closed _ _ _ _ _ E), IH, (step_failed _ _ _ _ _ E).
  destruct (failed s); destruct e; cbn [split_fail]; try destruct (split_fail es) as [[[p c'] q]|]; reflexivity.
Qed.

Lemma post_reqs_fail : forall M post s c, failed s = Some c -> forall rq, In (Req rq) post ->
  In (Done (rid rq) (local_result rq c)) (outs (exec M s post)).
Proof.
  intros M post s c F rq Hin. apply in_split in Hin. destruct Hin as (a & b & ->).
  rewrite exec_app, outs_app, in_app_iff. right. cbn [exec]. rewrite (later_requests_fail M a s c rq F). now left.
Qed.

Theorem c15_oracle_model : forall M es, trace_wf M es = true ->
  c15_oracle M es (dones (outs (exec M init es))) (count_closed (outs (exec M init es))) = true.
Proof.
  intros M es Hwf. unfold trace_wf in Hwf. apply andb_true_iff in Hwf. destruct Hwf as [Hnd Hc].
  apply nodupb_NoDup in Hnd. apply N.ltb_lt in Hc. pose proof (guard_of_count M es Hc) as Hg.
  pose proof (proj2 (at_most_once M es Hnd)) as Hamo. unfold done_ids in Hamo.
  unfold c15_oracle. rewrite !andb_true_iff. split; [split|].
  - now apply nodupb_NoDup.
  - apply forallb_forall. intros [id r] Hin. apply in_dones in Hin.
    apply (justified_gen M es es init (jinv_init M es) Hnd id r Hin).
  - unfold fail_rule. rewrite closed_run. cbn [failed init].
    destruct (split_fail es) as [[[pre c] post]|] eqn:S; [|reflexivity].
    destruct (split_fail_spec _ _ _ _ S) as [-> Hpre]. clear S.
    assert (F0 : failed (run M init pre) = None) by (apply nofail_run; [reflexivity | exact Hpre]).
    (* the run up to and including the failure, and the run after it *)
    set (s1 := run M init (pre ++ [TransportErr c])).
    assert (F1 : failed s1 = Some c).
    { unfold s1. rewrite run_app. cbn [run]. destruct (step M (run M init pre) (TransportErr c)) as [s2 o2] eqn:E.
      cbn [fst]. now rewrite (step_failed _ _ _ _ _ E), F0. }
    assert (Hex : exec M init (pre ++ TransportErr c :: post) = exec M init (pre ++ [TransportErr c]) ++ exec M s1 post).
    { change (pre ++ TransportErr c :: post) with (pre ++ [TransportErr c] ++ post). rewrite app_assoc. apply exec_app. }
    rewrite Hex, outs_app, dones_app in *. rewrite !andb_true_iff. split; [split; [reflexivity|]|].
    + apply forallb_forall. intros id Hin. apply memb_in. rewrite map_app, in_app_iff. left.
      rewrite req_ids_app in Hnd. apply NoDup_app_iff in Hnd. change (pre ++ TransportErr c :: post) with (pre ++ [TransportErr c] ++ post) in Hg.
      rewrite app_assoc, !guard_app, !andb_true_iff in Hg.
      apply (fail_all_complete M pre c); tauto.
    + apply forallb_forall. intros e Hin. destruct e as [rq| | | |]; try reflexivity.
      rewrite (lookupc_unique _ _ (local_result rq c) Hamo); [apply result_eqb_refl|].
      apply in_app_iff. right. apply in_dones. exact (post_reqs_fail M post s1 c F1 rq Hin).
Qed.

(** ** the read oracle of the codec holds for the model's decoder *)

Definition bytes (l : list N) : Prop := Forall (fun b => b < 256) l.

Lemma le_decode_bound : forall h, bytes h -> le_decode h < 256 ^ N.of_nat (length h).
Proof.
  induction h as [|b h IH]; intro H; [cbn; lia|].
  inversion H as [|? ? Hb Hh]; subst. specialize (IH Hh). cbn [le_decode length].
  rewrite pow256_succ. nia.
Qed.

Lemma le_encode_decode : forall h, bytes h -> le_encode (length h) (le_decode h) = h.
Proof.
  induction h as [|b h IH]; intro H; [reflexivity|].
  inversion H as [|? ? Hb Hh]; subst. cbn [le_decode length le_encode].
  rewrite (N.mul_comm 256), N.mod_add, N.div_add, N.mod_small, N.div_small by lia.
  cbn [N.add]. rewrite IH by exact Hh. reflexivity.
Qed.

Lemma decode_r_inv : forall bs m rest, bytes bs -> decode_r bs = DOk m rest ->
  wf m /\ bs = encode m ++ rest /\ bytes rest.
Proof.
  intros bs m rest Hb H. apply decode_r_ok_inv in H.
  destruct H as (h1 & h2 & h3 & h4 & h5 & h6 & d & -> & -> & Hmg & Hd & L1 & L2 & L3 & L4 & L5 & L6).
  unfold bytes in Hb. rewrite !Forall_app in Hb. destruct Hb as (B1 & B2 & B3 & B4 & B5 & B6 & _ & Br).
  assert (Q : forall w h, bytes h -> N.of_nat (length h) = N.of_nat w ->
            le_decode h < 256 ^ N.of_nat w /\ le_encode w (le_decode h) = h).
  { intros w h B L. apply Nat2N.inj in L. subst w. split; [now apply le_decode_bound | now apply le_encode_decode]. }
  destruct (Q 2%nat h1 B1 L1) as [_ R1], (Q 4%nat h2 B2 L2) as [Q2 R2], (Q 4%nat h3 B3 L3) as [Q3 R3],
    (Q 8%nat h4 B4 L4) as [Q4 R4], (Q 8%nat h5 B5 L5) as [Q5 R5], (Q 4%nat h6 B6 L6) as [Q6 R6].
  split; [|split].
  - unfold wf. cbn [mmagic mseq mtype moff msize mdata].
    repeat split; try assumption; try (now apply z_of_u64_range). rewrite Hd. exact Q6.
  - unfold encode. cbn [mmagic mseq mtype moff msize mdata].
    rewrite !u64_z_roundtrip, Hd, R1, R2, R3, R4, R5, R6, <- !app_assoc by assumption. reflexivity.
  - exact Br.
Qed.

Lemma is_prefix_app : forall a b, is_prefix a (a ++ b) = true.
Proof. induction a as [|x a IH]; intro b; cbn [is_prefix app]; [reflexivity|]. now rewrite N.eqb_refl, IH. Qed.

Lemma decode_many_inv : forall fuel bs ms e, bytes bs -> decode_many fuel bs = (ms, e) ->
  Forall wf ms /\ exists tail, bs = flat_map encode ms ++ tail /\ (e = EndClean -> tail = []).
Proof.
  (* where the loop stops, what is left is the tail *)
  assert (Hstop : forall bs e, (e = EndClean -> bs = []) ->
            Forall wf [] /\ exists tail, bs = flat_map encode [] ++ tail /\ (e = EndClean -> tail = [])).
  { intros bs e He. split; [constructor|]. exists bs. auto. }
  induction fuel as [|f IH]; intros bs ms e Hb H;
    (destruct bs as [|b t]; cbn [decode_many] in H; [inversion H; now apply Hstop|]).
  - inversion H. now apply Hstop.
  - destruct (decode_r (b :: t)) as [m rest|g|] eqn:D; try (inversion H; now apply Hstop).
    destruct (decode_many f rest) as [ms' e'] eqn:R. inversion H; subst.
    destruct (decode_r_inv _ _ _ Hb D) as (W & Heq & Hr).
    destruct (IH _ _ _ Hr R) as (W' & tail & Ht & Hc).
    split; [constructor; assumption|]. exists tail. cbn [flat_map]. rewrite <- app_assoc, <- Ht. split; [exact Heq | exact Hc].
Qed.

Theorem read_oracle_model : forall input, bytes input ->
  rcase_same (mkr input (fst (decode_stream input)) (snd (decode_stream input))) = true /\
  c15_read_oracle (mkr input (fst (decode_stream input)) (snd (decode_stream input))) = true.
Proof.
  intros input Hb. destruct (decode_stream input) as [ms e] eqn:D. cbn [fst snd]. split.
  - unfold rcase_same. cbn [r_input r_msgs r_end]. rewrite D.
    rewrite msgs_eqb_refl. destruct e; cbn [dend_eqb andb]; auto using N.eqb_refl.
  - unfold decode_stream in D. destruct (decode_many_inv _ _ _ _ Hb D) as (W & tail & Ht & Hc).
    unfold c15_read_oracle. cbn [r_input r_msgs r_end]. rewrite !andb_true_iff. split; [split|].
    + apply forallb_forall. intros m Hin. apply wfb_wf. rewrite Forall_forall in W. now apply W.
    + rewrite Ht. apply is_prefix_app.
    + destruct e; try reflexivity. rewrite (Hc eq_refl), app_nil_r in Ht. rewrite Ht. apply Nat.eqb_refl.
Qed.

(** ** non-vacuity and the need for the guard *)

Definition rqA : req := mkreq 1 KRead 4096 4 [].
Definition rqB : req := mkreq 2 KWrite 8192 0 [7; 8; 9].
Definition rqC : req := mkreq 3 KSync 0 0 [].
Definition rqD : req := mkreq 4 KPing 0 0 [].
Definition rqE : req := mkreq 5 KRead 0 2 [].

(** three concurrent calls answered in the reverse order, a duplicate and an unknown number in
    between: every call gets the payload of its own response *)
Example ex_reorder :
  dones (outs (exec seq_mod init
    [Req rqA; Req rqB; Req rqC;
     Resp 3 TypeResponse 0 []; Resp 3 TypeResponse 0 []; Resp 77 TypeResponse 5 [1];
     Resp 2 TypeResponse 3 []; Resp 1 TypeResponse 4 [10; 11; 12; 13]]))
  = [(3, mkres 0 ENone []); (2, mkres 3 ENone []); (1, mkres 4 ENone [10; 11; 12; 13])].
Proof. vm_compute. reflexivity. Qed.

(** one call is answered with a TypeError, then the connection fails with the other waiting; a later call is refused at once *)
Example ex_fail_all :
  outs (exec seq_mod init [Req rqA; Req rqC; Resp 1 TypeError 0 [69]; TransportErr CTransport; Req rqD; Resp 2 TypeResponse 0 []])
  = [Sent (req_msg 1 rqA); Sent (req_msg 2 rqC); Done 1 (mkres 0 (ERemote [69]) [0; 0; 0; 0]);
     Closed; Done 3 (mkres (-1) (ELocal CTransport) []); Done 4 (mkres 0 (ELocal CTransport) [])].
Proof. vm_compute. reflexivity. Qed.

Example ex_oracle_nonvacuous :
  let es := [Req rqA; Req rqB; Resp 2 TypeResponse 3 []; Timeout 1; TransportErr CRWTimeout; Req rqC] in
  trace_wf seq_mod es = true /\
  c15_oracle seq_mod es [(2, mkres 3 ENone []); (1, mkres 0 (ELocal CRWTimeout) [0;0;0;0]); (3, mkres (-1) (ELocal CRWTimeout) [])] 1 = true /\
  (* a mis-delivered payload is rejected *)
  c15_oracle seq_mod es [(2, mkres 4 ENone []); (1, mkres 0 (ELocal CRWTimeout) [0;0;0;0]); (3, mkres (-1) (ELocal CRWTimeout) [])] 1 = false /\
  (* a call that never returned after the failure is rejected *)
  c15_oracle seq_mod es [(2, mkres 3 ENone []); (3, mkres (-1) (ELocal CRWTimeout) [])] 1 = false /\
  (* a failure that was not reported is rejected *)
  c15_oracle seq_mod es [(2, mkres 3 ENone []); (1, mkres 0 (ELocal CRWTimeout) [0;0;0;0]); (3, mkres (-1) (ELocal CRWTimeout) [])] 0 = false.
Proof. vm_compute. repeat split; reflexivity. Qed.

(** The trace of C15_matching_without_guard_refuted: on a 2-bit counter (M = 4) call 1 stays outstanding while four more
    calls are issued; the fifth gets the number of the first and takes its place in c.messages. *)
Definition wrap_trace : list event :=
  [Req rqA; Req rqB; Resp 2 TypeResponse 3 []; Req rqC; Resp 3 TypeResponse 0 [];
   Req rqD; Resp 0 TypeResponse 0 []; Req rqE].

