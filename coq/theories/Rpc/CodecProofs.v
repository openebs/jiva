(** * Rpc: proofs about the wire codec (rpc/wire.go): round trip, streams, bad magic. *)
From Coq Require Import List ZArith NArith Bool Arith Lia.
From Jiva Require Import Rpc.Model.
Import ListNotations.
Open Scope N_scope.

Lemma le_encode_length : forall w n, length (le_encode w n) = w.
Proof. induction w as [|w IH]; intro n; cbn [le_encode length]; [reflexivity | now rewrite IH]. Qed.

Lemma pow256_succ : forall w, 256 ^ N.of_nat (S w) = 256 * 256 ^ N.of_nat w.
Proof. intro w. rewrite Nat2N.inj_succ, N.pow_succ_r'. reflexivity. Qed.

Lemma le_trunc : forall w n, le_decode (le_encode w n) = n mod 256 ^ N.of_nat w.
Proof.
  induction w as [|w IH]; intro n.
  - cbn. now rewrite N.mod_1_r.
  - cbn [le_encode le_decode]. rewrite IH, pow256_succ.
    assert (H256 : 256 ^ N.of_nat w <> 0) by (apply N.pow_nonzero; lia).
    rewrite (N.mod_mul_r n 256 (256 ^ N.of_nat w)) by lia. reflexivity.
Qed.

Lemma le_roundtrip : forall w n, n < 256 ^ N.of_nat w -> le_decode (le_encode w n) = n.
Proof. intros w n Hn. rewrite le_trunc. now apply N.mod_small. Qed.

Lemma split_at_app_n : forall n d rest, N.of_nat (length d) = n -> split_at n (d ++ rest) = Some (d, rest).
Proof.
  intros n d rest <-. induction d as [|b d IH].
  - destruct rest; reflexivity.
  - cbn [length app split_at].
    replace (N.of_nat (S (length d)) =? 0) with false by (symmetry; apply N.eqb_neq; lia).
    replace (N.of_nat (S (length d)) - 1) with (N.of_nat (length d)) by lia.
    rewrite IH. reflexivity.
Qed.

Lemma split_at_length : forall bs n h r, split_at n bs = Some (h, r) -> bs = h ++ r /\ N.of_nat (length h) = n.
Proof.
  induction bs as [|b bs IH]; intros n h r H; cbn [split_at] in H.
  - destruct (n =? 0) eqn:E; [|discriminate]. apply N.eqb_eq in E. inversion H; subst. split; reflexivity.
  - destruct (n =? 0) eqn:E.
    + apply N.eqb_eq in E. inversion H; subst. split; reflexivity.
    + apply N.eqb_neq in E. destruct (split_at (n - 1) bs) as [[h' r']|] eqn:E2; [|discriminate].
      inversion H; subst. destruct (IH _ _ _ E2) as [-> Hl]. split; [reflexivity|]. cbn [length]. lia.
Qed.

Lemma u64_range : forall z, u64_of_z z < 2 ^ 64.
Proof.
  intro z. unfold u64_of_z, two64.
  pose proof (Z.mod_pos_bound z (2 ^ 64)%Z ltac:(lia)) as H.
  change (2 ^ 64) with (Z.to_N (2 ^ 64)%Z). apply Z2N.inj_lt; lia.
Qed.

Lemma z_u64_roundtrip : forall z, (- two63 <= z < two63)%Z -> z_of_u64 (u64_of_z z) = z.
Proof.
  intros z Hz. unfold z_of_u64, u64_of_z, two63, two64 in *.
  pose proof (Z.mod_pos_bound z (2 ^ 64)%Z ltac:(lia)) as Hb.
  rewrite Z2N.id by lia.
  destruct (Z_lt_le_dec z 0) as [Hneg|Hpos].
  - assert (Hm : (z mod 2 ^ 64 = z + 2 ^ 64)%Z).
    { symmetry. apply (Z.mod_unique_pos z (2 ^ 64) (-1)); lia. }
    rewrite Hm. destruct (Z.ltb_spec (z + 2 ^ 64) (2 ^ 63))%Z; lia.
  - rewrite Z.mod_small by lia. destruct (Z.ltb_spec z (2 ^ 63))%Z; lia.
Qed.

Lemma u64_z_roundtrip : forall u, u < 2 ^ 64 -> u64_of_z (z_of_u64 u) = u.
Proof.
  intros u Hu. unfold u64_of_z, z_of_u64, two63, two64.
  assert (Hz : (0 <= Z.of_N u < 2 ^ 64)%Z) by (change (2 ^ 64)%Z with (Z.of_N (2 ^ 64)); lia).
  destruct (Z.ltb_spec (Z.of_N u) (2 ^ 63))%Z.
  - rewrite Z.mod_small by lia. apply N2Z.id.
  - replace ((Z.of_N u - 2 ^ 64) mod 2 ^ 64)%Z with (Z.of_N u); [apply N2Z.id|].
    apply (Z.mod_unique_pos (Z.of_N u - 2 ^ 64) (2 ^ 64) (-1)); lia.
Qed.

Lemma z_of_u64_range : forall u, u < 2 ^ 64 -> (- two63 <= z_of_u64 u < two63)%Z.
Proof.
  intros u Hu. unfold z_of_u64, two63, two64.
  assert (Z.of_N u < 2 ^ 64)%Z by (change (2 ^ 64)%Z with (Z.of_N (2 ^ 64)); lia).
  destruct (Z.ltb_spec (Z.of_N u) (2 ^ 63))%Z; lia.
Qed.

(** ** one frame: what the reader accepts, the round trip *)
Lemma encode_length : forall m, length (encode m) = (30 + length (mdata m))%nat.
Proof. intro m. unfold encode. rewrite !app_length, !le_encode_length. lia. Qed.

Lemma wfb_wf : forall m, wfb m = true <-> wf m.
Proof.
  intro m. unfold wfb, wf. rewrite !andb_true_iff, N.eqb_eq, !N.ltb_lt, !Z.leb_le, !Z.ltb_lt. tauto.
Qed.

(** The layout of a frame, out of [decode_r] and back into it; everything below about an accepted frame goes through
    these two and never unfolds [decode_r] again. *)
Lemma decode_r_ok_inv : forall bs m rest, decode_r bs = DOk m rest ->
  exists h1 h2 h3 h4 h5 h6 d,
    bs = h1 ++ h2 ++ h3 ++ h4 ++ h5 ++ h6 ++ d ++ rest /\
    m = mkmsg (le_decode h1) (le_decode h2) (le_decode h3) (z_of_u64 (le_decode h4)) (z_of_u64 (le_decode h5)) d /\
    le_decode h1 = magic_version /\ N.of_nat (length d) = le_decode h6 /\
    N.of_nat (length h1) = 2 /\ N.of_nat (length h2) = 4 /\ N.of_nat (length h3) = 4 /\
    N.of_nat (length h4) = 8 /\ N.of_nat (length h5) = 8 /\ N.of_nat (length h6) = 4.
Proof.
  intros bs m rest H. unfold decode_r, get in H.
  destruct (split_at 2 bs) as [[h1 b1]|] eqn:E1; [|discriminate].
  destruct (negb (le_decode h1 =? magic_version)) eqn:Emg; [discriminate|].
  destruct (split_at 4 b1) as [[h2 b2]|] eqn:E2; [|discriminate].
  destruct (split_at 4 b2) as [[h3 b3]|] eqn:E3; [|discriminate].
  destruct (split_at 8 b3) as [[h4 b4]|] eqn:E4; [|discriminate].
  destruct (split_at 8 b4) as [[h5 b5]|] eqn:E5; [|discriminate].
  destruct (split_at 4 b5) as [[h6 b6]|] eqn:E6; [|discriminate].
  destruct (split_at (le_decode h6) b6) as [[d r]|] eqn:E7; [|discriminate].
  inversion H; subst m rest; clear H. apply negb_false_iff, N.eqb_eq in Emg.
  apply split_at_length in E1, E2, E3, E4, E5, E6, E7.
  destruct E1 as [-> L1], E2 as [-> L2], E3 as [-> L3], E4 as [-> L4], E5 as [-> L5], E6 as [-> L6], E7 as [-> L7].
  exists h1, h2, h3, h4, h5, h6, d. repeat split; assumption.
Qed.

Lemma decode_r_layout : forall h1 h2 h3 h4 h5 h6 d rest,
  le_decode h1 = magic_version -> N.of_nat (length d) = le_decode h6 ->
  N.of_nat (length h1) = 2 -> N.of_nat (length h2) = 4 -> N.of_nat (length h3) = 4 ->
  N.of_nat (length h4) = 8 -> N.of_nat (length h5) = 8 -> N.of_nat (length h6) = 4 ->
  decode_r (h1 ++ h2 ++ h3 ++ h4 ++ h5 ++ h6 ++ d ++ rest) =
  DOk (mkmsg (le_decode h1) (le_decode h2) (le_decode h3) (z_of_u64 (le_decode h4)) (z_of_u64 (le_decode h5)) d) rest.
Proof.
  intros h1 h2 h3 h4 h5 h6 d rest Hmg Hd L1 L2 L3 L4 L5 L6. unfold decode_r, get.
  rewrite (split_at_app_n 2) by exact L1. rewrite Hmg. cbn [negb N.eqb magic_version Pos.eqb].
  rewrite (split_at_app_n 4) by exact L2. rewrite (split_at_app_n 4) by exact L3.
  rewrite (split_at_app_n 8) by exact L4. rewrite (split_at_app_n 8) by exact L5.
  rewrite (split_at_app_n 4) by exact L6. rewrite split_at_app_n by exact Hd. reflexivity.
Qed.

Lemma field_enc : forall w n, n < 256 ^ N.of_nat w ->
  le_decode (le_encode w n) = n /\ N.of_nat (length (le_encode w n)) = N.of_nat w.
Proof. intros w n H. split; [now apply le_roundtrip | now rewrite le_encode_length]. Qed.

Lemma roundtrip_r : forall m rest, wf m -> decode_r (encode m ++ rest) = DOk m rest.
Proof.
  intros [mg sq ty off sz d] rest (Hmg & Hsq & Hty & Hoff & Hsz & Hd). cbn [mmagic mseq mtype moff msize mdata] in *.
  unfold encode. cbn [mmagic mseq mtype moff msize mdata]. rewrite <- !app_assoc.
  destruct (field_enc 2 mg) as [R1 L1]; [subst mg; reflexivity|].
  destruct (field_enc 4 sq Hsq) as [R2 L2], (field_enc 4 ty Hty) as [R3 L3],
    (field_enc 8 _ (u64_range off)) as [R4 L4], (field_enc 8 _ (u64_range sz)) as [R5 L5],
    (field_enc 4 _ Hd) as [R6 L6].
  rewrite decode_r_layout by (assumption || congruence).
  rewrite R1, R2, R3, R4, R5, !z_u64_roundtrip by assumption. reflexivity.
Qed.

Theorem roundtrip : forall m rest, wf m -> decode (encode m ++ rest) = Some (m, rest).
Proof. intros m rest H. unfold decode. now rewrite roundtrip_r. Qed.

Lemma decode_r_mono : forall bs m rest ext, decode_r bs = DOk m rest -> decode_r (bs ++ ext) = DOk m (rest ++ ext).
Proof.
  intros bs m rest ext H. apply decode_r_ok_inv in H.
  destruct H as (h1 & h2 & h3 & h4 & h5 & h6 & d & -> & -> & Hmg & Hd & L1 & L2 & L3 & L4 & L5 & L6).
  rewrite <- !app_assoc. now apply decode_r_layout.
Qed.

(** ** streams of frames *)
Lemma decode_r_shorter : forall bs m rest, decode_r bs = DOk m rest -> (length rest < length bs)%nat.
Proof.
  intros bs m rest H. apply decode_r_ok_inv in H.
  destruct H as (h1 & h2 & h3 & h4 & h5 & h6 & d & -> & _ & _ & _ & L1 & _). rewrite !app_length. lia.
Qed.

Lemma decode_many_frame : forall m f rest, wf m ->
  decode_many (S f) (encode m ++ rest) = (let '(ms, e) := decode_many f rest in (m :: ms, e)).
Proof.
  intros m f rest Hm. pose proof (roundtrip_r m rest Hm) as R. destruct (encode m ++ rest) as [|b t] eqn:E.
  - apply (f_equal (@length N)) in E. rewrite app_length, encode_length in E. discriminate E.
  - cbn [decode_many]. rewrite R. reflexivity.
Qed.

Lemma decode_many_app : forall ms fuel tail, Forall wf ms ->
  decode_many (length ms + fuel) (flat_map encode ms ++ tail) =
  (let '(ms', e) := decode_many fuel tail in (ms ++ ms', e)).
Proof.
  induction ms as [|m ms IH]; intros fuel tail Hwf.
  - cbn [flat_map length app plus]. destruct (decode_many fuel tail); reflexivity.
  - inversion Hwf as [|? ? Hm Hms]; subst. cbn [flat_map length plus].
    rewrite <- app_assoc, decode_many_frame, IH by assumption.
    destruct (decode_many fuel tail); reflexivity.
Qed.

Lemma decode_many_fuel : forall f1 f2 bs, (length bs <= f1)%nat -> (length bs <= f2)%nat ->
  decode_many f1 bs = decode_many f2 bs.
Proof.
  induction f1 as [|f1 IH]; intros f2 bs H1 H2.
  - destruct bs; [destruct f2; reflexivity | cbn in H1; lia].
  - destruct bs as [|b t]; [destruct f2; reflexivity|].
    destruct f2 as [|f2]; [cbn in H2; lia|].
    cbn [decode_many]. destruct (decode_r (b :: t)) as [m rest| |] eqn:D; try reflexivity.
    apply decode_r_shorter in D. rewrite (IH f2 rest); [reflexivity | cbn [length] in *; lia | cbn [length] in *; lia].
Qed.

Lemma flat_map_encode_length : forall ms, (length ms <= length (flat_map encode ms))%nat.
Proof.
  induction ms as [|m ms IH]; cbn [flat_map length]; [lia|].
  rewrite app_length, encode_length. lia.
Qed.

Lemma decode_stream_app : forall ms tail, Forall wf ms ->
  decode_stream (flat_map encode ms ++ tail) = (let '(ms', e) := decode_stream tail in (ms ++ ms', e)).
Proof.
  intros ms tail Hwf. unfold decode_stream. pose proof (flat_map_encode_length ms) as Hl. rewrite app_length.
  replace (length (flat_map encode ms) + length tail)%nat
    with (length ms + (length (flat_map encode ms) - length ms + length tail))%nat by lia.
  rewrite decode_many_app by exact Hwf.
  rewrite (decode_many_fuel _ (length tail)) by lia. reflexivity.
Qed.

Theorem stream : forall ms, Forall wf ms -> decode_stream (flat_map encode ms) = (ms, EndClean).
Proof.
  intros ms H. rewrite <- (app_nil_r (flat_map encode ms)), decode_stream_app by exact H.
  cbn. now rewrite app_nil_r.
Qed.

Lemma decode_stream_nonframe : forall tail, (forall m r, decode_r tail <> DOk m r) -> fst (decode_stream tail) = [].
Proof.
  intros tail H. unfold decode_stream. destruct tail as [|b t]; [reflexivity|].
  cbn [length decode_many]. destruct (decode_r (b :: t)) as [m r| |]; try reflexivity.
  exfalso. exact (H m r eq_refl).
Qed.

(** ** what is not a frame: a wrong magic number, a frame cut short *)
Theorem bad_magic_r : forall bs mg r, get 2 bs = Some (mg, r) -> mg <> magic_version ->
  decode_r bs = DBadMagic mg /\ decode bs = None.
Proof.
  intros bs mg r Hg Hne. unfold decode, decode_r. rewrite Hg.
  replace (negb (mg =? magic_version)) with true; [split; reflexivity|].
  symmetry. apply negb_true_iff, N.eqb_neq. exact Hne.
Qed.

Theorem bad_magic_frame : forall m rest, mmagic m < 2 ^ 16 -> mmagic m <> magic_version ->
  decode_r (encode m ++ rest) = DBadMagic (mmagic m) /\ decode (encode m ++ rest) = None.
Proof.
  intros m rest Hr Hne. eapply bad_magic_r; [|exact Hne]. unfold encode, get. rewrite <- app_assoc.
  destruct (field_enc 2 (mmagic m) Hr) as [R L]. now rewrite (split_at_app_n 2), R.
Qed.

Theorem truncated_rejected : forall m k, wf m -> (k < length (encode m))%nat ->
  decode (firstn k (encode m)) = None.
Proof.
  intros m k Hwf Hk. unfold decode.
  destruct (decode_r (firstn k (encode m))) as [m' rest| |] eqn:E; try reflexivity.
  (* what was read from the cut frame would also be read from the whole one, which leaves nothing behind *)
  exfalso. apply (decode_r_mono _ _ _ (skipn k (encode m))) in E.
  pose proof (roundtrip_r m [] Hwf) as R. rewrite app_nil_r in R. rewrite firstn_skipn, R in E.
  injection E as _ Hrest. symmetry in Hrest. apply app_eq_nil in Hrest. destruct Hrest as [_ Hext].
  apply (f_equal (@length N)) in Hext. rewrite skipn_length in Hext. cbn [length] in Hext. lia.
Qed.

Example ex_frame : msg := mkmsg magic_version 7 TypeWrite 4096 3 [1; 2; 255].
Example ex_frame_wf : wf ex_frame.
Proof. apply wfb_wf. vm_compute. reflexivity. Qed.
Example ex_frame_bytes : encode ex_frame =
  [3; 27;  7; 0; 0; 0;  1; 0; 0; 0;  0; 16; 0; 0; 0; 0; 0; 0;  3; 0; 0; 0; 0; 0; 0; 0;  3; 0; 0; 0;  1; 2; 255].
Proof. vm_compute. reflexivity. Qed.
Example ex_negative_offset :
  decode (encode (mkmsg magic_version (2 ^ 32 - 1) TypeRead (- two63) (two63 - 1) []) ++ [9]) =
  Some (mkmsg magic_version (2 ^ 32 - 1) TypeRead (- two63) (two63 - 1) [], [9]).
Proof. vm_compute. reflexivity. Qed.
Example ex_bad_magic : decode_r (encode (mkmsg 6914 1 TypeRead 0 0 []) ) = DBadMagic 6914.
Proof. vm_compute. reflexivity. Qed.
Example ex_huge_length : decode_r ([3; 27] ++ repeat 0 24 ++ [255; 255; 255; 255] ++ [1; 2; 3]) = DShort.
Proof. vm_compute. reflexivity. Qed.
Example ex_stream : decode_stream (encode ex_frame ++ encode ex_frame ++ [3; 27; 0]) = ([ex_frame; ex_frame], EndShort).
Proof. vm_compute. reflexivity. Qed.
