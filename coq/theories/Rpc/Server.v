(** * Rpc: executable model of the replica side of the data connection (property C15).

    rpc/server.go: [Server.readWrite] is one goroutine per connection that repeats
      Wire.Read -> handleRead / handleWrite / handlePing / handleSync / handleUnmap -> createResponse
                -> Wire.Write of the same Message object,
    so requests are answered strictly one after the other, in the order in which they arrive.
    replica/rpc/server.go: the accept loop serves one connection at a time with such a Server.

    Part 1: [create_response], the handlers ([srv_step]) and the serve loop over decoded requests
            with a scripted types.DataProcessor ([serve], [serve_stream] on bytes).
    Part 2: the C15 trace oracle for the server ([c15_server_ok]) over observations only, the
            correspondence functions and the coverage predicates used by checks/rpclib.py.
    Part 3: the composition of the client machine of Model.v with this server over two FIFO
            byte pipes ([net], [nstep], [ntrace]).

    Executable only; the theorems are in ServerProofs.v. *)
From Coq Require Import List ZArith NArith Bool Arith Lia.
From Jiva Require Import Rpc.Model Rpc.Corr.
Import ListNotations.
Open Scope N_scope.

(** ** Part 1: the server *)

(** What the DataProcessor did with one request (the scripted part of a run):
    - [OOk data]: the call returned a nil error; for ReadAt [data] are the bytes it wrote at the
      beginning of the buffer it was given (the returned count is not used by the code then);
    - [OEof count data]: the call returned (count, io.EOF) (the identical error value: the code tests
      [err == io.EOF]); [data] as before;
    - [OErr text]: any other error, [text] = err.Error().
    handleX calls logrus.Fatal for an *os.PathError with EIO: the process exits, no reply; such errors
    are not part of the script. *)
Inductive outcome :=
| OOk (data : list N)
| OEof (count : Z) (data : list N)
| OErr (text : list N).

Definition odata (o : outcome) : list N :=
  match o with OOk d => d | OEof _ d => d | OErr _ => [] end.
Definition ocount (o : outcome) : Z :=
  match o with OEof c _ => c | _ => 0%Z end.

(** handleRead: [msg.Data = make([]byte, msg.Size)] (zeroes) and then the processor writes into it *)
Definition fill (n : nat) (d : list N) : list N := firstn n d ++ repeat 0 (n - length d).

Definition set_data (m : msg) (d : list N) : msg :=
  mkmsg (mmagic m) (mseq m) (mtype m) (moff m) (msize m) d.

(** a response whose Size field is set from its payload: [msg.Size = int64(len(msg.Data))] *)
Definition reply (m : msg) (ty : N) (d : list N) : msg :=
  mkmsg magic_version (mseq m) ty (moff m) (Z.of_nat (length d)) d.

(** createResponse(count, msg, err), on the message object that was read (Seq and Offset are
    never assigned):
<<
	msg.MagicVersion = MagicVersion
	msg.Size = int64(len(msg.Data))
	if msg.Type == TypeWrite { msg.Data = nil }
	msg.Type = TypeResponse
	if err == io.EOF {
		msg.Type = TypeEOF
		if msg.Data != nil { msg.Data = msg.Data[:count] }
		msg.Size = int64(len(msg.Data))
	} else if err != nil {
		msg.Type = TypeError
		msg.Data = []byte(err.Error())
		msg.Size = int64(len(msg.Data))
	}
>>
    [None]: the slice expression panics (count < 0 or count > cap(msg.Data); the buffers that get here
    have cap = len), which ends the process.  nil and empty payloads are the same list here; the code
    tells them apart only in [msg.Data != nil], and slicing to [:count] is skipped exactly for writes
    (Data was just set to nil) and for payload-free ping / sync / unmap frames, where count is 0 and the
    slice would be the identity. *)
Definition create_response (count : Z) (m : msg) (o : outcome) : option msg :=
  let w := mtype m =? TypeWrite in
  let d1 := if w then [] else mdata m in
  match o with
  | OOk _ =>
      Some (mkmsg magic_version (mseq m) TypeResponse (moff m) (Z.of_nat (length (mdata m))) d1)
  | OEof _ _ =>
      if w then Some (reply m TypeEOF [])
      else if (0 <=? count)%Z && (count <=? Z.of_nat (length d1))%Z
           then Some (reply m TypeEOF (firstn (Z.to_nat count) d1))
           else None
  | OErr t => Some (reply m TypeError t)
  end.

(** the types readWrite's switch has a case for *)
Definition handled (ty : N) : bool :=
  (ty =? TypeRead) || (ty =? TypeWrite) || (ty =? TypePing) || (ty =? TypeSync) || (ty =? TypeUnmap).

(** One iteration of readWrite after a successful Wire.Read: the handler of the message type, then
    [s.write(msg)].  A type without a case (TypeResponse, TypeError, TypeEOF, TypeClose, TypeUpdate,
    anything >= 10) falls through the switch and the message is written back as it was read.
    [None]: runtime panic, no reply, the process is gone (handleRead: [make([]byte, msg.Size)] with a
    negative Size; createResponse's slice expression). *)
Definition srv_step (m : msg) (o : outcome) : option msg :=
  if mtype m =? TypeRead then
    (* handleRead: msg.Data = make([]byte, msg.Size); c, err := s.data.ReadAt(msg.Data, msg.Offset) *)
    if (msize m <? 0)%Z then None
    else create_response (ocount o) (set_data m (fill (Z.to_nat (msize m)) (odata o))) o
  else if mtype m =? TypeWrite then
    (* handleWrite: c, err := s.data.WriteAt(msg.Data, msg.Offset) *)
    create_response (ocount o) m o
  else if (mtype m =? TypePing) || (mtype m =? TypeSync) || (mtype m =? TypeUnmap) then
    (* handlePing / handleSync / handleUnmap: s.createResponse(0, msg, err) *)
    create_response 0 m o
  else Some m.

Inductive sstop := SEnd | SPanic.

(** the loop over the requests that Wire.Read delivered; [proc k m] is what the processor does for
    the k-th request of the connection *)
Fixpoint serve_from (proc : nat -> msg -> outcome) (k : nat) (reqs : list msg) : list msg * sstop :=
  match reqs with
  | [] => ([], SEnd)
  | m :: rs =>
      match srv_step m (proc k m) with
      | None => ([], SPanic)
      | Some r => let '(out, e) := serve_from proc (S k) rs in (r :: out, e)
      end
  end.

(** a script: one outcome per request, by position (requests of a type without handler do not call the
    processor, their entry is not looked at) *)
Definition dflt : outcome := OOk [].
Definition script_proc (script : list outcome) : nat -> msg -> outcome := fun k _ => nth k script dflt.
Definition serve (reqs : list msg) (script : list outcome) : list msg * sstop :=
  serve_from (script_proc script) 0 reqs.

(** the server on bytes: Wire.Read until it fails (every kind of read error ends readWrite, including
    the clean end of the stream), the replies as Wire.Write puts them on the connection *)
Definition serve_stream (input : list N) (script : list outcome) : list N * dend * sstop :=
  let '(reqs, e) := decode_stream input in
  let '(reps, st) := serve reqs script in
  (flat_map encode reps, e, st).

(** ** Part 2: C15 for the server as a predicate over observations

    [reqs]: the complete frames the peer wrote, in order; [script]: what the scripted processor was told
    to do for each of them; [reps]: the frames the peer read back, in order. *)

(** the requests at which the Go runtime stops the process (nothing can be observed after them) *)
Definition panics (req : msg) (o : outcome) : bool :=
  (mtype req =? TypeRead) &&
  ((msize req <? 0)%Z ||
   match o with
   | OEof c _ => negb ((0 <=? c)%Z && (c <=? msize req)%Z)
   | _ => false
   end).

Definition expect_type (req : msg) (o : outcome) : N :=
  if handled (mtype req) then
    match o with OOk _ => TypeResponse | OEof _ _ => TypeEOF | OErr _ => TypeError end
  else mtype req.

(** the payload the request's own processor call leads to *)
Definition expect_data (req : msg) (o : outcome) : list N :=
  if negb (handled (mtype req)) then mdata req
  else match o with
       | OErr t => t
       | OOk d =>
           if mtype req =? TypeRead then fill (Z.to_nat (msize req)) d
           else if mtype req =? TypeWrite then []
           else mdata req
       | OEof c d =>
           if mtype req =? TypeRead then firstn (Z.to_nat c) (fill (Z.to_nat (msize req)) d)
           else []
       end.

(** the Size field: the payload length of the reply, except that an acknowledged write reports the
    number of bytes that were written, and an unhandled type is returned untouched *)
Definition size_ok (req : msg) (o : outcome) (rep : msg) : bool :=
  if negb (handled (mtype req)) then (msize rep =? msize req)%Z
  else match o with
       | OOk _ =>
           if mtype req =? TypeWrite then (msize rep =? Z.of_nat (length (mdata req)))%Z
           else (msize rep =? Z.of_nat (length (mdata rep)))%Z
       | _ => (msize rep =? Z.of_nat (length (mdata rep)))%Z
       end.

(** clause mask of one reply: 1 Seq is not the request's, 2 magic, 4 type, 8 Size, 16 payload *)
Definition reply_bad (req : msg) (o : outcome) (rep : msg) : nat :=
  let b1 := negb (mseq rep =? mseq req) in
  let b2 := negb (mmagic rep =? magic_version) in
  let b4 := negb (mtype rep =? expect_type req o) in
  let b8 := negb (size_ok req o rep) in
  let b16 := negb (listN_eqb (mdata rep) (expect_data req o)) in
  (b2n b1 1 + b2n b2 2 + b2n b4 4 + b2n b8 8 + b2n b16 16)%nat.

(** one reply per request, in the order of the requests, each for its own request *)
Fixpoint server_ok_from (k : nat) (reqs : list msg) (script : list outcome) (reps : list msg) : bool :=
  match reqs, reps with
  | [], [] => true
  | [], _ :: _ => false                                   (* a reply nobody asked for *)
  | m :: _, [] => panics m (nth k script dflt)            (* replies stop only where the runtime stops *)
  | m :: rs, r :: reps' =>
      negb (panics m (nth k script dflt))
      && Nat.eqb (reply_bad m (nth k script dflt) r) 0
      && server_ok_from (S k) rs script reps'
  end.

Definition c15_server_ok (reqs : list msg) (script : list outcome) (reps : list msg) : bool :=
  server_ok_from 0 reqs script reps.

(** diagnosis for the report: (index, clause mask) of the first offending position; mask 32 = the
    reply is missing, 64 = a reply without request, 128 = a reply although the runtime must have stopped *)
Fixpoint server_first_bad (k : nat) (reqs : list msg) (script : list outcome) (reps : list msg) : option (nat * nat) :=
  match reqs, reps with
  | [], [] => None
  | [], _ :: _ => Some (k, 64%nat)
  | m :: _, [] => if panics m (nth k script dflt) then None else Some (k, 32%nat)
  | m :: rs, r :: reps' =>
      if panics m (nth k script dflt) then Some (k, 128%nat)
      else if Nat.eqb (reply_bad m (nth k script dflt) r) 0 then server_first_bad (S k) rs script reps'
      else Some (k, reply_bad m (nth k script dflt) r)
  end.

(** *** server cases of the harness *)
Record scase := mksv {
  s_input   : list N;         (* every byte the peer wrote *)
  s_reqs    : list msg;       (* the complete frames in it, as the generator made them *)
  s_script  : list outcome;   (* one per frame *)
  s_replies : list msg        (* the frames the peer read back *)
}.

(** 0 = the model and the implementation agree; 1 replies differ; 9 the generator's frames are not
    what the model's decoder reads from the bytes (a defect of the check itself) *)
Definition server_diff (c : scase) : nat :=
  let '(reqs, _) := decode_stream (s_input c) in
  if negb (msgs_eqb reqs (s_reqs c)) then 9%nat
  else if negb (msgs_eqb (fst (serve reqs (s_script c))) (s_replies c)) then 1%nat
  else 0%nat.

Record sverdict := mksvv { sv_diff : nat; sv_oracle : bool; sv_first : option (nat * nat) }.

Definition check_scase (c : scase) : sverdict :=
  mksvv (server_diff c)
        (c15_server_ok (s_reqs c) (s_script c) (s_replies c))
        (server_first_bad 0 (s_reqs c) (s_script c) (s_replies c)).

(** (index, diff, oracle, first offending reply, its clause mask) of every case that differs or fails *)
Fixpoint bad_scases (i : nat) (cs : list scase) : list (nat * nat * bool * nat * nat) :=
  match cs with
  | [] => []
  | c :: cs' =>
      let v := check_scase c in
      let rest := bad_scases (S i) cs' in
      if Nat.eqb (sv_diff v) 0 && sv_oracle v then rest
      else (i, sv_diff v, sv_oracle v,
            match sv_first v with Some (k, _) => k | None => 0%nat end,
            match sv_first v with Some (_, mk) => mk | None => 0%nat end) :: rest
  end.

(** coverage, judged on the model: 1 a TypeError reply, 2 a TypeEOF reply, 4 a frame of an unhandled
    type answered unchanged, 8 two requests with the same Seq, 16 the stream ends in something that is
    not a frame, 32 a reply with a payload, 64 a write request whose Size field differs from its payload
    length, 128 an EOF reply shorter than the buffer *)
Fixpoint has_dup (l : list N) : bool :=
  match l with
  | [] => false
  | x :: t => memb x t || has_dup t
  end.

Definition scase_flags (c : scase) : nat :=
  let '(reqs, e) := decode_stream (s_input c) in
  let reps := fst (serve reqs (s_script c)) in
  let f1 := existsb (fun r => mtype r =? TypeError) reps in
  let f2 := existsb (fun r => mtype r =? TypeEOF) reps in
  let f4 := existsb (fun m => negb (handled (mtype m))) reqs in
  let f8 := has_dup (map mseq reqs) in
  let f16 := match e with EndClean => false | _ => true end in
  let f32 := existsb (fun r => negb (Nat.eqb (length (mdata r)) 0)) reps in
  let f64 := existsb (fun m => (mtype m =? TypeWrite) && negb (msize m =? Z.of_nat (length (mdata m)))%Z) reqs in
  let f128 := existsb (fun mr => (mtype (fst mr) =? TypeRead) && (mtype (snd mr) =? TypeEOF)
                                 && (Z.of_nat (length (mdata (snd mr))) <? msize (fst mr))%Z) (combine reqs reps) in
  (b2n f1 1 + b2n f2 2 + b2n f4 4 + b2n f8 8 + b2n f16 16 + b2n f32 32 + b2n f64 64 + b2n f128 128)%nat.

Definition scoverage (cs : list scase) : list nat := map scase_flags cs.

(** ** Part 3: one client and this server on one connection

    [n_up]: request frames the client's write goroutine has put on the connection and the server has
    not read yet; [n_down]: reply frames the server has written and the client's read goroutine has not
    yet passed to the loop.  TCP keeps each direction in order.  [n_served]: how many requests the
    server has answered (the index the next one gets); [n_dead]: the server process is gone. *)
Record net := mknet {
  n_cli    : st;
  n_up     : list msg;
  n_down   : list msg;
  n_served : nat;
  n_dead   : bool
}.

Definition net0 : net := mknet init [] [] 0 false.

(** the schedule: who moves next *)
Inductive nev :=
| NCall (r : req)            (* a caller enters operation and the loop takes its message: [Req] *)
| NCallRaced (r : req)       (* [ReqRaced] *)
| NServe                     (* the server reads the oldest unread request, handles it, writes the reply *)
| NDeliver                   (* the client's reader hands the oldest undelivered reply to the loop: [Resp] *)
| NFail (c : cerr)           (* the loop takes a transport error: [TransportErr] *)
| NTimeout (id : N).         (* the timer of caller [id] fires: [Timeout] *)

(** the client event a move amounts to *)
Definition cli_ev (n : net) (e : nev) : option event :=
  match e with
  | NCall r => Some (Req r)
  | NCallRaced r => Some (ReqRaced r)
  | NServe => None
  | NDeliver =>
      match n_down n with
      | [] => None
      | rep :: _ => Some (Resp (mseq rep) (mtype rep) (msize rep) (mdata rep))
      end
  | NFail c => Some (TransportErr c)
  | NTimeout id => Some (Timeout id)
  end.

Definition nstep (proc : nat -> msg -> outcome) (M : N) (n : net) (e : nev) : net :=
  match e with
  | NServe =>
      if n_dead n then n else
      match n_up n with
      | [] => n
      | m :: up =>
          match srv_step m (proc (n_served n) m) with
          | Some rep => mknet (n_cli n) up (n_down n ++ [rep]) (S (n_served n)) false
          | None => mknet (n_cli n) (n_up n) (n_down n) (n_served n) true
          end
      end
  | _ =>
      match cli_ev n e with
      | None => n
      | Some ce =>
          let '(c', o) := step M (n_cli n) ce in
          mknet c' (n_up n ++ sents o)
                (match e with NDeliver => tl (n_down n) | _ => n_down n end)
                (n_served n) (n_dead n)
      end
  end.

(** the client's view of a schedule: the events its loop sees, in order *)
Fixpoint ntrace (proc : nat -> msg -> outcome) (M : N) (n : net) (sched : list nev) : list event :=
  match sched with
  | [] => []
  | e :: t =>
      match cli_ev n e with
      | Some ce => ce :: ntrace proc M (nstep proc M n e) t
      | None => ntrace proc M (nstep proc M n e) t
      end
  end.

Fixpoint nrun (proc : nat -> msg -> outcome) (M : N) (n : net) (sched : list nev) : net :=
  match sched with
  | [] => n
  | e :: t => nrun proc M (nstep proc M n e) t
  end.

(** the frames a log shows as sent, each with the call that owns it: (Seq, call) in sending order *)
Definition sent_pairs (l : list (event * list out)) : list (N * req) :=
  flat_map (fun x => match is_req (fst x) with
                     | Some rq => map (fun m => (mseq m, rq)) (sents (snd x))
                     | None => []
                     end) l.
