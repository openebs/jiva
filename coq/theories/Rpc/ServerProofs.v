(** * Rpc: proofs about the server model (Server.v): request order and sequence numbers, the reply
    mapping of createResponse, the byte level, the oracle on the model's own output, and the
    composition with the client machine of Model.v / LoopProofs.v. *)
From Coq Require Import List ZArith NArith Bool Arith Lia.
From Jiva Require Import Rpc.Model Rpc.CodecProofs Rpc.LoopProofs Rpc.Corr Rpc.Proofs Rpc.Server.
Import ListNotations.
Open Scope N_scope.

(** exactly six conjuncts ([wf], the body of [ninv]) *)
Ltac split6 := split; [|split; [|split; [|split; [|split]]]].

Lemma type_cases : forall ty,
  ty = TypeRead \/ ty = TypeWrite \/ (ty = TypePing \/ ty = TypeSync \/ ty = TypeUnmap) \/
  ((ty =? TypeRead) = false /\ (ty =? TypeWrite) = false /\
   ((ty =? TypePing) || (ty =? TypeSync) || (ty =? TypeUnmap)) = false /\ handled ty = false).
Proof.
  intro ty. unfold handled.
  destruct (ty =? TypeRead) eqn:E1; [apply N.eqb_eq in E1; now left|].
  destruct (ty =? TypeWrite) eqn:E2; [apply N.eqb_eq in E2; right; now left|].
  destruct (ty =? TypePing) eqn:E3; [apply N.eqb_eq in E3; right; right; left; now left|].
  destruct (ty =? TypeSync) eqn:E4; [apply N.eqb_eq in E4; right; right; left; right; now left|].
  destruct (ty =? TypeUnmap) eqn:E5; [apply N.eqb_eq in E5; right; right; left; right; now right|].
  right; right; right. repeat split; reflexivity.
Qed.

Lemma fill_length : forall n d, length (fill n d) = n.
Proof.
  intros n d. unfold fill. rewrite app_length, firstn_length, repeat_length.
  destruct (Nat.le_ge_cases n (length d)) as [H|H].
  - rewrite Nat.min_l, (proj2 (Nat.sub_0_le _ _) H) by exact H. apply Nat.add_0_r.
  - rewrite Nat.min_r, Nat.add_comm by exact H. now apply Nat.sub_add.
Qed.

(** ** the reply in closed form *)

(** the Size field [size_ok] asks for *)
Definition expect_size (m : msg) (o : outcome) : Z :=
  if negb (handled (mtype m)) then msize m
  else match o with
       | OOk _ => if mtype m =? TypeWrite then Z.of_nat (length (mdata m))
                  else Z.of_nat (length (expect_data m o))
       | _ => Z.of_nat (length (expect_data m o))
       end.

Definition expect_reply (m : msg) (o : outcome) : msg :=
  mkmsg (if handled (mtype m) then magic_version else mmagic m) (mseq m) (expect_type m o)
        (moff m) (expect_size m o) (expect_data m o).

(** the model's server stops without a reply exactly where [panics] says (a negative read Size, an EOF count outside the
    buffer: there the Go runtime panics) *)
Lemma srv_step_eq : forall m o, srv_step m o = if panics m o then None else Some (expect_reply m o).
Proof.
  intros [mg sq ty off sz d] o.
  unfold srv_step, panics, create_response, expect_reply, expect_size, expect_type, expect_data, reply.
  cbn [mtype msize mdata mseq moff mmagic set_data].
  destruct (type_cases ty) as [-> | [-> | [[-> | [-> | ->]] | (H1 & H2 & H3 & H4)]]].
  - (* Read *) cbn [N.eqb TypeRead TypeWrite handled orb negb andb Pos.eqb].
    destruct (Z.ltb_spec sz 0) as [Hs|Hs]; [reflexivity|]. cbn [orb].
    destruct o as [d'|c d'|t]; cbn [ocount odata negb]; rewrite ?fill_length, ?Z2Nat.id by exact Hs; try reflexivity.
    destruct ((0 <=? c)%Z && (c <=? sz)%Z); reflexivity.
  - (* Write *) destruct o; reflexivity.
  - (* Ping, then Sync and Unmap: the request's payload goes back, Size is computed on it *)
    destruct o; try reflexivity. cbn. now destruct (length d).
  - destruct o; try reflexivity. cbn. now destruct (length d).
  - destruct o; try reflexivity. cbn. now destruct (length d).
  - (* a type without a case in the switch *) rewrite H1, H2, H3, H4. reflexivity.
Qed.

Lemma srv_step_some : forall m o r, srv_step m o = Some r -> panics m o = false /\ r = expect_reply m o.
Proof. intros m o r H. rewrite srv_step_eq in H. destruct (panics m o); [discriminate|]. now inversion H. Qed.

Lemma srv_step_panics : forall m o, srv_step m o = None <-> panics m o = true.
Proof. intros m o. rewrite srv_step_eq. destruct (panics m o); split; congruence. Qed.

Theorem srv_step_seq : forall m o r, srv_step m o = Some r ->
  mseq r = mseq m /\ moff r = moff m /\ (mmagic m = magic_version -> mmagic r = magic_version).
Proof.
  intros m o r H. apply srv_step_some in H. destruct H as [_ ->]. cbn [expect_reply mseq moff mmagic].
  destruct (handled (mtype m)); auto.
Qed.

(** ** the clauses of the reply that C15 names, each from the closed form *)

Theorem srv_step_spec : forall m o r, srv_step m o = Some r ->
  mtype r = expect_type m o /\ mdata r = expect_data m o /\ size_ok m o r = true.
Proof.
  intros m o r H. apply srv_step_some in H. destruct H as [_ ->]. repeat split.
  unfold size_ok, expect_reply, expect_size. cbn [msize mdata].
  destruct (negb (handled (mtype m))); [apply Z.eqb_refl|].
  destruct o; try apply Z.eqb_refl. destruct (mtype m =? TypeWrite); apply Z.eqb_refl.
Qed.

Theorem unhandled_answered_unchanged : forall m o, handled (mtype m) = false -> srv_step m o = Some m.
Proof.
  intros m o H. unfold srv_step.
  destruct (type_cases (mtype m)) as [E | [E | [[E | [E | E]] | (H1 & H2 & H3 & _)]]];
    try (rewrite E in H; discriminate).
  now rewrite H1, H2, H3.
Qed.

Theorem size_is_payload_length : forall m o r, srv_step m o = Some r -> handled (mtype m) = true ->
  (mtype m = TypeWrite -> mtype r <> TypeResponse) -> msize r = Z.of_nat (length (mdata r)).
Proof.
  intros m o r H Hh Hw. destruct (srv_step_spec m o r H) as (T & _ & S).
  unfold size_ok in S. rewrite Hh in S. cbn [negb] in S.
  destruct o as [d|c d|t]; try (apply Z.eqb_eq; exact S).
  destruct (mtype m =? TypeWrite) eqn:E; [|apply Z.eqb_eq; exact S].
  apply N.eqb_eq in E. exfalso. apply (Hw E). rewrite T. unfold expect_type. now rewrite Hh.
Qed.

Theorem read_reply : forall m d r, mtype m = TypeRead -> srv_step m (OOk d) = Some r ->
  mtype r = TypeResponse /\ mdata r = fill (Z.to_nat (msize m)) d /\ msize r = msize m.
Proof.
  intros m d r Hty H. apply srv_step_some in H. destruct H as [P ->].
  unfold panics, expect_reply, expect_size, expect_type, expect_data in *. rewrite Hty in *. cbn in *.
  rewrite orb_false_r in P. apply Z.ltb_ge in P. rewrite fill_length, Z2Nat.id by exact P. auto.
Qed.

Theorem eof_reply : forall m c d r, mtype m = TypeRead -> srv_step m (OEof c d) = Some r ->
  mtype r = TypeEOF /\ mdata r = firstn (Z.to_nat c) (fill (Z.to_nat (msize m)) d) /\ msize r = c /\
  (0 <= c <= msize m)%Z.
Proof.
  intros m c d r Hty H. apply srv_step_some in H. destruct H as [P ->].
  unfold panics, expect_reply, expect_size, expect_type, expect_data in *. rewrite Hty in *. cbn in *.
  apply orb_false_iff in P. destruct P as [_ P]. apply negb_false_iff, andb_true_iff in P.
  destruct P as [P1 P2]. apply Z.leb_le in P1, P2.
  rewrite firstn_length, fill_length.
  rewrite Nat.min_l by (apply Z2Nat.inj_le; [exact P1 | exact (Z.le_trans _ _ _ P1 P2) | exact P2]).
  rewrite Z2Nat.id by exact P1. auto.
Qed.

(** ** the serve loop: one reply per request, in request order, each carrying its request's Seq *)

Inductive served (proc : nat -> msg -> outcome) : nat -> list msg -> list msg -> sstop -> Prop :=
| served_end : forall k, served proc k [] [] SEnd
| served_panic : forall k m rs (E : srv_step m (proc k m) = None), served proc k (m :: rs) [] SPanic
| served_reply : forall k m rs r out e (E : srv_step m (proc k m) = Some r) (H : served proc (S k) rs out e),
    served proc k (m :: rs) (r :: out) e.

Lemma serve_from_served : forall proc reqs k reps st, serve_from proc k reqs = (reps, st) -> served proc k reqs reps st.
Proof.
  intros proc reqs. induction reqs as [|m rs IH]; intros k reps st H; cbn [serve_from] in H.
  - inversion H. constructor.
  - destruct (srv_step m (proc k m)) as [r|] eqn:E; [|inversion H; now constructor].
    destruct (serve_from proc (S k) rs) as [out e] eqn:R. inversion H; subst. constructor; auto.
Qed.

Theorem serve_in_order : forall proc reqs k reps st, serve_from proc k reqs = (reps, st) ->
  (st = SEnd -> length reps = length reqs) /\ (length reps <= length reqs)%nat /\
  forall i r, nth_error reps i = Some r ->
    exists m, nth_error reqs i = Some m /\ srv_step m (proc (k + i)%nat m) = Some r /\
              mseq r = mseq m /\ moff r = moff m.
Proof.
  intros proc reqs k reps st H. apply serve_from_served in H.
  induction H as [k|k m rs E|k m rs r out e E H (I1 & I2 & I3)]; cbn [length].
  - split; [reflexivity|]. split; [apply Nat.le_refl|]. intros [|i] r Hn; discriminate.
  - split; [discriminate|]. split; [apply Nat.le_0_l|]. intros [|i] r Hn; discriminate.
  - split; [intro He; now rewrite I1|]. split; [apply le_n_S, I2|].
    intros [|i] r' Hn; cbn [nth_error] in *.
    + inversion Hn; subst r'. exists m. rewrite Nat.add_0_r.
      destruct (srv_step_seq _ _ _ E) as (S1 & S2 & _). auto.
    + destruct (I3 i r' Hn) as (m' & A & B & C). exists m'. rewrite Nat.add_succ_r. auto.
Qed.

Theorem serve_stops_at_panic : forall proc reqs k reps, serve_from proc k reqs = (reps, SPanic) ->
  exists m, nth_error reqs (length reps) = Some m /\ panics m (proc (k + length reps)%nat m) = true.
Proof.
  intros proc reqs k reps H. apply serve_from_served in H. remember SPanic as st eqn:Hst.
  induction H as [k|k m rs E|k m rs r out e E H IH]; [discriminate Hst| |]; cbn [length nth_error].
  - exists m. rewrite Nat.add_0_r. split; [reflexivity | now apply srv_step_panics].
  - destruct (IH Hst) as (m' & A & B). exists m'. rewrite Nat.add_succ_r. auto.
Qed.

Theorem serve_total : forall proc reqs k,
  (forall i m, nth_error reqs i = Some m -> panics m (proc (k + i)%nat m) = false) ->
  snd (serve_from proc k reqs) = SEnd /\ length (fst (serve_from proc k reqs)) = length reqs.
Proof.
  intros proc reqs k Hp. destruct (serve_from proc k reqs) as [reps st] eqn:R. cbn [fst snd].
  destruct st.
  - split; [reflexivity|]. now apply (serve_in_order _ _ _ _ _ R).
  - exfalso. destruct (serve_stops_at_panic _ _ _ _ R) as (m & A & B). rewrite (Hp _ _ A) in B. discriminate.
Qed.

Theorem serve_seqs : forall proc reqs k reps, serve_from proc k reqs = (reps, SEnd) ->
  map mseq reps = map mseq reqs.
Proof.
  intros proc reqs k reps H. apply serve_from_served in H. remember SEnd as st eqn:Hst.
  induction H as [k|k m rs E|k m rs r out e E H IH]; [reflexivity | discriminate Hst|].
  cbn [map]. rewrite (IH Hst). destruct (srv_step_seq _ _ _ E) as (S1 & _). now rewrite S1.
Qed.

(** ** the byte level *)

(** requests as Wire.Read can deliver them, with read sizes the reply's 32-bit length field can carry;
    error texts likewise *)
Definition req_ok (m : msg) : Prop := wf m /\ (mtype m = TypeRead -> (msize m < 2 ^ 32)%Z).
Definition outcome_ok (o : outcome) : Prop :=
  match o with OErr t => N.of_nat (length t) < 2 ^ 32 | _ => True end.

Lemma len_bound : forall n : nat, N.of_nat n < 2 ^ 32 -> (- two63 <= Z.of_nat n < two63)%Z.
Proof.
  intros n H. unfold two63.
  assert (Z.of_N (N.of_nat n) < Z.of_N (2 ^ 32))%Z by (apply N2Z.inj_lt; exact H).
  rewrite nat_N_Z in H0. change (Z.of_N (2 ^ 32)) with (2 ^ 32)%Z in H0. lia.
Qed.

Lemma firstn_bound : forall (k n : nat) (l : list N), N.of_nat (length l) < 2 ^ 32 -> N.of_nat (length (firstn k l)) < 2 ^ 32.
Proof. intros k n l H. rewrite firstn_length. lia. Qed.

Lemma expect_data_bound : forall m o, req_ok m -> outcome_ok o -> panics m o = false ->
  N.of_nat (length (expect_data m o)) < 2 ^ 32.
Proof.
  intros m o [(_ & _ & _ & _ & _ & Wd) Hsz] Ho P.
  unfold expect_data. destruct (handled (mtype m)); cbn [negb]; [|exact Wd].
  (* a read that does not panic has 0 <= Size, and Size < 2^32 is asked of the request *)
  assert (Hread : mtype m = TypeRead -> N.of_nat (Z.to_nat (msize m)) < 2 ^ 32).
  { intro E. specialize (Hsz E). unfold panics in P. rewrite E in P. cbn in P.
    apply orb_false_iff in P. destruct P as [P _]. apply Z.ltb_ge in P. lia. }
  destruct o as [d|c d|t].
  - destruct (mtype m =? TypeRead) eqn:E; [apply N.eqb_eq in E; rewrite fill_length; auto|].
    destruct (mtype m =? TypeWrite); [reflexivity | exact Wd].
  - destruct (mtype m =? TypeRead) eqn:E; [|reflexivity].
    apply N.eqb_eq in E. specialize (Hread E). rewrite firstn_length, fill_length. lia.
  - exact Ho.
Qed.

Lemma srv_step_wf : forall m o r, req_ok m -> outcome_ok o -> srv_step m o = Some r -> wf r.
Proof.
  intros m o r Hm Ho H. apply srv_step_some in H. destruct H as [P ->].
  pose proof (expect_data_bound m o Hm Ho P) as Hd. destruct Hm as [(Wmg & Wsq & Wty & Woff & Wsz & Wd) _].
  unfold wf, expect_reply. cbn [mmagic mseq mtype moff msize mdata]. split6; try assumption.
  - destruct (handled (mtype m)); [reflexivity | exact Wmg].
  - unfold expect_type. destruct (handled (mtype m)); [|exact Wty]. destruct o; reflexivity.
  - unfold expect_size. destruct (handled (mtype m)); cbn [negb]; [|exact Wsz].
    destruct o; try (now apply len_bound). destruct (mtype m =? TypeWrite); now apply len_bound.
Qed.

Theorem serve_replies_wf : forall proc reqs k reps st, Forall req_ok reqs -> (forall i m, outcome_ok (proc i m)) ->
  serve_from proc k reqs = (reps, st) -> Forall wf reps.
Proof.
  intros proc reqs k reps st Hr Ho H. apply serve_from_served in H.
  induction H as [k|k m rs E|k m rs r out e E H IH]; try constructor; inversion Hr; subst.
  - eapply srv_step_wf; eauto.
  - now apply IH.
Qed.

Theorem replies_roundtrip : forall proc reqs k reps st, Forall req_ok reqs -> (forall i m, outcome_ok (proc i m)) ->
  serve_from proc k reqs = (reps, st) -> decode_stream (flat_map encode reps) = (reps, EndClean).
Proof. intros proc reqs k reps st Hr Ho H. apply stream. eapply serve_replies_wf; eauto. Qed.

Theorem serve_stream_complete_frames : forall reqs tail script, Forall wf reqs ->
  (forall m r, decode_r tail <> DOk m r) ->
  serve_stream (flat_map encode reqs ++ tail) script =
  (flat_map encode (fst (serve reqs script)), snd (decode_stream tail), snd (serve reqs script)).
Proof.
  intros reqs tail script Hwf Ht. unfold serve_stream. rewrite (decode_stream_app reqs tail Hwf).
  pose proof (decode_stream_nonframe tail Ht) as Hn.
  destruct (decode_stream tail) as [ms' e]. cbn [fst snd] in *. subst ms'. rewrite app_nil_r.
  destruct (serve reqs script) as [reps st]. reflexivity.
Qed.

(** such a tail: nothing, or whatever [decode] rejects (a frame cut anywhere, a frame with a wrong magic number) *)
Lemma tail_empty : forall m r, decode_r [] <> DOk m r.
Proof. intros m r. discriminate. Qed.

Lemma tail_rejected : forall bs, decode bs = None -> forall m r, decode_r bs <> DOk m r.
Proof. intros bs H m r D. unfold decode in H. rewrite D in H. discriminate. Qed.

Theorem serve_stream_roundtrip : forall reqs tail script, Forall req_ok reqs -> Forall outcome_ok script ->
  (forall m r, decode_r tail <> DOk m r) ->
  decode_stream (fst (fst (serve_stream (flat_map encode reqs ++ tail) script))) = (fst (serve reqs script), EndClean).
Proof.
  intros reqs tail script Hr Hs Ht.
  assert (Hwf : Forall wf reqs) by (eapply Forall_impl; [|exact Hr]; intros a [W _]; exact W).
  rewrite (serve_stream_complete_frames reqs tail script Hwf Ht). cbn [fst].
  destruct (serve reqs script) as [reps st] eqn:R. cbn [fst]. unfold serve in R.
  eapply replies_roundtrip; [exact Hr | | exact R].
  intros i m. unfold script_proc. destruct (nth_in_or_default i script dflt) as [Hin | Heq]; [|rewrite Heq; exact I].
  rewrite Forall_forall in Hs. now apply Hs.
Qed.

(** ** the server oracle holds on the model's own output *)

Lemma reply_bad_model : forall m o r, mmagic m = magic_version -> srv_step m o = Some r -> reply_bad m o r = 0%nat.
Proof.
  intros m o r Hm H. destruct (srv_step_seq _ _ _ H) as (S1 & _ & S3). destruct (srv_step_spec _ _ _ H) as (T & D & S).
  unfold reply_bad. rewrite S, S1, (S3 Hm), T, D, !N.eqb_refl, listN_eqb_refl. reflexivity.
Qed.

Lemma server_ok_from_model : forall script reqs k, Forall (fun m => mmagic m = magic_version) reqs ->
  server_ok_from k reqs script (fst (serve_from (script_proc script) k reqs)) = true.
Proof.
  intros script reqs k Hm. destruct (serve_from (script_proc script) k reqs) as [reps st] eqn:R.
  apply serve_from_served in R. cbn [fst].
  induction R as [k|k m rs E|k m rs r out e E R IH]; cbn [server_ok_from].
  - reflexivity.
  - now apply srv_step_panics.
  - unfold script_proc in E. inversion Hm as [|? ? Hm1 Hm2]; subst. destruct (srv_step_some _ _ _ E) as [P _].
    rewrite P, (reply_bad_model _ _ _ Hm1 E). now apply IH.
Qed.

Theorem c15_server_ok_model : forall reqs script, Forall (fun m => mmagic m = magic_version) reqs ->
  c15_server_ok reqs script (fst (serve reqs script)) = true.
Proof. intros reqs script H. unfold c15_server_ok, serve. now apply server_ok_from_model. Qed.

Theorem server_case_model : forall input script, bytes input ->
  let reqs := fst (decode_stream input) in
  let c := mksv input reqs script (fst (serve reqs script)) in
  server_diff c = 0%nat /\ sv_oracle (check_scase c) = true.
Proof.
  intros input script Hb reqs c. subst c. unfold check_scase, server_diff. cbn [s_input s_reqs s_script s_replies sv_oracle].
  subst reqs. destruct (decode_stream input) as [ms e] eqn:D. cbn [fst].
  rewrite !msgs_eqb_refl. cbn [negb]. split; [reflexivity|].
  apply c15_server_ok_model. unfold decode_stream in D.
  destruct (decode_many_inv _ _ _ _ Hb D) as (W & _).
  eapply Forall_impl; [|exact W]. intros a (Hmg & _). exact Hmg.
Qed.

Definition exR : msg := mkmsg magic_version 7 TypeRead 4096 4 [].
Definition exW : msg := mkmsg magic_version 7 TypeWrite 8192 99 [5; 6; 7].
Definition exP : msg := mkmsg magic_version (2 ^ 32 - 1) TypePing 0 0 [].
Definition exU : msg := mkmsg magic_version 0 TypeUpdate 3 4 [9].

Example ex_serve :
  serve [exR; exW; exP; exU; exR; exW] [OOk [1; 2; 3; 4]; OOk []; OErr [69]; OOk []; OEof 2 [8; 9]; OEof 1 []] =
  ([mkmsg magic_version 7 TypeResponse 4096 4 [1; 2; 3; 4];
    mkmsg magic_version 7 TypeResponse 8192 3 [];
    mkmsg magic_version (2 ^ 32 - 1) TypeError 0 1 [69];
    exU;
    mkmsg magic_version 7 TypeEOF 4096 2 [8; 9];
    mkmsg magic_version 7 TypeEOF 8192 0 []], SEnd).
Proof. vm_compute. reflexivity. Qed.

Example ex_server_oracle :
  let reqs := [exR; exW; exP] in
  let script := [OEof 2 [8; 9; 10; 11]; OOk []; OErr [69; 70]] in
  c15_server_ok reqs script (fst (serve reqs script)) = true /\
  (* Seq of another request *)
  c15_server_ok reqs script [mkmsg magic_version 7 TypeEOF 4096 2 [8; 9]; mkmsg magic_version 7 TypeResponse 8192 3 [];
                             mkmsg magic_version 7 TypeError 0 2 [69; 70]] = false /\
  (* Size not updated on error *)
  c15_server_ok reqs script [mkmsg magic_version 7 TypeEOF 4096 2 [8; 9]; mkmsg magic_version 7 TypeResponse 8192 3 [];
                             mkmsg magic_version (2 ^ 32 - 1) TypeError 0 0 [69; 70]] = false /\
  (* EOF reply not truncated to count *)
  c15_server_ok reqs script [mkmsg magic_version 7 TypeEOF 4096 4 [8; 9; 10; 11]; mkmsg magic_version 7 TypeResponse 8192 3 [];
                             mkmsg magic_version (2 ^ 32 - 1) TypeError 0 2 [69; 70]] = false /\
  (* the written data travels back *)
  c15_server_ok reqs script [mkmsg magic_version 7 TypeEOF 4096 2 [8; 9]; mkmsg magic_version 7 TypeResponse 8192 3 [5; 6; 7];
                             mkmsg magic_version (2 ^ 32 - 1) TypeError 0 2 [69; 70]] = false /\
  (* a reply is missing / one too many *)
  c15_server_ok reqs script [mkmsg magic_version 7 TypeEOF 4096 2 [8; 9]; mkmsg magic_version 7 TypeResponse 8192 3 []] = false /\
  c15_server_ok [exP] [OOk []] [mkmsg magic_version (2 ^ 32 - 1) TypeResponse 0 0 []; mkmsg magic_version (2 ^ 32 - 1) TypeResponse 0 0 []] = false.
Proof. vm_compute. repeat split; reflexivity. Qed.

(** the runtime panics of the code as it is (not driven by the harness: the process dies) *)
Example ex_panics :
  serve [exP; mkmsg magic_version 2 TypeRead 0 (-1) []; exP] [] = ([mkmsg magic_version (2 ^ 32 - 1) TypeResponse 0 0 []], SPanic) /\
  serve [exR] [OEof 5 []] = ([], SPanic).
Proof. vm_compute. split; reflexivity. Qed.

(** ** the client of LoopProofs.v served by this server

    Each direction of the connection is a FIFO of whole frames (the byte level is above); the server is the
    sequential loop above, so replies are produced in arrival order, possibly long after later requests were sent. *)

Definition fr (p : N * req) : msg := req_msg (fst p) (snd p).

Fixpoint replies_from (proc : nat -> msg -> outcome) (k : nat) (ms : list msg) : list (option msg) :=
  match ms with
  | [] => []
  | m :: t => srv_step m (proc k m) :: replies_from proc (S k) t
  end.

Lemma replies_from_app : forall proc a k b,
  replies_from proc k (a ++ b) = replies_from proc k a ++ replies_from proc (k + length a) b.
Proof.
  intros proc a. induction a as [|x a IH]; intros k b; cbn [app replies_from length].
  - now rewrite Nat.add_0_r.
  - rewrite IH, Nat.add_succ_r. reflexivity.
Qed.

(** what ties the connection to the client's log [l]: the frames sent so far are, in order, those whose
    reply was delivered ([dl]), those answered but not delivered ([rp]), those not yet read by the server
    ([qu]); and while the connection has not failed the client's pending map is exactly the undelivered ones *)
Definition ninv (proc : nat -> msg -> outcome) (l : log) (n : net) : Prop :=
  exists dl rp qu : list (N * req),
    sent_pairs l = dl ++ rp ++ qu /\
    n_up n = map fr qu /\
    map Some (n_down n) = replies_from proc (length dl) (map fr rp) /\
    n_served n = (length dl + length rp)%nat /\
    uniq_inv (n_cli n) /\
    (failed (n_cli n) = None -> pending (n_cli n) = rev (rp ++ qu)).

Definition e2e_entry (proc : nat -> msg -> outcome) (pre : log) (x : event * list out) : Prop :=
  forall id r, In (Done id r) (snd x) -> is_local r = false ->
  exists k sq rq rep,
    rid rq = id /\ nth_error (sent_pairs pre) k = Some (sq, rq) /\
    srv_step (req_msg sq rq) (proc k (req_msg sq rq)) = Some rep /\
    fst x = Resp sq (mtype rep) (msize rep) (mdata rep) /\
    r = op_result rq (mtype rep) (msize rep) (mdata rep).

Lemma sent_pairs_snoc : forall l x, sent_pairs (l ++ [x]) =
  sent_pairs l ++ match is_req (fst x) with
                  | Some rq => map (fun m => (mseq m, rq)) (sents (snd x))
                  | None => []
                  end.
Proof. intros l x. unfold sent_pairs. rewrite flat_map_app. cbn [flat_map]. now rewrite app_nil_r. Qed.

Lemma sent_pairs_snoc_nosent : forall l e o, sents o = [] -> sent_pairs (l ++ [(e, o)]) = sent_pairs l.
Proof.
  intros l e o H. rewrite sent_pairs_snoc. cbn [fst snd]. rewrite H. destruct (is_req e); cbn [map]; apply app_nil_r.
Qed.

Lemma ninv_client : forall proc M l n ce s1 o,
  ninv proc l n -> step M (n_cli n) ce = (s1, o) -> guard1 M (n_cli n) ce = true ->
  (forall sq ty sz d, ce <> Resp sq ty sz d) ->
  e2e_entry proc l (ce, o) /\
  ninv proc (l ++ [(ce, o)]) (mknet s1 (n_up n ++ sents o) (n_down n) (n_served n) (n_dead n)).
Proof.
  intros proc M l n ce s1 o (dl & rp & qu & I1 & I2 & I3 & I4 & I5 & I6) Hs Hg Hn.
  pose proof (step_uniq _ _ _ _ _ I5 Hg Hs) as U1.
  split.
  - intros id r Hin Hl.
    destruct (step_nonlocal _ _ _ _ _ Hs id r Hin Hl) as (sq & ty & sz & d & rq & -> & _).
    exfalso. exact (Hn sq ty sz d eq_refl).
  - (* a request taken while the connection is up puts its frame at the end of the queue to the server and of the pending
       map; any other step that is no response sends nothing and, if it leaves the connection up, leaves the map *)
    pose proof (step_sents _ _ _ _ _ Hs) as Hso. pose proof (step_pending _ _ _ _ _ Hs) as Hp.
    unfold ninv. rewrite sent_pairs_snoc. cbn [fst snd n_cli n_up n_down n_served]. rewrite Hso. clear Hso.
    destruct (is_req ce) as [rq|] eqn:R; [destruct (failed (n_cli n)) eqn:F|].
    + exists dl, rp, qu. rewrite !app_nil_r. split6; try assumption. intro F1. destruct (Hp F1) as [F0 _]. congruence.
    + unfold guard1 in Hg. rewrite R, F in Hg.
      destruct (lookup (next_seq M (seq (n_cli n))) (pending (n_cli n))) eqn:L; [discriminate|].
      exists dl, rp, (qu ++ [(next_seq M (seq (n_cli n)), rq)]). cbn [map mseq req_msg]. split6; try assumption.
      * rewrite I1, <- !app_assoc. reflexivity.
      * rewrite I2, map_app. reflexivity.
      * intro F1. rewrite (proj2 (Hp F1)), (remove_key_absent _ _ L), (I6 eq_refl), app_assoc, rev_unit. reflexivity.
    + exists dl, rp, qu. rewrite !app_nil_r. split6; try assumption. intro F1. destruct (Hp F1) as [F0 P].
      rewrite P, <- (I6 F0). destruct ce; try reflexivity. destruct (Hn _ _ _ _ eq_refl).
Qed.

Lemma nstep_ok : forall proc M l n e, ninv proc l n ->
  match cli_ev n e with
  | None => ninv proc l (nstep proc M n e) /\ n_cli (nstep proc M n e) = n_cli n
  | Some ce => forall s1 o, step M (n_cli n) ce = (s1, o) -> guard1 M (n_cli n) ce = true ->
      e2e_entry proc l (ce, o) /\ ninv proc (l ++ [(ce, o)]) (nstep proc M n e) /\ n_cli (nstep proc M n e) = s1
  end.
Proof.
  intros proc M l n e Hinv.
  destruct e as [rq|rq| | |c|id0]; cbn [cli_ev].
  (* NCall, NCallRaced, NFail, NTimeout: [ninv_client] *)
  all: try solve [intros s1 o Hs Hg; cbn [nstep cli_ev]; rewrite Hs;
    destruct (ninv_client proc M l n _ s1 o Hinv Hs Hg) as [H1 H2]; [discriminate | auto]].
  - (* NServe *)
    cbn [nstep]. destruct (n_dead n); [split; [exact Hinv | reflexivity]|].
    destruct (n_up n) as [|m up] eqn:Eu; [split; [exact Hinv | reflexivity]|].
    (* a server that dies changes nothing the invariant speaks of *)
    destruct (srv_step m (proc (n_served n) m)) as [rep|] eqn:E; [|rewrite <- Eu; split; [exact Hinv | reflexivity]].
    destruct Hinv as (dl & rp & qu & I1 & I2 & I3 & I4 & I5 & I6). rewrite Eu in I2.
    destruct qu as [|p qu']; [discriminate|]. cbn [map] in I2. inversion I2; subst m up.
    split; [|reflexivity]. exists dl, (rp ++ [p]), qu'. cbn [n_cli n_up n_down n_served].
    split6.
    + rewrite I1, <- app_assoc. reflexivity.
    + reflexivity.
    + rewrite map_app, I3, map_app, replies_from_app, map_length. cbn [map replies_from].
      rewrite <- I4, E. reflexivity.
    + rewrite I4, app_length, Nat.add_assoc. symmetry. apply Nat.add_1_r.
    + exact I5.
    + intro F. rewrite (I6 F), <- app_assoc. reflexivity.
  - (* NDeliver *)
    destruct (n_down n) as [|rep down] eqn:Ed.
    + cbn [nstep cli_ev]. rewrite Ed. split; [exact Hinv | reflexivity].
    + intros s1 o Hs Hg. cbn [nstep cli_ev]. rewrite Ed, Hs. cbn [tl].
      destruct Hinv as (dl & rp & qu & I1 & I2 & I3 & I4 & I5 & I6).
      pose proof (step_uniq _ _ _ _ _ I5 Hg Hs) as U1.
      rewrite Ed in I3. destruct rp as [|[sq0 rq0] rp']; [discriminate|].
      cbn [map replies_from] in I3. inversion I3 as [[Hrep Hdown]]. clear I3. symmetry in Hrep.
      unfold fr in Hrep. cbn [fst snd] in Hrep.
      destruct (srv_step_seq _ _ _ Hrep) as (Hseq & _). cbn [mseq req_msg] in Hseq.
      (* while the connection is up the frame answered is the oldest entry of the pending map *)
      assert (Hold : failed (n_cli n) = None ->
                NoDup (map fst (pending (n_cli n))) /\ pending (n_cli n) = rev (rp' ++ qu) ++ [(sq0, rq0)]).
      { intro F. split; [apply (I5 F) | now rewrite (I6 F)]. }
      split; [|split; [|reflexivity]].
      * (* the pairing: [step_nonlocal] *)
        intros id r Hin Hl. cbn [fst snd] in *.
        destruct (step_nonlocal _ _ _ _ _ Hs id r Hin Hl) as (sq & ty & sz & d & rq & He & F & L & -> & ->).
        inversion He; subst sq ty sz d. destruct (Hold F) as [Und Hpend].
        rewrite Hseq, (lookup_unique _ _ rq0 Und) in L by (rewrite Hpend; apply in_app_iff; right; now left).
        inversion L; subst rq. exists (length dl), sq0, rq0, rep. repeat split.
        -- rewrite I1, nth_error_app2, Nat.sub_diag by apply Nat.le_refl. reflexivity.
        -- exact Hrep.
        -- now rewrite Hseq.
      * (* the frame moves from the answered to the delivered ones: [step_sents], [step_pending] *)
        pose proof (step_sents _ _ _ _ _ Hs) as Hso. cbn [is_req] in Hso.
        exists (dl ++ [(sq0, rq0)]), rp', qu. cbn [n_cli n_up n_down n_served].
        rewrite (sent_pairs_snoc_nosent _ _ _ Hso), Hso, app_nil_r, app_length, Nat.add_1_r. split6; try assumption.
        -- rewrite I1, <- app_assoc. reflexivity.
        -- rewrite I4. cbn [length]. apply Nat.add_succ_r.
        -- intro F1. destruct (step_pending _ _ _ _ _ Hs F1) as [F0 P]. destruct (Hold F0) as [Und Hpend].
           rewrite P. cbn [is_req]. rewrite Hseq, Hpend. apply remove_key_last. rewrite <- Hpend. exact Und.
Qed.

Lemma end_to_end_gen : forall proc M sched n l, ninv proc l n -> all_entries (e2e_entry proc) l ->
  guard M (n_cli n) (ntrace proc M n sched) = true ->
  all_entries (e2e_entry proc) (l ++ exec M (n_cli n) (ntrace proc M n sched)).
Proof.
  intros proc M sched. induction sched as [|e t IH]; intros n l Hinv Hl Hg.
  - cbn [ntrace exec]. now rewrite app_nil_r.
  - cbn [ntrace] in *. pose proof (nstep_ok proc M l n e Hinv) as Hstep.
    destruct (cli_ev n e) as [ce|].
    + rewrite guard_cons in Hg. apply andb_true_iff in Hg. destruct Hg as [G1 G2].
      cbn [exec]. destruct (step M (n_cli n) ce) as [s1 o] eqn:E. cbn [fst] in G2.
      destruct (Hstep s1 o eq_refl G1) as (H1 & H2 & H3).
      change ((ce, o) :: exec M s1 (ntrace proc M (nstep proc M n e) t))
        with ([(ce, o)] ++ exec M s1 (ntrace proc M (nstep proc M n e) t)).
      rewrite app_assoc, <- H3. apply IH; [exact H2 | now apply all_entries_snoc | now rewrite H3].
    + destruct Hstep as [H2 H3]. rewrite <- H3. apply IH; [exact H2 | exact Hl | now rewrite H3].
Qed.

Lemma ninv_init : forall proc, ninv proc [] net0.
Proof.
  intro proc. exists [], [], []. cbn [app length map replies_from rev net0 n_cli n_up n_down n_served sent_pairs flat_map].
  split6; try reflexivity; try (apply uniq_init).
Qed.

Theorem end_to_end : forall proc M sched,
  guard M init (ntrace proc M net0 sched) = true ->
  all_entries (e2e_entry proc) (exec M init (ntrace proc M net0 sched)).
Proof.
  intros proc M sched Hg. exact (end_to_end_gen proc M sched net0 [] (ninv_init proc) (all_entries_nil _) Hg).
Qed.

Lemma sent_pairs_sent_in : forall M es s k sq rq, nth_error (sent_pairs (exec M s es)) k = Some (sq, rq) ->
  sent_in (exec M s es) sq rq.
Proof.
  intros M es s k sq rq H. apply nth_error_In in H. unfold sent_pairs in H. apply in_flat_map in H.
  destruct H as [[e o] [Hin Hp]]. cbn [fst snd] in Hp.
  destruct (is_req e) as [rq'|] eqn:R; [|destruct Hp].
  apply in_map_iff in Hp. destruct Hp as [m [Hm Hs]]. inversion Hm; subst rq'. clear Hm.
  exists e, o. split; [exact Hin|]. split; [exact R|].
  pose proof (in_sents _ _ Hs) as Ho. destruct (exec_in _ _ _ _ _ Hin) as (s' & s1 & E).
  rewrite (step_sents _ _ _ _ _ E), R in Hs. destruct (failed s'); [destruct Hs|]. destruct Hs as [<-|[]]. exact Ho.
Qed.

(** with distinct call ids every call owns at most one frame of the connection, so the index [k] above is
    determined by the call *)
Definition pid (p : N * req) : N := rid (snd p).

Lemma sent_ids_gen : forall M es s,
  (forall id, In id (map pid (sent_pairs (exec M s es))) -> In id (req_ids es)) /\
  (NoDup (req_ids es) -> NoDup (map pid (sent_pairs (exec M s es)))).
Proof.
  intros M es. induction es as [|e es IH]; intro s; [split; [intros id [] | intros _; constructor]|].
  cbn [exec]. destruct (step M s e) as [s1 o] eqn:E. pose proof (step_sents _ _ _ _ _ E) as Hs.
  destruct (IH s1) as [I1 I2].
  unfold sent_pairs. cbn [flat_map fst snd]. fold (sent_pairs (exec M s1 es)).
  rewrite map_app, new_ids_req_ids, Hs. unfold new_ids.
  destruct (is_req e) as [rq|]; [destruct (failed s)|]; cbn [map app pid snd]; split;
    try (intros id Hin; try right; now apply I1); try exact I2.
  - (* refused: an id, no frame *) intro Hnd. apply I2. now inversion Hnd.
  - (* accepted: the ids *) intros id [Hin|Hin]; [now left | right; now apply I1].
  - (* accepted: no repetition *) intro Hnd. inversion Hnd as [|? ? Hx Hl]; subst. constructor; [|now apply I2].
    intro Hin. apply Hx. now apply I1.
Qed.

Theorem read_result_is_own_data : forall sq rq data rep, rkind rq = KRead ->
  srv_step (req_msg sq rq) (OOk data) = Some rep ->
  op_result rq (mtype rep) (msize rep) (mdata rep) =
  mkres (Z.of_N (rlen rq)) ENone (fill (N.to_nat (rlen rq)) data).
Proof.
  intros sq rq data rep Hk H.
  assert (Hty : mtype (req_msg sq rq) = TypeRead) by (cbn [req_msg mtype]; now rewrite Hk).
  destruct (read_reply _ _ _ Hty H) as (T & D & S).
  cbn [req_msg msize] in D, S. unfold req_size in D, S. rewrite Hk in D, S.
  assert (Hn : Z.to_nat (Z.of_N (rlen rq)) = N.to_nat (rlen rq)) by (now rewrite <- Z_N_nat, N2Z.id).
  rewrite T, D, S, Hn. unfold op_result, init_buf. rewrite Hk.
  change (TypeResponse =? TypeError) with false. change (TypeResponse =? TypeEOF) with false.
  change (TypeResponse =? TypeResponse) with true. cbn [orb finish].
  f_equal. unfold copy_into. rewrite repeat_length, fill_length, skipn_all2 by (rewrite repeat_length; apply Nat.le_refl).
  rewrite app_nil_r. apply firstn_all2. rewrite fill_length. apply Nat.le_refl.
Qed.

(** non-vacuity: four concurrent calls; the server answers the first two before the third is even sent,
    replies are delivered late and the timer of a caller fires in between *)
Definition ex_proc : nat -> msg -> outcome :=
  fun k m => if mtype m =? TypeRead then OOk [N.of_nat k + 10; Z.to_N (moff m / 4096)] else
             if mtype m =? TypeSync then OErr [69] else OOk [].

Example ex_end_to_end :
  dones (outs (exec seq_mod init (ntrace ex_proc seq_mod net0
    [NCall rqA; NCall rqB; NServe; NServe; NCall rqC; NCall rqE; NDeliver; NServe; NTimeout 2; NDeliver; NServe; NDeliver; NDeliver])))
  = [(1, mkres 4 ENone [10; 1; 0; 0]); (2, mkres 0 (ELocal CRWTimeout) []);
     (3, mkres (-1) (ERemote [69]) []); (5, mkres 2 ENone [13; 0])].
Proof. vm_compute. reflexivity. Qed.
