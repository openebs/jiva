(** * Rpc: executable model of the controller-replica data connection (property C15).

    Part 1: the wire codec of rpc/wire.go (Wire.Write / Wire.Read) over byte lists.
    Part 2: the client of rpc/client.go as a sequential state machine: the [loop] goroutine's view
            (handleRequest / handleResponse / replyError) plus the caller side of [operation]
            (the c.err test before the send, the select on Complete / timeout, SetError).

    Executable only; theorems are in CodecProofs.v, LoopProofs.v and Proofs.v.  Bytes are [N] (the codec never
    inspects payload bytes; header bytes produced by [le_encode] are < 256 by construction). *)
From Coq Require Import List ZArith NArith Bool Arith Lia.
Import ListNotations.
Open Scope N_scope.

(** ** little endian, as encoding/binary.LittleEndian does it *)

(** binary.Write(w, LittleEndian, v) for an unsigned v of [w] bytes: the value is truncated to the
    width (Go conversions such as uint32(len(msg.Data)) truncate the same way). *)
Fixpoint le_encode (w : nat) (n : N) : list N :=
  match w with
  | O => []
  | S w' => (n mod 256) :: le_encode w' (n / 256)
  end.

Fixpoint le_decode (bs : list N) : N :=
  match bs with
  | [] => 0
  | b :: t => b + 256 * le_decode t
  end.

(** int64 <-> its two's complement bit pattern (binary.Write of an int64 writes uint64(v)) *)
Definition two63 : Z := (2 ^ 63)%Z.
Definition two64 : Z := (2 ^ 64)%Z.
Definition u64_of_z (z : Z) : N := Z.to_N (z mod two64)%Z.
Definition z_of_u64 (u : N) : Z :=
  if (Z.of_N u <? two63)%Z then Z.of_N u else (Z.of_N u - two64)%Z.

(** ** frames: rpc/types.go Message (the fields that travel) *)
Record msg := mkmsg {
  mmagic : N;        (* MagicVersion uint16 *)
  mseq   : N;        (* Seq uint32 *)
  mtype  : N;        (* Type uint32 *)
  moff   : Z;        (* Offset int64 *)
  msize  : Z;        (* Size int64 *)
  mdata  : list N    (* Data []byte; nil and empty are the same list *)
}.

Definition magic_version : N := 6915.     (* 0x1b03 *)

(** rpc/types.go: TypeRead = iota ... *)
Definition TypeRead : N := 0.
Definition TypeWrite : N := 1.
Definition TypeResponse : N := 2.
Definition TypeError : N := 3.
Definition TypeEOF : N := 4.
Definition TypeClose : N := 5.
Definition TypePing : N := 6.
Definition TypeUpdate : N := 7.
Definition TypeSync : N := 8.
Definition TypeUnmap : N := 9.

(** Wire.Write: MagicVersion(2) Seq(4) Type(4) Offset(8) Size(8) uint32(len(Data))(4) Data *)
Definition encode (m : msg) : list N :=
  le_encode 2 (mmagic m) ++ le_encode 4 (mseq m) ++ le_encode 4 (mtype m)
  ++ le_encode 8 (u64_of_z (moff m)) ++ le_encode 8 (u64_of_z (msize m))
  ++ le_encode 4 (N.of_nat (length (mdata m))) ++ mdata m.

(** io.ReadFull of n bytes: None when the stream is shorter *)
Fixpoint split_at (n : N) (bs : list N) {struct bs} : option (list N * list N) :=
  if n =? 0 then Some ([], bs) else
  match bs with
  | [] => None
  | b :: t => match split_at (n - 1) t with
              | Some (h, r) => Some (b :: h, r)
              | None => None
              end
  end.

(** binary.Read of a w-byte unsigned field *)
Definition get (w : N) (bs : list N) : option (N * list N) :=
  match split_at w bs with
  | Some (h, r) => Some (le_decode h, r)
  | None => None
  end.

(** Result of one Wire.Read: a message and the unread rest of the stream; the "Wrong API version"
    error (the only content check Wire.Read makes); or an i/o error (EOF / unexpected EOF) because
    the stream ended inside the frame. *)
Inductive dres :=
| DOk (m : msg) (rest : list N)
| DBadMagic (got : N)
| DShort.

Definition decode_r (bs : list N) : dres :=
  match get 2 bs with None => DShort | Some (mg, b1) =>
  if negb (mg =? magic_version) then DBadMagic mg else
  match get 4 b1 with None => DShort | Some (sq, b2) =>
  match get 4 b2 with None => DShort | Some (ty, b3) =>
  match get 8 b3 with None => DShort | Some (off, b4) =>
  match get 8 b4 with None => DShort | Some (sz, b5) =>
  match get 4 b5 with None => DShort | Some (len, b6) =>
  match split_at len b6 with None => DShort | Some (d, rest) =>
    DOk (mkmsg mg sq ty (z_of_u64 off) (z_of_u64 sz) d) rest
  end end end end end end end.

Definition decode (bs : list N) : option (msg * list N) :=
  match decode_r bs with DOk m r => Some (m, r) | _ => None end.

(** repeated Wire.Read on one stream, as Client.read / Server.readWrite do: the messages read until
    the first error, and how it ended ([EndClean] = end of stream exactly at a frame boundary). *)
Inductive dend := EndClean | EndBadMagic (got : N) | EndShort.

Fixpoint decode_many (fuel : nat) (bs : list N) : list msg * dend :=
  match bs with
  | [] => ([], EndClean)
  | _ :: _ =>
    match fuel with
    | O => ([], EndShort)
    | S f =>
      match decode_r bs with
      | DOk m rest => let '(ms, e) := decode_many f rest in (m :: ms, e)
      | DBadMagic g => ([], EndBadMagic g)
      | DShort => ([], EndShort)
      end
    end
  end.

(** every frame has at least 30 bytes, so [length bs] is enough fuel *)
Definition decode_stream (bs : list N) : list msg * dend := decode_many (length bs) bs.

(** field ranges of a message as the Go types bound them *)
Definition wf (m : msg) : Prop :=
  mmagic m = magic_version /\ mseq m < 2 ^ 32 /\ mtype m < 2 ^ 32 /\
  (- two63 <= moff m < two63)%Z /\ (- two63 <= msize m < two63)%Z /\
  N.of_nat (length (mdata m)) < 2 ^ 32.

Definition wfb (m : msg) : bool :=
  (mmagic m =? magic_version) && (mseq m <? 2 ^ 32) && (mtype m <? 2 ^ 32)
  && (- two63 <=? moff m)%Z && (moff m <? two63)%Z && (- two63 <=? msize m)%Z && (msize m <? two63)%Z
  && (N.of_nat (length (mdata m)) <? 2 ^ 32).

(** ** the client *)

Inductive kind := KRead | KWrite | KSync | KPing | KUnmap.

Definition type_of_kind (k : kind) : N :=
  match k with KRead => TypeRead | KWrite => TypeWrite | KSync => TypeSync | KPing => TypePing | KUnmap => TypeUnmap end.

(** one call of ReadAt(buf, off) / WriteAt(buf, off) / Sync() / Ping() / Unmap(off, len) *)
Record req := mkreq {
  rid   : N;          (* identity of the call (the harness: goroutine number) *)
  rkind : kind;
  roff  : Z;
  rlen  : N;          (* read: len(buf); unmap: length *)
  rdata : list N      (* write: buf *)
}.

(** the Message built in [operation] from the arguments the exported methods pass *)
Definition req_off (r : req) : Z := match rkind r with KSync | KPing => 0%Z | _ => roff r end.
Definition req_size (r : req) : Z :=
  match rkind r with
  | KRead | KUnmap => Z.of_N (rlen r)
  | KWrite => Z.of_nat (length (rdata r))
  | KSync | KPing => 0%Z
  end.
Definition req_data (r : req) : list N := match rkind r with KWrite => rdata r | _ => [] end.
(** handleRequest: req.MagicVersion = MagicVersion; req.Seq = c.nextSeq() *)
Definition req_msg (sq : N) (r : req) : msg :=
  mkmsg magic_version sq (type_of_kind (rkind r)) (req_off r) (req_size r) (req_data r).

(** c.err: what the connection failed with *)
Inductive cerr := CTransport | CRWTimeout | CPingTimeout.

(** error returned to the caller: nil, io.EOF, errors.New(string(msg.Data)) for a TypeError sent by
    the peer, or the connection's error (c.err, also as text through replyError) *)
Inductive rerr := ENone | EEOF | ERemote (text : list N) | ELocal (c : cerr).

Record result := mkres {
  r_n   : Z;           (* the int returned (0 for Ping) *)
  r_err : rerr;
  r_buf : list N       (* read: buf after the call; otherwise [] *)
}.

(** the caller's buffer: the harness passes zero-filled buffers *)
Definition init_buf (r : req) : list N :=
  match rkind r with KRead => repeat 0 (N.to_nat (rlen r)) | _ => [] end.

(** Go's copy(dst, src) *)
Definition copy_into (dst src : list N) : list N :=
  firstn (length dst) src ++ skipn (length src) dst.

(** Sync / Unmap return (-1, err) or (0, nil); Ping returns only the error *)
Definition finish (k : kind) (r : result) : result :=
  match k with
  | KRead | KWrite => r
  | KSync | KUnmap => mkres (match r_err r with ENone => 0 | _ => -1 end)%Z (r_err r) (r_buf r)
  | KPing => mkres 0%Z (r_err r) (r_buf r)
  end.

(** [operation] after <-msg.Complete, the loop having stored Type/Size/Data of the response *)
Definition op_result (rq : req) (ty : N) (sz : Z) (d : list N) : result :=
  let buf0 := init_buf rq in
  let buf := match rkind rq with
             | KRead => if (ty =? TypeResponse) || (ty =? TypeEOF) then copy_into buf0 d else buf0
             | _ => buf0
             end in
  finish (rkind rq)
    (if ty =? TypeError then mkres 0%Z (ERemote d) buf
     else if ty =? TypeEOF then mkres sz EEOF buf
     else mkres sz ENone buf).

(** [operation] returning c.err / the timeout error / the TypeError produced by replyError *)
Definition local_result (rq : req) (c : cerr) : result :=
  finish (rkind rq) (mkres 0%Z (ELocal c) (init_buf rq)).

(** operation's timeout branch: err := ErrRWTimeout; if msg.Type == TypePing { err = ErrPingTimeout } *)
Definition timeout_err (k : kind) : cerr := match k with KPing => CPingTimeout | _ => CRWTimeout end.

Inductive event :=
| Req (r : req)                            (* a call enters operation and its message reaches the loop *)
| ReqRaced (r : req)                       (* a call that passed the c.err test before the failure but whose
                                              message reached c.requests after the loop had returned *)
| Resp (sq ty : N) (sz : Z) (d : list N)   (* Client.read delivered a frame to c.responses *)
| TransportErr (c : cerr)                  (* the loop takes a Message{transportErr} from c.responses
                                              (SetError by read(), write(), a timed out caller, monitorPing) *)
| Timeout (id : N).                        (* the timer of caller [id] fires first in operation's select *)

Inductive out :=
| Sent (m : msg)                 (* c.send <- req : the frame Client.write puts on the wire *)
| Done (id : N) (r : result)     (* the call of [id] returns *)
| Closed                         (* c.closeChan <- struct{}{} : the failure is reported (monitorPing -> monitorChan) *)
| Unknown (sq : N)               (* "IOSeq: %v not found" *)
| Void (id : N).                 (* Complete signalled for a caller that has already returned *)

Record st := mkst {
  seq     : N;                   (* c.seq *)
  pending : list (N * req);      (* c.messages, newest first, at most one entry per key *)
  failed  : option cerr;         (* c.err *)
  waiting : list req;            (* callers blocked in operation's select *)
  errq    : N                    (* SetError calls made by timed out callers *)
}.

Definition init : st := mkst 0 [] None [] 0.

Fixpoint lookup (sq : N) (p : list (N * req)) : option req :=
  match p with
  | [] => None
  | (k, r) :: p' => if k =? sq then Some r else lookup sq p'
  end.

Fixpoint remove_key (sq : N) (p : list (N * req)) : list (N * req) :=
  match p with
  | [] => []
  | (k, r) :: p' => if k =? sq then remove_key sq p' else (k, r) :: remove_key sq p'
  end.

Fixpoint find_wait (id : N) (w : list req) : option req :=
  match w with
  | [] => None
  | r :: w' => if rid r =? id then Some r else find_wait id w'
  end.

Fixpoint rm_wait (id : N) (w : list req) : list req :=
  match w with
  | [] => []
  | r :: w' => if rid r =? id then rm_wait id w' else r :: rm_wait id w'
  end.

(** req.Complete <- struct{}{} : the caller returns if it is still in its select *)
Definition deliver (w : list req) (rq : req) (r : result) : list req * list out :=
  match find_wait (rid rq) w with
  | Some _ => (rm_wait (rid rq) w, [Done (rid rq) r])
  | None => (w, [Void (rid rq)])
  end.

(** c.nextSeq: c.seq++ on a uint32; [M] is 2^32 (a parameter so that wrap-around can be exhibited
    on small instances) *)
Definition next_seq (M : N) (s : N) : N := (s + 1) mod M.

(** handleRequest *)
Definition handle_request (M : N) (s : st) (rq : req) : st * list out :=
  match failed s with
  | Some c =>
      (* c.replyError(req): delete(c.messages, req.Seq) with the unassigned Seq 0; TypeError; Complete *)
      let '(w, o) := deliver (waiting s) rq (local_result rq c) in
      (mkst (seq s) (remove_key 0 (pending s)) (failed s) w (errq s), o)
  | None =>
      let sq := next_seq M (seq s) in
      (* c.messages[req.Seq] = req overwrites an entry that still uses the key *)
      (mkst sq ((sq, rq) :: remove_key sq (pending s)) None (waiting s) (errq s), [Sent (req_msg sq rq)])
  end.

(** the "Terminate all in flight" loop: replyError for every entry of c.messages *)
Fixpoint reply_all (c : cerr) (p : list (N * req)) (w : list req) : list req * list out :=
  match p with
  | [] => (w, [])
  | (_, rq) :: p' =>
      let '(w1, o1) := deliver w rq (local_result rq c) in
      let '(w2, o2) := reply_all c p' w1 in
      (w2, o1 ++ o2)
  end.

(** handleResponse, resp.transportErr != nil *)
Definition handle_transport (s : st) (c : cerr) : st * list out :=
  let '(w, o) := reply_all c (pending s) (waiting s) in
  (mkst (seq s) [] (Some c) w (errq s), Closed :: o).

(** handleResponse, an ordinary frame *)
Definition handle_response (s : st) (sq ty : N) (sz : Z) (d : list N) : st * list out :=
  match lookup sq (pending s) with
  | Some rq =>
      match failed s with
      | Some c =>
          let '(w, o) := deliver (waiting s) rq (local_result rq c) in
          (mkst (seq s) (remove_key sq (pending s)) (failed s) w (errq s), o)
      | None =>
          let '(w, o) := deliver (waiting s) rq (op_result rq ty sz d) in
          (mkst (seq s) (remove_key sq (pending s)) None w (errq s), o)
      end
  | None => (s, [Unknown sq])
  end.

Definition add_waiting (s : st) (rq : req) : st :=
  mkst (seq s) (pending s) (failed s) (rq :: waiting s) (errq s).

(** One event.  After c.err is set the loop returns, so nothing is taken from c.requests or
    c.responses any more; callers then leave [operation] at its c.err test. *)
Definition step (M : N) (s : st) (e : event) : st * list out :=
  match e with
  | Req rq =>
      match failed s with
      | Some c => (s, [Done (rid rq) (local_result rq c)])       (* if c.err != nil { return 0, c.err } *)
      | None => handle_request M (add_waiting s rq) rq
      end
  | ReqRaced rq =>
      match failed s with
      | Some _ => (add_waiting s rq, [])                          (* the message stays in c.requests *)
      | None => handle_request M (add_waiting s rq) rq
      end
  | Resp sq ty sz d =>
      match failed s with
      | Some _ => (s, [])
      | None => handle_response s sq ty sz d
      end
  | TransportErr c =>
      match failed s with
      | Some _ => (s, [])
      | None => handle_transport s c
      end
  | Timeout id =>
      match find_wait id (waiting s) with
      | Some rq =>
          (* return 0, err after c.SetError(err) *)
          (mkst (seq s) (pending s) (failed s) (rm_wait id (waiting s)) (errq s + 1),
           [Done id (local_result rq (timeout_err (rkind rq)))])
      | None => (s, [])
      end
  end.

Definition seq_mod : N := 2 ^ 32.

(** the log of a run: every event with what it produced *)
Fixpoint exec (M : N) (s : st) (es : list event) : list (event * list out) :=
  match es with
  | [] => []
  | e :: es' => let '(s1, o) := step M s e in (e, o) :: exec M s1 es'
  end.

Fixpoint run (M : N) (s : st) (es : list event) : st :=
  match es with
  | [] => s
  | e :: es' => run M (fst (step M s e)) es'
  end.

Definition outs (l : list (event * list out)) : list out := flat_map snd l.

Fixpoint dones (os : list out) : list (N * result) :=
  match os with
  | [] => []
  | Done id r :: t => (id, r) :: dones t
  | _ :: t => dones t
  end.

(** the guard under which sequence numbers identify requests: whenever the loop assigns a number,
    no request that is still pending carries it.  (It holds in particular when fewer than 2^32
    requests are issued on the connection, see LoopProofs.guard_of_count.) *)
Definition is_req (e : event) : option req :=
  match e with Req r | ReqRaced r => Some r | _ => None end.

Fixpoint guard (M : N) (s : st) (es : list event) : bool :=
  match es with
  | [] => true
  | e :: es' =>
      (match is_req e, failed s with
       | Some _, None => match lookup (next_seq M (seq s)) (pending s) with None => true | Some _ => false end
       | _, _ => true
       end) && guard M (fst (step M s e)) es'
  end.

Definition req_ids (es : list event) : list N :=
  flat_map (fun e => match is_req e with Some r => [rid r] | None => [] end) es.

Fixpoint count_reqs (es : list event) : nat :=
  match es with
  | [] => O
  | e :: es' => (match is_req e with Some _ => 1 | None => 0 end + count_reqs es')%nat
  end.
