(** * Rpc: the client state machine (rpc/client.go) for every modulus M of the sequence counter (the code
    has M = 2^32): [step] inverted into its cases ([step_spec]), one lemma per aspect of a step, each over the
    equation [step M s e = (s1, o)] that a run hands out, then the inductions over runs.
    A run keeps two invariants here, each by one step lemma and one induction: [pend_inv] (every pending entry was put on
    the wire by its call's own request event; [step_match], [matching]) and, under the guard, [uniq_inv] (one entry per
    number, no blocked caller without one; [step_uniq], [no_orphan]).  Proofs.v adds [jinv] (the state against the whole
    trace, for the oracle), ServerProofs.v [ninv] (the state against the two pipes).
    [M] is an argument of every lemma and not a section variable: the check's lint refuses that word. *)
From Coq Require Import List ZArith NArith Bool Arith Lia Permutation.
From Jiva Require Import Rpc.Model Rpc.Corr.
Import ListNotations.
Open Scope N_scope.

Definition wids (w : list req) : list N := map rid w.
Definition done_ids (os : list out) : list N := map fst (dones os).
Definition is_local (r : result) : bool := match r_err r with ELocal _ => true | _ => false end.
Definition new_ids (e : event) : list N := match is_req e with Some r => [rid r] | None => [] end.
Definition log := list (event * list out).

(** ** lists, logs, runs *)
Lemma NoDup_app_iff : forall (a b : list N),
  NoDup (a ++ b) <-> NoDup a /\ NoDup b /\ forall x, In x a -> ~ In x b.
Proof.
  induction a as [|y a IH]; intro b; cbn [app].
  - split; [intro H; repeat split; [constructor | exact H | intros x []] | tauto].
  - split.
    + intro H. inversion H as [|? ? Hy Hab]; subst. apply IH in Hab. destruct Hab as (Ha & Hb & Hd).
      rewrite in_app_iff in Hy. repeat split; [constructor; tauto | exact Hb|].
      intros x [<-|Hx]; [tauto | now apply Hd].
    + intros (Ha & Hb & Hd). inversion Ha as [|? ? Hy Ha']; subst. constructor.
      * rewrite in_app_iff. intros [H|H]; [exact (Hy H) | exact (Hd y (or_introl eq_refl) H)].
      * apply IH. repeat split; [exact Ha' | exact Hb | intros x Hx; apply Hd; now right].
Qed.

(** moving one step's share [u] of a partition [y ++ u] of [t] to the end of the run *)
Lemma perm_step : forall x y z u v t : list N,
  Permutation (y ++ u) t -> Permutation (x ++ v) (y ++ z) -> Permutation (x ++ u ++ v) (t ++ z).
Proof.
  intros x y z u v t P1 P2. rewrite <- P1, (Permutation_app_comm u v), app_assoc, P2, <- !app_assoc.
  apply Permutation_app_head, Permutation_app_comm.
Qed.

Lemma perm_nodup : forall y z u t : list N, Permutation (y ++ u) t -> NoDup (t ++ z) -> NoDup (y ++ z).
Proof.
  intros y z u t P H. rewrite <- P, <- app_assoc, (Permutation_app_comm u z), app_assoc in H.
  apply NoDup_app_iff in H. tauto.
Qed.

Lemma dones_app : forall a b, dones (a ++ b) = dones a ++ dones b.
Proof.
  induction a as [|x a IH]; intro b; [reflexivity|].
  destruct x; cbn [app dones]; rewrite IH; reflexivity.
Qed.

Lemma done_ids_app : forall a b, done_ids (a ++ b) = done_ids a ++ done_ids b.
Proof. intros a b. unfold done_ids. now rewrite dones_app, map_app. Qed.

Lemma count_closed_app : forall a b, count_closed (a ++ b) = count_closed a + count_closed b.
Proof.
  induction a as [|x a IH]; intro b; [reflexivity|].
  destruct x; cbn [app count_closed]; rewrite IH; try reflexivity. apply N.add_assoc.
Qed.

Lemma in_dones : forall os id r, In (id, r) (dones os) <-> In (Done id r) os.
Proof.
  induction os as [|x os IH]; intros id r; [cbn; tauto|].
  destruct x as [m|id' r'| |sq|id']; cbn [dones In]; rewrite IH; split; try tauto;
    try (intros [H|H]; [discriminate | exact H]).
  - intros [H|H]; [inversion H; now left | now right].
  - intros [H|H]; [inversion H; now left | now right].
Qed.

Lemma in_sents : forall o m, In m (sents o) -> In (Sent m) o.
Proof.
  induction o as [|x o IH]; intros m H; [destruct H|].
  destruct x; cbn [sents] in H; try (right; now apply IH).
  destruct H as [H|H]; [left; now subst | right; now apply IH].
Qed.

Lemma outs_app : forall (a b : log), outs (a ++ b) = outs a ++ outs b.
Proof. intros a b. unfold outs. now rewrite flat_map_app. Qed.

Lemma outs_cons : forall e o (l : log), outs ((e, o) :: l) = o ++ outs l.
Proof. reflexivity. Qed.

Lemma new_ids_req_ids : forall e es, req_ids (e :: es) = new_ids e ++ req_ids es.
Proof. reflexivity. Qed.

Lemma req_ids_app : forall a b, req_ids (a ++ b) = req_ids a ++ req_ids b.
Proof. intros a b. unfold req_ids. apply flat_map_app. Qed.

Lemma exec_app : forall M a s b, exec M s (a ++ b) = exec M s a ++ exec M (run M s a) b.
Proof.
  induction a as [|e a IH]; intros s b; [reflexivity|].
  cbn [app exec run]. destruct (step M s e) as [s1 o]. cbn [fst]. now rewrite IH.
Qed.

Lemma run_app : forall M a s b, run M s (a ++ b) = run M (run M s a) b.
Proof. induction a as [|e a IH]; intros s b; [reflexivity|]. cbn [app run]. apply IH. Qed.

Lemma exec_in : forall M es s e o, In (e, o) (exec M s es) -> exists s' s1, step M s' e = (s1, o).
Proof.
  induction es as [|e0 es IH]; intros s e o Hin; [destruct Hin|].
  cbn [exec] in Hin. destruct (step M s e0) as [s1 o0] eqn:E. destruct Hin as [Hin|Hin]; [|eapply IH; eauto].
  inversion Hin; subst e0 o0. now exists s, s1.
Qed.

(** ** the waiting list and the pending map as association lists *)
Lemma assoc_unique : forall (A V : Type) (key : A -> N) (val : A -> V) (find : N -> list A -> option V),
  (forall k a l, find k (a :: l) = if key a =? k then Some (val a) else find k l) ->
  forall l a, NoDup (map key l) -> In a l -> find (key a) l = Some (val a).
Proof.
  intros A V key val find Hcons. induction l as [|a0 l IH]; intros a Hnd Hin; [destruct Hin|].
  cbn [map] in Hnd. inversion Hnd as [|? ? Hk Hl]; subst. rewrite Hcons.
  destruct Hin as [->|Hin]; [now rewrite N.eqb_refl|].
  destruct (key a0 =? key a) eqn:E; [|now apply IH].
  apply N.eqb_eq in E. exfalso. apply Hk. rewrite E. now apply in_map.
Qed.

Lemma find_wait_some : forall id w r, find_wait id w = Some r -> In r w /\ rid r = id.
Proof.
  induction w as [|x w IH]; intros r H; cbn [find_wait] in H; [discriminate|].
  destruct (rid x =? id) eqn:E.
  - inversion H; subst. apply N.eqb_eq in E. split; [now left | exact E].
  - destruct (IH r H) as [H1 H2]. split; [now right | exact H2].
Qed.

Lemma find_wait_none : forall id w, find_wait id w = None <-> ~ In id (wids w).
Proof.
  induction w as [|x w IH]; cbn [find_wait wids map In]; [tauto|].
  destruct (rid x =? id) eqn:E.
  - apply N.eqb_eq in E. split; [discriminate | intro H; exfalso; apply H; now left].
  - apply N.eqb_neq in E. fold (wids w). rewrite IH. tauto.
Qed.

Lemma find_wait_unique : forall w r, NoDup (wids w) -> In r w -> find_wait (rid r) w = Some r.
Proof. apply (assoc_unique _ _ rid (fun r => r) find_wait). reflexivity. Qed.

Lemma in_rm_wait : forall id w r, In r (rm_wait id w) <-> In r w /\ rid r <> id.
Proof.
  induction w as [|x w IH]; intro r; cbn [rm_wait In]; [tauto|].
  destruct (rid x =? id) eqn:E.
  - apply N.eqb_eq in E. rewrite IH. split; [tauto|]. intros [[H|H] Hn]; [subst; contradiction | tauto].
  - apply N.eqb_neq in E. cbn [In]. rewrite IH. split; [intros [H|H]; [subst; tauto | tauto] | tauto].
Qed.

Lemma rm_wait_absent : forall id w, find_wait id w = None -> rm_wait id w = w.
Proof.
  induction w as [|x w IH]; intro H; cbn [find_wait rm_wait] in *; [reflexivity|].
  destruct (rid x =? id); [discriminate|]. now rewrite IH.
Qed.

Lemma rm_wait_perm : forall id w r, NoDup (wids w) -> find_wait id w = Some r ->
  Permutation (wids (rm_wait id w) ++ [id]) (wids w).
Proof.
  induction w as [|x w IH]; intros r Hnd H; cbn [find_wait rm_wait] in *; [discriminate|].
  cbn [wids map] in Hnd. inversion Hnd as [|? ? Hx Hw]; subst. destruct (rid x =? id) eqn:E.
  - apply N.eqb_eq in E. subst id. rewrite rm_wait_absent by (now apply find_wait_none).
    symmetry. apply Permutation_cons_append.
  - cbn [wids map app]. apply perm_skip. exact (IH r Hw H).
Qed.

Lemma lookup_unique : forall (p : list (N * req)) k v, NoDup (map fst p) -> In (k, v) p -> lookup k p = Some v.
Proof. intros p k v. apply (assoc_unique _ _ fst snd lookup). intros k0 [k' v'] l. reflexivity. Qed.

Lemma lookup_in : forall sq p r, lookup sq p = Some r -> In (sq, r) p.
Proof.
  induction p as [|[k x] p IH]; intros r H; cbn [lookup] in H; [discriminate|].
  destruct (k =? sq) eqn:E.
  - apply N.eqb_eq in E. inversion H; subst. now left.
  - right. now apply IH.
Qed.

Lemma lookup_none : forall sq p, lookup sq p = None <-> ~ In sq (map fst p).
Proof.
  induction p as [|[k x] p IH]; cbn [lookup map fst In]; [tauto|].
  destruct (k =? sq) eqn:E.
  - apply N.eqb_eq in E. split; [discriminate | intro H; exfalso; apply H; now left].
  - apply N.eqb_neq in E. rewrite IH. tauto.
Qed.

Lemma in_remove_key : forall sq p k r, In (k, r) (remove_key sq p) <-> In (k, r) p /\ k <> sq.
Proof.
  induction p as [|[k0 x] p IH]; intros k r; cbn [remove_key In]; [tauto|].
  destruct (k0 =? sq) eqn:E.
  - apply N.eqb_eq in E. rewrite IH. split; [tauto|]. intros [[H|H] Hn]; [inversion H; subst; contradiction | tauto].
  - apply N.eqb_neq in E. cbn [In]. rewrite IH. split; [|tauto].
    intros [H|H]; [inversion H; subst; tauto | tauto].
Qed.

Lemma remove_key_absent : forall sq p, lookup sq p = None -> remove_key sq p = p.
Proof.
  induction p as [|[k x] p IH]; intro H; cbn [remove_key lookup] in *; [reflexivity|].
  destruct (k =? sq); [discriminate|]. now rewrite IH.
Qed.

Lemma keys_remove_key : forall sq p k, In k (map fst (remove_key sq p)) -> In k (map fst p) /\ k <> sq.
Proof.
  intros sq p k H. apply in_map_iff in H. destruct H as [[k' r] [Hk Hin]]. cbn [fst] in Hk. subst k'.
  apply in_remove_key in Hin. destruct Hin as [Hin Hne]. split; [|exact Hne].
  apply in_map_iff. exists (k, r). split; [reflexivity | exact Hin].
Qed.

Lemma nodup_remove_key : forall sq (p : list (N * req)), NoDup (map fst p) -> NoDup (map fst (remove_key sq p)).
Proof.
  induction p as [|[k x] p IH]; intro H; cbn [remove_key]; [exact H|].
  cbn [map fst] in H. inversion H as [|? ? Hk Hp]; subst.
  destruct (k =? sq); [now apply IH|].
  cbn [map fst]. constructor; [|now apply IH].
  intro Hin. apply keys_remove_key in Hin. tauto.
Qed.

Lemma remove_key_last : forall (l : list (N * req)) k v, NoDup (map fst (l ++ [(k, v)])) -> remove_key k (l ++ [(k, v)]) = l.
Proof.
  induction l as [|[k0 v0] l IH]; intros k v Hnd; cbn [app remove_key]; [now rewrite N.eqb_refl|].
  cbn [app map fst] in Hnd. inversion Hnd as [|? ? Hk Hl]; subst.
  destruct (k0 =? k) eqn:E; [|now rewrite IH].
  apply N.eqb_eq in E. subst. exfalso. apply Hk. rewrite map_app, in_app_iff. right. now left.
Qed.

(** ** delivering a result: [deliver] and [reply_all] in closed form *)
Definition answer (w : list req) (rq : req) (r : result) : out :=
  match find_wait (rid rq) w with Some _ => Done (rid rq) r | None => Void (rid rq) end.

Lemma deliver_eq : forall w rq r, deliver w rq r = (rm_wait (rid rq) w, [answer w rq r]).
Proof.
  intros w rq r. unfold deliver, answer. destruct (find_wait (rid rq) w) eqn:E; [reflexivity|].
  now rewrite rm_wait_absent.
Qed.

Lemma answer_done : forall w rq r0 id r, answer w rq r0 = Done id r -> id = rid rq /\ r = r0.
Proof.
  intros w rq r0 id r H. unfold answer in H. destruct (find_wait (rid rq) w); inversion H. split; reflexivity.
Qed.

Lemma answer_perm : forall w rq r, NoDup (wids w) ->
  Permutation (wids (rm_wait (rid rq) w) ++ done_ids [answer w rq r]) (wids w).
Proof.
  intros w rq r Hnd. unfold answer, done_ids. destruct (find_wait (rid rq) w) eqn:E; cbn [dones map fst].
  - exact (rm_wait_perm _ _ _ Hnd E).
  - now rewrite rm_wait_absent, app_nil_r.
Qed.

Lemma answer_quiet : forall w rq r o,
  sents (answer w rq r :: o) = sents o /\ count_closed (answer w rq r :: o) = count_closed o.
Proof. intros w rq r o. unfold answer. destruct (find_wait (rid rq) w); split; reflexivity. Qed.

Lemma r_err_finish : forall k r, r_err (finish k r) = r_err r.
Proof. intros [] r; reflexivity. Qed.

Lemma local_result_err : forall rq c, r_err (local_result rq c) = ELocal c.
Proof. intros rq c. unfold local_result. now rewrite r_err_finish. Qed.

Lemma op_result_err : forall rq ty sz d, r_err (op_result rq ty sz d) =
  if ty =? TypeError then ERemote d else if ty =? TypeEOF then EEOF else ENone.
Proof.
  intros rq ty sz d. unfold op_result. rewrite r_err_finish.
  destruct (ty =? TypeError); [reflexivity|]. destruct (ty =? TypeEOF); reflexivity.
Qed.

Inductive replies (c : cerr) : list (N * req) -> list req -> list req -> list out -> Prop :=
| replies_nil : forall w, replies c [] w w []
| replies_cons : forall sq rq p w w2 o, replies c p (rm_wait (rid rq) w) w2 o ->
    replies c ((sq, rq) :: p) w w2 (answer w rq (local_result rq c) :: o).

Lemma reply_all_replies : forall c p w w2 o, reply_all c p w = (w2, o) -> replies c p w w2 o.
Proof.
  induction p as [|[sq rq] p IH]; intros w w2 o H; cbn [reply_all] in H.
  - inversion H; subst. constructor.
  - rewrite deliver_eq in H. destruct (reply_all c p (rm_wait (rid rq) w)) as [w2' o2] eqn:E.
    inversion H; subst. constructor. now apply IH.
Qed.

Lemma replies_dones : forall c p w w2 o, replies c p w w2 o -> forall id r, In (Done id r) o ->
  exists sq rq, In (sq, rq) p /\ id = rid rq /\ r = local_result rq c.
Proof.
  induction 1 as [w|sq rq p w w2 o _ IH]; intros id r Hin; [destruct Hin|].
  destruct Hin as [Hin|Hin].
  - apply answer_done in Hin. exists sq, rq. split; [now left | exact Hin].
  - destruct (IH id r Hin) as (sq' & rq' & Hp & Hx). exists sq', rq'. split; [now right | exact Hx].
Qed.

Lemma replies_left : forall c p w w2 o, replies c p w w2 o ->
  forall x, In x w2 <-> In x w /\ forall sq rq, In (sq, rq) p -> rid rq <> rid x.
Proof.
  induction 1 as [w|sq rq p w w2 o _ IH]; intro x.
  - split; [intro H; split; [exact H | intros sq rq []] | tauto].
  - rewrite IH, in_rm_wait. split.
    + intros [[Hx Hne] Hall]. split; [exact Hx|]. intros sq' rq' [Heq|Hin]; [|eauto].
      inversion Heq; subst. auto.
    + intros [Hx Hall]. split; [split; [exact Hx|] | intros sq' rq' Hin; apply (Hall sq'); now right].
      intro Heq. apply (Hall sq rq); [now left | now symmetry].
Qed.

Lemma replies_covers : forall c p w w2 o, replies c p w w2 o ->
  forall x, In x w -> (exists sq rq, In (sq, rq) p /\ rid rq = rid x) ->
  exists r, In (Done (rid x) r) o /\ r_err r = ELocal c.
Proof.
  induction 1 as [w|sq rq p w w2 o _ IH]; intros x Hx (sq' & rq' & Hp & Hid); [destruct Hp|].
  destruct (N.eq_dec (rid rq) (rid x)) as [Heq|Hne].
  - exists (local_result rq c). split; [left | apply local_result_err].
    unfold answer. rewrite Heq. destruct (find_wait (rid x) w) eqn:E; [reflexivity|].
    apply find_wait_none in E. exfalso. apply E. now apply in_map.
  - destruct Hp as [Hp|Hp]; [inversion Hp; subst; contradiction|].
    destruct (IH x) as (r & Hr & He).
    + apply in_rm_wait. split; [exact Hx | auto].
    + exists sq', rq'. auto.
    + exists r. split; [now right | exact He].
Qed.

Lemma replies_perm : forall c p w w2 o, replies c p w w2 o -> NoDup (wids w) ->
  Permutation (wids w2 ++ done_ids o) (wids w).
Proof.
  induction 1 as [w|sq rq p w w2 o _ IH]; intro Hnd.
  - apply Permutation_refl' , app_nil_r.
  - pose proof (answer_perm w rq (local_result rq c) Hnd) as P1.
    change (answer w rq (local_result rq c) :: o) with ([answer w rq (local_result rq c)] ++ o).
    rewrite done_ids_app, <- (app_nil_r (wids w)). apply (perm_step _ _ _ _ _ _ P1).
    rewrite app_nil_r. apply IH. rewrite <- (app_nil_r (wids w)) in Hnd.
    apply (perm_nodup _ _ _ _ P1) in Hnd. now rewrite app_nil_r in Hnd.
Qed.

Lemma replies_quiet : forall c p w w2 o, replies c p w w2 o -> sents o = [] /\ count_closed o = 0.
Proof.
  induction 1 as [w|sq rq p w w2 o _ IH]; [split; reflexivity|].
  destruct (answer_quiet w rq (local_result rq c) o) as [-> ->]. exact IH.
Qed.

(** ** one step *)

(* the premises have names ([F], [R], [L], [E], [Hr]) because scripts here and in Proofs.v use them after [destruct] of a
   [step_case] *)
Inductive step_case (M : N) (s : st) : event -> st -> list out -> Prop :=
| step_refused : forall rq c (F : failed s = Some c),
    step_case M s (Req rq) s [Done (rid rq) (local_result rq c)]
| step_raced : forall rq c (F : failed s = Some c),
    step_case M s (ReqRaced rq) (add_waiting s rq) []
| step_accepted : forall e rq (R : is_req e = Some rq) (F : failed s = None),
    step_case M s e
      (mkst (next_seq M (seq s)) ((next_seq M (seq s), rq) :: remove_key (next_seq M (seq s)) (pending s)) None
            (rq :: waiting s) (errq s))
      [Sent (req_msg (next_seq M (seq s)) rq)]
| step_resp_dead : forall sq ty sz d c (F : failed s = Some c),
    step_case M s (Resp sq ty sz d) s []
| step_resp_unknown : forall sq ty sz d (F : failed s = None) (L : lookup sq (pending s) = None),
    step_case M s (Resp sq ty sz d) s [Unknown sq]
| step_resp : forall sq ty sz d rq (F : failed s = None) (L : lookup sq (pending s) = Some rq),
    step_case M s (Resp sq ty sz d)
      (mkst (seq s) (remove_key sq (pending s)) None (rm_wait (rid rq) (waiting s)) (errq s))
      [answer (waiting s) rq (op_result rq ty sz d)]
| step_terr_dead : forall c c' (F : failed s = Some c'),
    step_case M s (TransportErr c) s []
| step_terr : forall c w o (F : failed s = None) (Hr : replies c (pending s) (waiting s) w o),
    step_case M s (TransportErr c) (mkst (seq s) [] (Some c) w (errq s)) (Closed :: o)
| step_timeout : forall id rq (E : find_wait id (waiting s) = Some rq),
    step_case M s (Timeout id)
      (mkst (seq s) (pending s) (failed s) (rm_wait id (waiting s)) (errq s + 1))
      [Done id (local_result rq (timeout_err (rkind rq)))]
| step_timeout_none : forall id (E : find_wait id (waiting s) = None),
    step_case M s (Timeout id) s [].

Lemma accept_step : forall M s rq, failed s = None ->
  handle_request M (add_waiting s rq) rq =
  (mkst (next_seq M (seq s)) ((next_seq M (seq s), rq) :: remove_key (next_seq M (seq s)) (pending s)) None
        (rq :: waiting s) (errq s),
   [Sent (req_msg (next_seq M (seq s)) rq)]).
Proof.
  intros M s rq F. unfold handle_request, add_waiting. cbn [failed seq pending waiting errq]. rewrite F. reflexivity.
Qed.

Lemma step_spec : forall M s e s1 o, step M s e = (s1, o) -> step_case M s e s1 o.
Proof.
  intros M s e s1 o H. destruct e as [rq|rq|sq ty sz d|c|id]; cbn [step] in H.
  - destruct (failed s) as [c|] eqn:F.
    + inversion H; subst s1 o. now apply step_refused.
    + rewrite accept_step in H by exact F. inversion H. now apply (step_accepted M s (Req rq)).
  - destruct (failed s) as [c|] eqn:F.
    + inversion H; subst s1 o. now apply (step_raced M s rq c).
    + rewrite accept_step in H by exact F. inversion H. now apply (step_accepted M s (ReqRaced rq)).
  - destruct (failed s) as [c|] eqn:F.
    + inversion H; subst s1 o. now apply (step_resp_dead M s sq ty sz d c).
    + unfold handle_response in H. destruct (lookup sq (pending s)) as [rq|] eqn:L.
      * rewrite F, deliver_eq in H. inversion H. now apply step_resp.
      * inversion H; subst s1 o. now apply step_resp_unknown.
  - destruct (failed s) as [c'|] eqn:F.
    + inversion H; subst s1 o. now apply (step_terr_dead M s c c').
    + unfold handle_transport in H. destruct (reply_all c (pending s) (waiting s)) as [w o'] eqn:E.
      inversion H. apply step_terr; [exact F | now apply reply_all_replies].
  - destruct (find_wait id (waiting s)) as [rq|] eqn:E; inversion H; subst s1 o.
    + now apply step_timeout.
    + now apply step_timeout_none.
Qed.

Lemma step_failed : forall M s e s1 o, step M s e = (s1, o) ->
  failed s1 = match failed s, e with None, TransportErr c => Some c | f, _ => f end.
Proof.
  intros M s e s1 o E. apply step_spec in E.
  destruct E;
    cbn [failed add_waiting]; rewrite ?F; try reflexivity.
  - (* accepted *) destruct e; try discriminate; reflexivity.
  - (* timeout *) destruct (failed s); reflexivity.
  - (* timeout, nobody waits *) destruct (failed s); reflexivity.
Qed.

Lemma step_shape : forall M s e s1 o, step M s e = (s1, o) ->
  match is_req e, failed s with
  | Some rq, None =>
      s1 = mkst (next_seq M (seq s)) ((next_seq M (seq s), rq) :: remove_key (next_seq M (seq s)) (pending s)) None
                (rq :: waiting s) (errq s) /\
      o = [Sent (req_msg (next_seq M (seq s)) rq)]
  | _, _ => seq s1 = seq s /\ forall x, In x (pending s1) -> In x (pending s)
  end.
Proof.
  intros M s e s1 o H. apply step_spec in H.
  destruct H;
    cbn [is_req]; rewrite ?R, ?F; cbn [seq pending add_waiting]; split; auto.
  - (* resp found *) intros [k x] H. apply in_remove_key in H. tauto.
  - (* terr *) intros x [].
Qed.

Lemma step_waiting : forall M s e s1 o, step M s e = (s1, o) ->
  forall x, In x (waiting s1) -> In x (waiting s) \/ is_req e = Some x.
Proof.
  intros M s e s1 o H x Hin. apply step_spec in H. destruct H; cbn [waiting add_waiting] in Hin; auto.
  - (* raced *) destruct Hin as [<-|Hin]; auto.
  - (* accepted *) destruct Hin as [<-|Hin]; auto.
  - (* resp found *) apply in_rm_wait in Hin. tauto.
  - (* terr *) left. now apply (replies_left _ _ _ _ _ Hr).
  - (* timeout *) apply in_rm_wait in Hin. tauto.
Qed.

Lemma step_nonlocal : forall M s e s1 o, step M s e = (s1, o) ->
  forall id r, In (Done id r) o -> is_local r = false ->
  exists sq ty sz d rq, e = Resp sq ty sz d /\ failed s = None /\ lookup sq (pending s) = Some rq /\
    id = rid rq /\ r = op_result rq ty sz d.
Proof.
  intros M s e s1 o H id r Hin Hl.
  assert (Hloc : forall rq c, r = local_result rq c -> False).
  { intros rq c ->. unfold is_local in Hl. rewrite local_result_err in Hl. discriminate. }
  apply step_spec in H. destruct H.
  - (* refused *) destruct Hin as [Hin|[]]. inversion Hin. exfalso. eauto.
  - (* raced *) destruct Hin.
  - (* accepted *) destruct Hin as [Hin|[]]. discriminate.
  - (* resp, failed *) destruct Hin.
  - (* resp unknown *) destruct Hin as [Hin|[]]. discriminate.
  - (* resp found *) destruct Hin as [Hin|[]]. apply answer_done in Hin. destruct Hin as [-> ->].
    exists sq, ty, sz, d, rq. auto.
  - (* terr, failed *) destruct Hin.
  - (* terr *) destruct Hin as [Hin|Hin]; [discriminate|].
    destruct (replies_dones _ _ _ _ _ Hr _ _ Hin) as (sq & rq & _ & _ & Hr'). exfalso. eauto.
  - (* timeout *) destruct Hin as [Hin|[]]. inversion Hin. exfalso. eauto.
  - (* timeout, nobody waits *) destruct Hin.
Qed.

Lemma step_perm : forall M s e s1 o, step M s e = (s1, o) -> NoDup (wids (waiting s)) ->
  Permutation (wids (waiting s1) ++ done_ids o) (wids (waiting s) ++ new_ids e).
Proof.
  intros M s e s1 o H Hnd. unfold new_ids. apply step_spec in H.
  destruct H;
    rewrite ?R; cbn [is_req waiting add_waiting wids map]; try reflexivity.
  - (* raced *) rewrite app_nil_r. apply Permutation_cons_append.
  - (* accepted *) rewrite app_nil_r. apply Permutation_cons_append.
  - (* resp found *) rewrite app_nil_r. now apply answer_perm.
  - (* terr *) rewrite app_nil_r. exact (replies_perm _ _ _ _ _ Hr Hnd).
  - (* timeout *) rewrite app_nil_r. exact (rm_wait_perm _ _ _ Hnd E).
Qed.

Lemma step_closed : forall M s e s1 o, step M s e = (s1, o) ->
  count_closed o = match e, failed s with TransportErr _, None => 1 | _, _ => 0 end.
Proof.
  intros M s e s1 o E. apply step_spec in E.
  destruct E;
    rewrite ?F; try reflexivity.
  - (* accepted *) destruct e; try discriminate; reflexivity.
  - (* resp found *) apply answer_quiet.
  - (* terr *) cbn [count_closed]. now rewrite (proj2 (replies_quiet _ _ _ _ _ Hr)).
Qed.

Lemma step_sents : forall M s e s1 o, step M s e = (s1, o) ->
  sents o = match is_req e, failed s with Some rq, None => [req_msg (next_seq M (seq s)) rq] | _, _ => [] end.
Proof.
  intros M s e s1 o E. apply step_spec in E.
  destruct E;
    cbn [is_req]; rewrite ?R, ?F; try reflexivity.
  - (* resp found *) apply answer_quiet.
  - (* terr *) cbn [sents]. exact (proj1 (replies_quiet _ _ _ _ _ Hr)).
Qed.

(** the pending map after a step that leaves the connection up *)
Lemma step_pending : forall M s e s1 o, step M s e = (s1, o) -> failed s1 = None ->
  failed s = None /\
  pending s1 = match is_req e, e with
               | Some rq, _ => (next_seq M (seq s), rq) :: remove_key (next_seq M (seq s)) (pending s)
               | None, Resp sq _ _ _ => remove_key sq (pending s)
               | None, _ => pending s
               end.
Proof.
  intros M s e s1 o E F1. apply step_spec in E.
  destruct E;
    cbn [failed pending add_waiting is_req] in *; rewrite ?R.
  (* the five cases of a connection that has failed or fails now *)
  all: try congruence.
  (* accepted, resp found, the two timeouts: the map is the one stated *)
  all: try (split; [assumption | reflexivity]).
  (* resp unknown: nothing to remove *)
  now rewrite remove_key_absent.
Qed.

(** ** every call is accounted for exactly once *)
Theorem callers_run : forall M es s, NoDup (wids (waiting s) ++ req_ids es) ->
  Permutation (wids (waiting (run M s es)) ++ done_ids (outs (exec M s es))) (wids (waiting s) ++ req_ids es).
Proof.
  induction es as [|e es IH]; intros s Hnd; [reflexivity|].
  cbn [exec run]. destruct (step M s e) as [s1 o] eqn:E. cbn [fst].
  rewrite new_ids_req_ids, app_assoc in Hnd. rewrite outs_cons, done_ids_app, new_ids_req_ids, (app_assoc (wids (waiting s))).
  assert (P1 : Permutation (wids (waiting s1) ++ done_ids o) (wids (waiting s) ++ new_ids e)).
  { apply (step_perm _ _ _ _ _ E). apply NoDup_app_iff in Hnd. destruct Hnd as [Hnd _]. apply NoDup_app_iff in Hnd. tauto. }
  apply (perm_step _ _ _ _ _ _ P1). apply IH. exact (perm_nodup _ _ _ _ P1 Hnd).
Qed.

Theorem at_most_once : forall M es, NoDup (req_ids es) ->
  NoDup (wids (waiting (run M init es))) /\ NoDup (done_ids (outs (exec M init es))).
Proof.
  intros M es H. rewrite <- (callers_run M es init H) in H. apply NoDup_app_iff in H. tauto.
Qed.

Theorem accounted : forall M es, NoDup (req_ids es) -> forall id, In id (req_ids es) ->
  In id (wids (waiting (run M init es))) \/ In id (done_ids (outs (exec M init es))).
Proof.
  intros M es H id Hin. apply in_app_or. exact (Permutation_in id (Permutation_sym (callers_run M es init H)) Hin).
Qed.

(** ** matching: a call that returns the outcome of a response returns the outcome of the response
    that carried the sequence number its own frame was sent with *)

Definition sent_in (l : log) (sq : N) (rq : req) : Prop :=
  exists e o, In (e, o) l /\ is_req e = Some rq /\ In (Sent (req_msg sq rq)) o.

Definition pend_inv (l : log) (s : st) : Prop :=
  forall sq rq, In (sq, rq) (pending s) -> sent_in l sq rq.

Definition entry_ok (pre : log) (x : event * list out) : Prop :=
  forall id r, In (Done id r) (snd x) -> is_local r = false ->
  exists sq ty sz d rq, fst x = Resp sq ty sz d /\ rid rq = id /\ sent_in pre sq rq /\ r = op_result rq ty sz d.

Definition log_ok (l : log) : Prop :=
  forall pre x post, l = pre ++ x :: post -> entry_ok pre x.

(** [log_ok] with the judgement of an entry against the log before it left open: [log_ok] is [all_entries entry_ok] by
    conversion, and ServerProofs.v runs the same induction with [e2e_entry]. *)
Definition all_entries (P : log -> event * list out -> Prop) (l : log) : Prop :=
  forall pre x post, l = pre ++ x :: post -> P pre x.

Lemma all_entries_nil : forall P, all_entries P [].
Proof. intros P pre x post H. destruct pre; discriminate. Qed.

Lemma all_entries_snoc : forall P l x, all_entries P l -> P l x -> all_entries P (l ++ [x]).
Proof.
  intros P l x Hl Hx pre y post Heq.
  destruct post as [|z post'] using rev_ind.
  - apply app_inj_tail in Heq. destruct Heq as [-> ->]. exact Hx.
  - clear IHpost'. rewrite app_comm_cons, app_assoc in Heq. apply app_inj_tail in Heq. destruct Heq as [Heq _].
    eapply Hl. exact Heq.
Qed.

Lemma sent_in_mono : forall l l' sq rq, sent_in l sq rq -> sent_in (l ++ l') sq rq.
Proof. intros l l' sq rq (e & o & H1 & H2 & H3). exists e, o. repeat split; auto. apply in_app_iff. now left. Qed.

Lemma step_match : forall M l s e s1 o, pend_inv l s -> step M s e = (s1, o) ->
  entry_ok l (e, o) /\ pend_inv (l ++ [(e, o)]) s1.
Proof.
  intros M l s e s1 o Hinv H. split.
  - intros id r Hin Hl. destruct (step_nonlocal _ _ _ _ _ H id r Hin Hl) as (sq & ty & sz & d & rq & -> & _ & L & -> & ->).
    exists sq, ty, sz, d, rq. repeat split. now apply Hinv, lookup_in.
  - intros sq rq Hin. apply step_shape in H. destruct (is_req e) as [rq'|] eqn:R; [destruct (failed s)|].
    + apply sent_in_mono, Hinv, H, Hin.
    + destruct H as [-> ->]. destruct Hin as [Hin|Hin].
      * inversion Hin; subst. exists e, [Sent (req_msg (next_seq M (seq s)) rq)].
        repeat split; [apply in_app_iff; right; now left | exact R | now left].
      * apply in_remove_key in Hin. apply sent_in_mono, Hinv. tauto.
    + apply sent_in_mono, Hinv, H, Hin.
Qed.

Lemma exec_match : forall M es s l, log_ok l -> pend_inv l s -> log_ok (l ++ exec M s es).
Proof.
  induction es as [|e es IH]; intros s l Hl Hp.
  - cbn. now rewrite app_nil_r.
  - cbn [exec]. destruct (step M s e) as [s1 o] eqn:E.
    destruct (step_match _ _ _ _ _ _ Hp E) as [H1 H2].
    change ((e, o) :: exec M s1 es) with ([(e, o)] ++ exec M s1 es). rewrite app_assoc.
    apply IH; [now apply (all_entries_snoc entry_ok) | exact H2].
Qed.

Theorem matching : forall M es, log_ok (exec M init es).
Proof.
  intros M es. change (exec M init es) with ([] ++ exec M init es). apply exec_match.
  - apply (all_entries_nil entry_ok).
  - intros sq rq [].
Qed.

(** ** the guard: sequence numbers identify waiting callers *)

(** only while the connection has not failed: afterwards the map is empty, and a [ReqRaced] caller waits without an
    entry *)
Definition uniq_inv (s : st) : Prop :=
  failed s = None ->
  NoDup (map fst (pending s)) /\ forall rq, In rq (waiting s) -> exists sq, In (sq, rq) (pending s).

(* the conjunct of [guard] for one event, which Model.v writes out inside the recursion ([guard_cons]) *)
Definition guard1 (M : N) (s : st) (e : event) : bool :=
  match is_req e, failed s with
  | Some _, None => match lookup (next_seq M (seq s)) (pending s) with None => true | Some _ => false end
  | _, _ => true
  end.

Lemma guard_cons : forall M s e es, guard M s (e :: es) = guard1 M s e && guard M (fst (step M s e)) es.
Proof. reflexivity. Qed.

Lemma guard_app : forall M a s b, guard M s (a ++ b) = guard M s a && guard M (run M s a) b.
Proof.
  induction a as [|e a IH]; intros s b; [reflexivity|].
  cbn [app]. rewrite !guard_cons. cbn [run]. rewrite IH. now rewrite andb_assoc.
Qed.

Lemma step_uniq : forall M s e s1 o, uniq_inv s -> guard1 M s e = true -> step M s e = (s1, o) -> uniq_inv s1.
Proof.
  intros M s e s1 o Hu Hg E. apply step_spec in E.
  destruct E.
  (* the five cases that leave the state as it is *)
  all: try exact Hu.
  all: intro F'; cbn [failed add_waiting pending waiting] in *.
  - (* raced *) congruence.
  - (* accepted: the guard says the fresh key is not pending *) unfold guard1 in Hg. rewrite R, F in Hg.
    destruct (lookup (next_seq M (seq s)) (pending s)) eqn:L; [discriminate|].
    destruct (Hu F) as [U1 U2]. rewrite remove_key_absent by exact L. split.
    + cbn [map fst]. constructor; [now apply lookup_none | exact U1].
    + intros rq' [<-|Hin]; [exists (next_seq M (seq s)); now left|].
      destruct (U2 rq' Hin) as [sq Hsq]. exists sq. now right.
  - (* resp found *) destruct (Hu F) as [U1 U2]. split; [now apply nodup_remove_key|].
    intros x Hin. apply in_rm_wait in Hin. destruct Hin as [Hin Hne].
    destruct (U2 x Hin) as [sq' Hsq']. exists sq'. apply in_remove_key. split; [exact Hsq'|].
    intros ->. rewrite (lookup_unique _ _ _ U1 Hsq') in L. congruence.
  - (* terr *) discriminate.
  - (* timeout *) destruct (Hu F') as [U1 U2]. split; [exact U1|].
    intros x Hin. apply in_rm_wait in Hin. apply U2, Hin.
Qed.

Lemma run_uniq : forall M es s, uniq_inv s -> guard M s es = true -> uniq_inv (run M s es).
Proof.
  induction es as [|e es IH]; intros s Hu Hg; [exact Hu|].
  rewrite guard_cons in Hg. apply andb_true_iff in Hg. destruct Hg as [G1 G2].
  cbn [run]. destruct (step M s e) as [s1 o] eqn:E. apply IH; [exact (step_uniq _ _ _ _ _ Hu G1 E) | exact G2].
Qed.

Lemma uniq_init : uniq_inv init.
Proof. intros _. split; [constructor | intros rq []]. Qed.

Theorem no_orphan : forall M es, guard M init es = true -> uniq_inv (run M init es).
Proof. intros M es H. apply run_uniq; [apply uniq_init | exact H]. Qed.

Lemma guard_of_count_gen : forall M es s,
  (forall sq, In sq (map fst (pending s)) -> sq <= seq s) ->
  seq s + N.of_nat (count_reqs es) < M ->
  guard M s es = true.
Proof.
  induction es as [|e es IH]; intros s Hk Hc; [reflexivity|].
  rewrite guard_cons. cbn [count_reqs] in Hc.
  destruct (step M s e) as [s1 o] eqn:E. apply step_shape in E. cbn [fst].
  (* a step that does not accept: the counter stays, no key is added *)
  assert (Hsame : seq s1 = seq s /\ (forall x, In x (pending s1) -> In x (pending s)) -> guard M s1 es = true).
  { intros [Hs Hp]. apply IH; rewrite Hs; [|lia].
    intros sq Hin. apply Hk. apply in_map_iff in Hin. destruct Hin as [x [<- Hx]]. apply in_map, Hp, Hx. }
  unfold guard1. destruct (is_req e) as [rq|]; [destruct (failed s)|]; [now apply Hsame | | now apply Hsame].
  destruct E as [-> _].
  assert (Hn : next_seq M (seq s) = seq s + 1) by (unfold next_seq; apply N.mod_small; lia).
  rewrite Hn. apply andb_true_iff. split.
  - destruct (lookup (seq s + 1) (pending s)) eqn:L; [|reflexivity].
    apply lookup_in in L. apply (in_map fst), Hk in L. cbn [fst] in L. lia.
  - apply IH; cbn [seq pending map fst].
    + intros sq [<-|Hin]; [lia|]. apply keys_remove_key in Hin. destruct Hin as [Hin _]. apply Hk in Hin. lia.
    + lia.
Qed.

Theorem guard_of_count : forall M es, N.of_nat (count_reqs es) < M -> guard M init es = true.
Proof.
  intros M es H. apply guard_of_count_gen; [intros sq [] | exact H].
Qed.

(** ** failure: everybody is released, nobody is accepted any more *)

Lemma failed_sticky : forall M es s c, failed s = Some c -> failed (run M s es) = Some c.
Proof.
  induction es as [|e es IH]; intros s c F; [exact F|]. cbn [run]. destruct (step M s e) as [s1 o] eqn:E.
  apply IH. cbn [fst]. now rewrite (step_failed _ _ _ _ _ E), F.
Qed.

Theorem later_requests_fail : forall M es s c rq, failed s = Some c ->
  step M (run M s es) (Req rq) = (run M s es, [Done (rid rq) (local_result rq c)]).
Proof.
  intros M es s c rq F. cbn [step]. now rewrite (failed_sticky M es s c F).
Qed.

Theorem fail_all_step : forall M s c, uniq_inv s -> failed s = None ->
  forall s1 o, step M s (TransportErr c) = (s1, o) ->
  (forall rq, In rq (waiting s) -> exists r, In (Done (rid rq) r) o /\ r_err r = ELocal c) /\
  (forall id r, In (Done id r) o -> r_err r = ELocal c) /\
  In Closed o /\ waiting s1 = [] /\ pending s1 = [] /\ failed s1 = Some c.
Proof.
  intros M s c Hu F s1 o H. destruct (Hu F) as [_ U2].
  apply step_spec in H. inversion H; subst; [discriminate R | congruence |].
  split; [|split; [|split; [|split; [|split]]]]; try reflexivity.
  - intros rq Hin. destruct (U2 rq Hin) as [sq Hsq].
    destruct (replies_covers _ _ _ _ _ Hr rq Hin) as [r [Hr1 Hr2]]; [now exists sq, rq|].
    exists r. split; [now right | exact Hr2].
  - intros id r [Hin|Hin]; [discriminate|].
    destruct (replies_dones _ _ _ _ _ Hr _ _ Hin) as (sq & rq & _ & _ & ->). apply local_result_err.
  - now left.
  - cbn [waiting]. destruct w as [|rq w]; [reflexivity|]. exfalso.
    destruct (proj1 (replies_left _ _ _ _ _ Hr rq) (or_introl eq_refl)) as [Hin Hno].
    destruct (U2 rq Hin) as [sq Hsq]. exact (Hno sq rq Hsq eq_refl).
Qed.

(** [errq] only counts the SetError calls of callers whose timer fired; no step reads it *)
Theorem timeout_step : forall M s rq, In rq (waiting s) -> NoDup (wids (waiting s)) ->
  step M s (Timeout (rid rq)) =
  (mkst (seq s) (pending s) (failed s) (rm_wait (rid rq) (waiting s)) (errq s + 1),
   [Done (rid rq) (local_result rq (timeout_err (rkind rq)))]).
Proof.
  intros M s rq Hin Hnd. cbn [step]. now rewrite (find_wait_unique _ _ Hnd Hin).
Qed.

(** The model's [ReqRaced] after the failure gets no answer before its own timer.  rpc/client.go's operation also selects
    on c.end, which handleResponse closes at the failure, and returns c.err at once: here the model waits longer than the
    code does. *)
Theorem raced_released_by_timeout : forall M s c rq, failed s = Some c ->
  let s1 := fst (step M s (ReqRaced rq)) in
  snd (step M s (ReqRaced rq)) = [] /\
  step M s1 (Timeout (rid rq)) =
    (mkst (seq s) (pending s) (failed s) (rm_wait (rid rq) (waiting s)) (errq s + 1),
     [Done (rid rq) (local_result rq (timeout_err (rkind rq)))]).
Proof.
  intros M s c rq F. cbn [step]. rewrite F. cbn [fst snd]. split; [reflexivity|].
  unfold add_waiting. cbn [step waiting find_wait]. rewrite N.eqb_refl.
  cbn [seq pending failed errq waiting rm_wait]. rewrite N.eqb_refl, ?F. reflexivity.
Qed.

Theorem fail_all_complete : forall M es c, NoDup (req_ids es) -> guard M init es = true ->
  failed (run M init es) = None ->
  forall id, In id (req_ids es) -> In id (done_ids (outs (exec M init (es ++ [TransportErr c])))).
Proof.
  intros M es c Hnd Hg F id Hin.
  rewrite exec_app, outs_app, done_ids_app, in_app_iff.
  destruct (accounted M es Hnd id Hin) as [Hw|Hd]; [|now left].
  right. cbn [exec]. destruct (step M (run M init es) (TransportErr c)) as [s1 o] eqn:E.
  rewrite outs_cons, app_nil_r.
  destruct (fail_all_step M _ c (no_orphan M es Hg) F s1 o E) as (H1 & _).
  unfold wids in Hw. apply in_map_iff in Hw. destruct Hw as [rq [Hid Hrq]]. subst id.
  destruct (H1 rq Hrq) as [r [Hr _]]. apply in_map_iff. exists (rid rq, r). split; [reflexivity | now apply in_dones].
Qed.
